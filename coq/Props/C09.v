(* C09 — the log store returns exactly the logical log, state and snapshot last saved.
   Statements only: each theorem follows in a line or two from lemmas of Proofs/.

   Vocabulary (Model/LogStoreSpec.v, Model/LogDBPlain.v):
     l : list pop            a run: mutations (SaveRaftState with several updates,
                             SaveSnapshots, RemoveEntriesTo, RemoveNodeData, ImportSnapshot,
                             close/reopen) interleaved with queries, over any number of
                             replicas sharing the db
     muts l                  its mutations;  wf_ops spec_init (muts l): the run respects the
                             contract of the raft core (see Model/LogStoreSpec.v)
     plain_prun l            the state of the faithful plain-format db model after the run
                             (None = the Go code would have panicked)
     plain_observe d q       the canonical answer of the model to query q
     spec_answer s q         the answer of the logical log *)
From DB Require Import Base.Bytes Gen.GenC09 Model.LogStoreSpec Model.KV Model.LogDBPlain
  Proofs.LogStoreSpec Proofs.LogDBKV Proofs.LogDBPlain.
Open Scope N_scope.

(* REFINEMENT: after every contract-abiding run, every contract-abiding observation
   (IterateEntries(low, high, maxSize), ReadRaftState, GetSnapshot, on any replica) of the
   plain-format db equals the observation of the logical log. *)
Theorem plain_refines : forall l q,
  wf_ops spec_init (muts l) = true ->
  spec_wf_query (spec_run spec_init (muts l)) q = true ->
  exists d, plain_prun l = Some d /\
            plain_observe d q = spec_answer (spec_run spec_init (muts l)) q.
Proof.
  intros l q Hwf Hq. destruct (plain_run_R l _ _ R_init Hwf) as (d & E & HR).
  exists d. split; [exact E | exact (proj2 (plain_query_R d _ q HR) Hq)].
Qed.
Print Assumptions plain_refines.

(* no mutation of such a run panics (SaveRaftState, SaveSnapshots, RemoveNodeData, ImportSnapshot: the
   write-side panics of db.go / plain.go). A query never stops a run in the model; that a contract-abiding
   query does not panic either is part of plain_refines (the logical log never answers APanic). *)
Theorem plain_no_panic : forall l, wf_ops spec_init (muts l) = true -> plain_prun l <> None.
Proof.
  intros l Hwf. destruct (plain_run_R l _ _ R_init Hwf) as (d & E & _). unfold plain_prun. now rewrite E.
Qed.
Print Assumptions plain_no_panic.

(* never a stale overwritten entry: what IterateEntries returns is what the logical log
   holds (the latest save at that index that was not truncated or removed since) *)
Theorem never_stale_entry : forall l n low high maxsz d es sz,
  wf_ops spec_init (muts l) = true ->
  spec_wf_query (spec_run spec_init (muts l)) (QIter n low high maxsz) = true ->
  plain_prun l = Some d -> p_iterate d n low high maxsz = RIter es sz ->
  forall e, In e es -> In e (n_ents (spec_run spec_init (muts l) n)).
Proof.
  intros l n low high maxsz d es sz Hwf Hq Hrun.
  exact (iterate_never_stale _ _ _ _ _ _ _ _ (plain_prun_R _ _ Hwf Hrun) Hq).
Qed.
Print Assumptions never_stale_entry.

(* never an entry outside the requested range or past the logical end *)
Theorem never_past_logical_end : forall l n low high maxsz d es sz,
  wf_ops spec_init (muts l) = true ->
  spec_wf_query (spec_run spec_init (muts l)) (QIter n low high maxsz) = true ->
  plain_prun l = Some d -> p_iterate d n low high maxsz = RIter es sz ->
  forall e, In e es ->
    low <= e_index e < high /\ e_index e <= n_last (spec_run spec_init (muts l) n).
Proof.
  intros l n low high maxsz d es sz Hwf Hq Hrun.
  exact (iterate_in_range _ _ _ _ _ _ _ _ (plain_prun_R _ _ Hwf Hrun) Hq).
Qed.
Print Assumptions never_past_logical_end.

(* never a gap: the returned entries are low, low+1, low+2, ... *)
Theorem never_gap : forall l n low high maxsz d es sz,
  wf_ops spec_init (muts l) = true ->
  spec_wf_query (spec_run spec_init (muts l)) (QIter n low high maxsz) = true ->
  plain_prun l = Some d -> p_iterate d n low high maxsz = RIter es sz ->
  contig low es.
Proof.
  intros l n low high maxsz d es sz Hwf Hq Hrun.
  exact (iterate_contig _ _ _ _ _ _ _ _ (plain_prun_R _ _ Hwf Hrun) Hq).
Qed.
Print Assumptions never_gap.

(* the answer is a prefix of the unlimited answer, and it is shorter only when the size
   limit was exceeded *)
Theorem size_limit_only_shortens : forall l n low high maxsz d es sz,
  wf_ops spec_init (muts l) = true ->
  spec_wf_query (spec_run spec_init (muts l)) (QIter n low high maxsz) = true ->
  plain_prun l = Some d -> p_iterate d n low high maxsz = RIter es sz ->
  (exists rest, filter (in_range low high) (n_ents (spec_run spec_init (muts l) n)) = es ++ rest) /\
  (es = filter (in_range low high) (n_ents (spec_run spec_init (muts l) n)) \/ maxsz < sz).
Proof.
  intros l n low high maxsz d es sz Hwf Hq Hrun.
  exact (iterate_size_limit _ _ _ _ _ _ _ _ (plain_prun_R _ _ Hwf Hrun) Hq).
Qed.
Print Assumptions size_limit_only_shortens.

(* close/reopen (the cache is dropped) changes no observation *)
Theorem reopen_preserves_obs : forall l q d,
  wf_ops spec_init (muts l) = true ->
  spec_wf_query (spec_run spec_init (muts l)) q = true ->
  plain_prun l = Some d ->
  plain_observe (p_reopen d) q = plain_observe d q.
Proof. intros l q d Hwf Hq Hrun. exact (reopen_obs _ _ _ (plain_prun_R _ _ Hwf Hrun) Hq). Qed.
Print Assumptions reopen_preserves_obs.

(* the size limit on the spec side *)
Theorem size_limit_only_shortens_spec : forall es maxsz size,
  exists rest, es = fst (take_size maxsz size es) ++ rest.
Proof. exact take_size_prefix. Qed.
Print Assumptions size_limit_only_shortens_spec.

(* non-vacuity: a run over two replicas sharing the db — append 1..4 (term 1), overwrite
   from 3 with ONE entry of term 2 (3..4 become 3), snapshot record, compaction, reopen,
   a second replica in the same SaveRaftState call — meets the contract, and a query that
   is clamped by the logical end is answered with the new entry 3 only. *)
Definition ex_n1 : nid := (1, 1).
Definition ex_n2 : nid := (17, 1).
Definition ex_e (i t g : N) : entry := mkEnt i t g 16.
Definition ex_run : list pop :=
  [ PMut (OSave [mkUp ex_n1 (mkSt 1 1 0) (mkSs 0 0 0) [ex_e 1 1 101; ex_e 2 1 102; ex_e 3 1 103; ex_e 4 1 104]]);
    PQry (QSnap ex_n1);
    PMut (OSave [mkUp ex_n1 (mkSt 2 1 2) (mkSs 0 0 0) [ex_e 3 2 203];
                 mkUp ex_n2 (mkSt 2 2 0) (mkSs 0 0 0) [ex_e 1 2 901]]);
    PMut (OSnap ex_n1 (mkSs 2 1 77));
    PMut (ORemTo ex_n1 2);
    PMut OReopen ].
Example ex_run_wf :
  wf_ops spec_init (muts ex_run) = true /\
  spec_wf_query (spec_run spec_init (muts ex_run)) (QIter ex_n1 3 9 1000) = true /\
  match plain_prun ex_run with
  | Some d => p_iterate d ex_n1 3 9 1000 = RIter [ex_e 3 2 203] 144 /\
              plain_observe d (QState ex_n1 2) = AState (Some (mkSt 2 1 2)) 3 1
  | None => False
  end.
Proof. vm_compute. repeat split; reflexivity. Qed.

(* ---------------- tan: the entry index (internal/tan/index.go) ---------------- *)
From DB Require Import Model.TanIndex Proofs.TanIndex.

(* INVARIANT of index.update: the index stays sorted, its ranges non-empty and pairwise
   disjoint (sorted_idx reads the slice from its last entry backwards) *)
Theorem tan_index_sorted_disjoint : forall es e, sorted_idx es -> wf_ie e ->
  sorted_idx (index_update es e).
Proof. exact tan_index_sorted_disjoint_proved. Qed.
Print Assumptions tan_index_sorted_disjoint.

(* LATEST WRITER WINS: after update e, [start,end] is indexed and addresses the new record,
   every previously indexed position above it is gone, and below e.start the same positions
   address the same records as before *)
Theorem tan_index_latest_writer_wins : forall es e, sorted_idx es -> wf_ie e ->
  (exists ie, In ie (index_update es e) /\ ie_start ie <= ie_start e /\ ie_end ie = ie_end e /\ same_record ie e) /\
  (forall ie, In ie (index_update es e) -> ie_end ie <= ie_end e) /\
  (forall x, x < ie_start e ->
     (forall ie', In ie' (index_update es e) -> ie_start ie' <= x <= ie_end ie' ->
        exists ie, In ie es /\ ie_start ie <= x <= ie_end ie /\ loc_eq ie' ie) /\
     (forall ie, In ie es -> ie_start ie <= x <= ie_end ie ->
        exists ie', In ie' (index_update es e) /\ ie_start ie' <= x <= ie_end ie' /\ loc_eq ie' ie)).
Proof. exact tan_index_latest_writer_wins_proved. Qed.
Print Assumptions tan_index_latest_writer_wins.

(* index.query returns a gap-free chain of index entries taken from the index, the first
   one containing low, all starting below high *)
Theorem query_contiguous : forall es low high res ok, index_query es low high = IQRes res ok ->
  low <= high /\ chain None res /\
  (forall e, In e res -> In e es /\ ie_start e < high) /\
  (match res with e :: _ => ie_start e <= low <= ie_end e | [] => True end) /\
  (ok = false -> res = []).
Proof. exact query_contiguous_proved. Qed.
Print Assumptions query_contiguous.

(* non-vacuity: merge, partial overwrite of the tail, and an overwrite that cuts two entries *)
Example tan_index_example :
  let i1 := index_update [] (mkIE 1 3 7 0 10) in
  let i2 := index_update i1 (mkIE 4 6 7 10 10) in        (* merged: 1-6 *)
  let i3 := index_update i2 (mkIE 5 5 7 20 10) in        (* partial overwrite: 1-4, 5-5 *)
  let i4 := index_update i3 (mkIE 9 9 8 0 10) in         (* gap: 1-4, 5-5, 9-9 *)
  let i5 := index_update i4 (mkIE 3 4 8 10 10) in        (* cuts 9-9 and 5-5, trims 1-4 *)
  i2 = [mkIE 1 6 7 0 20] /\ i3 = [mkIE 1 4 7 0 20; mkIE 5 5 7 20 10] /\
  i5 = [mkIE 1 2 7 0 20; mkIE 3 4 8 10 10] /\
  index_query i4 2 20 = IQRes [mkIE 1 4 7 0 20; mkIE 5 5 7 20 10] true.
Proof. vm_compute. repeat split; reflexivity. Qed.

(* ---------------- batched entry format (internal/logdb/batch.go) ---------------- *)
From DB Require Import Model.LogDBBatched Proofs.LogDBBatched.

(* restoreBatchFields undoes compactBatchFields on every batch whose indexes are strictly
   ascending and whose terms are non-decreasing and >= 1 (what the raft core saves) *)
Theorem batch_compact_restore_id : forall l pi, good_from pi 1 l ->
  restore_if_many (compact_if_many l) = l.
Proof. exact batch_compact_restore_id_proved. Qed.
Print Assumptions batch_compact_restore_id.

Example batch_compact_example :
  let l := [mkEnt 48 3 1 8; mkEnt 49 3 2 9; mkEnt 50 3 3 8] in
  good_from 47 1 l /\ compact_if_many l = [mkEnt 48 3 1 8; mkEnt 0 0 2 9; mkEnt 0 0 3 8] /\
  restore_if_many (compact_if_many l) = l.
Proof. vm_compute. repeat split; auto; discriminate. Qed.

(* REFINEMENT for the batched entry format: after every contract-abiding run every
   contract-abiding observation of the faithful batched-format db model (entry batches of
   the regenerated batch size, merge of the first partial batch with the cached / stored
   last batch, compacted batch fields, cache included) equals the logical log's. *)
Theorem batched_refines : forall l q,
  wf_ops spec_init (muts l) = true ->
  spec_wf_query (spec_run spec_init (muts l)) q = true ->
  exists d, batched_prun l = Some d /\
            batched_observe d q = spec_answer (spec_run spec_init (muts l)) q.
Proof.
  intros l q Hwf Hq. destruct (batched_run_RB l _ _ RB_init Hwf) as (d & E & HR).
  exists d. split; [exact E | exact (proj2 (batched_query_RB d _ q HR) Hq)].
Qed.
Print Assumptions batched_refines.

Theorem batched_no_panic : forall l, wf_ops spec_init (muts l) = true -> batched_prun l <> None.
Proof.
  intros l Hwf. destruct (batched_run_RB l _ _ RB_init Hwf) as (d & E & _). unfold batched_prun. now rewrite E.
Qed.
Print Assumptions batched_no_panic.

(* non-vacuity: entries straddling the batch size (46..50), an overwrite from 48 with a
   shorter suffix of a newer term, reopen, then a query across the batch boundary *)
Definition ex_b (i t g : N) : entry := mkEnt i t g 16.
Definition ex_brun : list pop :=
  [ PMut (OSave [mkUp ex_n1 (mkSt 1 1 0) (mkSs 45 1 7) [ex_b 46 1 1; ex_b 47 1 2; ex_b 48 1 3; ex_b 49 1 4; ex_b 50 1 5]]);
    PMut (OSave [mkUp ex_n1 (mkSt 2 1 46) (mkSs 0 0 0) [ex_b 48 2 6]]);
    PMut OReopen;
    PMut (OSave [mkUp ex_n1 (mkSt 0 0 0) (mkSs 0 0 0) [ex_b 49 2 7]]) ].
Example ex_brun_wf :
  wf_ops spec_init (muts ex_brun) = true /\
  match batched_prun ex_brun with
  | Some d => b_iterate d ex_n1 46 60 100000 = RIter [ex_b 46 1 1; ex_b 47 1 2; ex_b 48 2 6; ex_b 49 2 7] 576
  | None => False
  end.
Proof. vm_compute. split; reflexivity. Qed.
