(* C16 — snapshot directories are crash-atomic; restart cleans up and recovers.
   Statements only: each theorem is closed by [exact]: a lemma of Proofs/SnapshotDir.v
   taken at the notion of complete file content [valid_snap] (or [full_snap]).

   Reading guide.  [do_cmds ord init cs] runs any sequence [cs] of the calls a
   replica makes (Save, Commit, a received snapshot stream, the engine's
   persist-and-remove-flag step, Shrink, Compact, restart, crash+restart) on the
   model of the file system and returns the final state and the list of
   file-system / log-store operations that were executed.  A crash point is a
   prefix [firstn k] of that list: [run init (firstn k trace)] is the state when
   the power is lost, [run _ [OCrash]] discards what was not synced.
   [ord] is the (arbitrary) order in which a directory listing returns names. *)
From Coq Require Import List NArith Bool Permutation.
From DB Require Import Model.FS Model.SnapshotDir Proofs.SnapshotDir.
Import ListNotations.
Open Scope N_scope.

(* invariant over every prefix of every program: whenever the log store records
   snapshot i, directory i exists durably (and in the running view) and holds a
   durable, complete snapshot file *)
Theorem recorded_implies_complete : forall ord cs k,
  ord_ok ord ->
  let s := run init (firstn k (snd (do_cmds ord init cs))) in
  st_rec s <> 0 -> durable_complete s (st_rec s).
Proof.
  exact (fun ord cs k HO => guarded_recorded_implies_complete valid_snap vs_hv1 _ k
           (trace_allowed valid_snap vs_hv1 vs_hv2 ord cs HO (fun _ => vs_shrunk))).
Qed.
Print Assumptions recorded_implies_complete.

(* for all programs and all cut points: after the crash the start-up cleanup
   succeeds (no error, no panic), and what remains is clean: only the recorded
   snapshot's directory (complete file, no flag file), no .generating /
   .receiving directory; the record itself is unchanged *)
Theorem cleanup_yields_only_complete : forall ord cs k,
  ord_ok ord ->
  let s := run init (firstn k (snd (do_cmds ord init cs))) in
  exists u tr, process_orphans ord (run s [OCrash]) = (u, tr, true) /\ cleanb u = true /\ st_rec u = st_rec s.
Proof.
  exact (fun ord cs k HO => guarded_cleanup valid_snap vs_hv1 ord _ k HO
           (trace_allowed valid_snap vs_hv1 vs_hv2 ord cs HO (fun _ => vs_shrunk))).
Qed.
Print Assumptions cleanup_yields_only_complete.

(* the same two facts for ANY sequence of operations that respects the guards
   [allowed] (no write into a final directory except the shrunk file, rename to a
   final name only of a durable complete temporary directory, record only a
   durable final directory, never remove the recorded directory); the programs
   above are one instance (next theorem) *)
Theorem guarded_runs_keep_recorded_complete : forall ops k,
  allowed_run valid_snap init ops ->
  let s := run init (firstn k ops) in st_rec s <> 0 -> durable_complete s (st_rec s).
Proof. exact (guarded_recorded_implies_complete valid_snap vs_hv1). Qed.
Print Assumptions guarded_runs_keep_recorded_complete.

Theorem programs_respect_guards : forall ord cs,
  ord_ok ord -> allowed_run valid_snap init (snd (do_cmds ord init cs)).
Proof. exact (fun ord cs HO => trace_allowed valid_snap vs_hv1 vs_hv2 ord cs HO (fun _ => vs_shrunk)). Qed.
Print Assumptions programs_respect_guards.

(* every allowed operation (crash included) preserves the invariant *)
Theorem allowed_step_preserves_invariant : forall s o t,
  Inv valid_snap s -> allowed valid_snap s o -> step s o = Some t -> Inv valid_snap t.
Proof. exact (step_inv valid_snap). Qed.
Print Assumptions allowed_step_preserves_invariant.

(* the flag file is removed only after the record is durable: in Commit and in
   the engine the record precedes the removal (statement order regenerated from
   snapshotter.go / engine.go), and processOrphans removes a flag file only of
   the recorded snapshot *)
Theorem flag_removed_only_after_record_durable :
  (forall i, commit_tail i = [ORecord i; OFs (FRemove (DFinal i) FFlag)]) /\
  (forall i, apply_ops i = [ORecord i; OFs (FRemove (DFinal i) FFlag)]) /\
  (forall n s ops j, po_one n s = Some ops -> In (OFs (FRemove (DFinal j) FFlag)) ops -> st_rec s = j /\ j <> 0).
Proof. exact (conj commit_tail_order (conj apply_ops_order po_flag_removal_recorded)). Qed.
Print Assumptions flag_removed_only_after_record_durable.

(* local save versus incoming snapshot of the same index (FinalizeSnapshot under
   finalizeLock): whoever finds the final directory present gets OutOfDate,
   removes its own temporary directory, renames nothing and records nothing;
   whoever finds it absent renames and syncs the root *)
Theorem local_save_vs_incoming_same_index : forall tmp i tail s,
  has_dir tmp (st_fs s) = true -> has_dir (DFinal i) (st_fs s) = true ->
  exists t, finalize tmp i tail s = (t, flagfile_ops tmp FFlag i ++ rmdir_ops tmp, OutOfDate) /\
            has_dir tmp (st_fs t) = false /\ st_rec t = st_rec s.
Proof. exact finalize_loser. Qed.
Print Assumptions local_save_vs_incoming_same_index.

Theorem finalize_first_wins : forall tmp i tail s t tr oc,
  has_dir tmp (st_fs s) = true -> has_dir (DFinal i) (st_fs s) = false ->
  finalize tmp i tail s = (t, tr, oc) ->
  exists rest, tr = flagfile_ops tmp FFlag i ++ OFs (FRenameDir tmp (DFinal i)) :: OFs FSyncRoot :: rest /\
               oc <> OutOfDate.
Proof. exact finalize_winner. Qed.
Print Assumptions finalize_first_wins.

(* on-disk state machines, node.recover after snapshot i was recorded (live
   install: load = true; replica start: load as decided by init_recover): at
   EVERY crash cut of RecoverFromSnapshot ; Sync ; Shrink (source order
   regenerated from node.go) the replica is restartable: the recorded snapshot
   file is valid and either still the full image or the state machine is
   durable up to i (otherwise the restart panics in
   checkPartialSnapshotApplyOnDiskSM and entries up to i are lost).
   Hypotheses: a reachable state (J), snapshot i recorded, its file the full
   image (or the state machine already durable at i). *)
Theorem ondisk_recover_restartable : forall s i load k,
  J valid_snap (ds_st s) -> st_rec (ds_st s) = i -> i <> 0 ->
  (FullAt i (ds_st s) \/ i <= ds_smd s) ->
  (load = false -> i <= ds_smv s) ->
  let '(_, tr, _) := recover_prog s i load in
  restart_okb (dstep (drun s (firstn k tr)) (DBase OCrash)) = true.
Proof. exact (fun s i load k HJ RE _ => ondisk_recover_restartable_proved valid_snap vs_hv1 vs_hv2 s i load k vs_shrunk HJ RE). Qed.
Print Assumptions ondisk_recover_restartable.

(* a received image with an external file (transport.Chunk.save; which chunks
   fsync the file is regenerated from chunk.go): when the last chunk has been
   saved -- before FinalizeSnapshot renames the directory and the image is handed
   to raft -- EVERY file of the image is durably bound to its name and its
   durable content is the full file *)
Theorem received_files_durable : forall i n m fl,
  let fl' := apply_local (recvx_fs i n m) fl in
  durable_full (FSnap i) fl' /\ durable_full (FOther 1) fl'.
Proof. exact (received_files_durable_proved valid_snap vs_hv1 vs_hv2). Qed.
Print Assumptions received_files_durable.

(* an on-disk replica's own snapshot at applied index ap (node.doSave ->
   StateMachine.Save: Sync ; write ; Commit ; release of the previous snapshot;
   that Save syncs first is regenerated from internal/rsm/statemachine.go): at
   every crash cut the replica is restartable, i.e. the recorded snapshot's
   OnDiskIndex never exceeds what the state machine has durably *)
Theorem ondisk_save_restartable : forall s lr ap k,
  J valid_snap (ds_st s) ->
  (st_rec (ds_st s) = 0 \/ FullAt (st_rec (ds_st s)) (ds_st s) \/ st_rec (ds_st s) <= ds_smd s) ->
  let '(_, tr, _) := cmd_save_ondisk s lr ap in
  restart_okb (dstep (drun s (firstn k tr)) (DBase OCrash)) = true.
Proof. exact (fun s lr ap k => ondisk_save_restartable_proved valid_snap vs_hv1 vs_hv2 s lr ap k vs_dummy). Qed.
Print Assumptions ondisk_save_restartable.

(* the name codec: for EVERY uint64 snapshot index and EVERY uint64 replica /
   sender id, the names written by getDirName / getTempDirName ("%016X", id in
   decimal: up to 20 digits) fall within the repetition bounds of the expressions
   processOrphans classifies directories with (bounds, width and verb regenerated
   from internal/server/snapshotenv.go).  process_orphans' unconditional
   treatment of DGen / DRecv / DFinal names rests on this. *)
Theorem temp_names_recognised : forall idx id,
  idx < 2 ^ 64 -> id < 2 ^ 64 ->
  final_name_recognised idx = true /\ gen_name_recognised idx id = true /\ recv_name_recognised idx id = true.
Proof. exact temp_names_recognised_proved. Qed.
Print Assumptions temp_names_recognised.

(* reachable states satisfy J *)
Theorem reachable_states_J : forall ord cs s t tr,
  ord_ok ord -> J valid_snap s -> do_cmds ord s cs = (t, tr) ->
  allowed_run valid_snap s tr /\ t = run s tr /\ J valid_snap t.
Proof. exact (fun ord cs s t tr HO => cmds_ok valid_snap vs_hv1 vs_hv2 ord cs s t tr HO (fun _ => vs_shrunk)). Qed.
Print Assumptions reachable_states_J.

(* a replica with a regular (in-memory) state machine comes back no older than
   the recorded snapshot, which is also everything it acknowledged on the
   snapshot path (a received snapshot is acknowledged to raft only after the
   record; entries beyond it are the log's business, C04/C08): for every command
   sequence without Shrink (node.recover shrinks only for on-disk state machines),
   every crash cut and every listing order, the start-up cleanup succeeds, keeps
   the record, and the initial recovery (replayLog ; snapshotter.Load of the
   recorded file as the process then sees it) succeeds with the state machine
   at the recorded index: the file it reads is complete AND carries the image *)
Theorem restart_state_ge_recorded_and_acked : forall ord cs k sv sd,
  ord_ok ord -> ~ Exists is_shrink cs ->
  let s := run init (firstn k (snd (do_cmds ord init cs))) in
  exists u tr, process_orphans ord (run s [OCrash]) = (u, tr, true) /\ st_rec u = st_rec s /\
    exists t ops, init_recover_reg (mkDS u sv sd) = (t, ops, Done) /\
                  ds_st t = u /\ (st_rec s <> 0 -> ds_smv t = st_rec s).
Proof. exact restart_state_ge_recorded_proved. Qed.
Print Assumptions restart_state_ge_recorded_and_acked.

(* the stronger invariant behind it: without Shrink, every reachable state keeps
   every (volatile or durable) snapshot file of a final directory a full image *)
Theorem reachable_states_keep_full_images : forall ord cs s t tr,
  ord_ok ord -> ~ Exists is_shrink cs -> J full_snap s -> do_cmds ord s cs = (t, tr) ->
  allowed_run full_snap s tr /\ t = run s tr /\ J full_snap t.
Proof. exact (fun ord cs s t tr HO NS => cmds_ok full_snap fs_hv1 fs_hv2 ord cs s t tr HO (fun X => match NS X with end)). Qed.
Print Assumptions reachable_states_keep_full_images.

(* not proved here: import_rerunnable (tools.ImportSnapshot; C20) *)

Definition ord_id (l : list dname) : list dname := l.
Lemma ord_id_ok : ord_ok ord_id.
Proof. intros l. apply Permutation_refl. Qed.

(* a save in progress, a snapshot of the same index arriving, commit losing, a
   later snapshot recorded, the old one compacted: 72 operations; crash after 60 *)
Definition demo : list cmd :=
  [CSave 5 2; CRecv 5 3; CCommit 5; CApply 5; CShrink 5; CSave 9 1; CCommit 9; CCompact 5].

Example demo_trace_length : length (snd (do_cmds ord_id init demo)) = 72%nat.
Proof. vm_compute. reflexivity. Qed.

Example demo_cut_nontrivial :
  let s := run init (firstn 60 (snd (do_cmds ord_id init demo))) in
  st_rec s = 5 /\ vnames (st_fs (run s [OCrash])) = [DGen 9; DFinal 5] /\
  (let '(u, tr, ok) := process_orphans ord_id (run s [OCrash]) in
   (ok, cleanb u, vnames (st_fs u), length tr)) = (true, true, [DFinal 5], 2%nat).
Proof. vm_compute. auto. Qed.

(* the loser's hypothesis is reachable *)
Example demo_loser :
  let s := fst (do_cmds ord_id init [CSave 5 2; CRecv 5 3]) in
  has_dir (DGen 5) (st_fs s) = true /\ has_dir (DFinal 5) (st_fs s) = true.
Proof. vm_compute. auto. Qed.

(* on-disk install of a received snapshot: 11 operations, restartable at every cut;
   with Shrink before Sync (the order the theorem excludes) a cut is not *)
Definition disk_demo : dstate :=
  mkDS (fst (do_cmds ord_id init [CRecv 5 3; CApply 5])) 0 0.

Example disk_demo_all_cuts :
  let '(_, tr, _) := recover_prog disk_demo 5 true in
  (length tr, forallb (fun k => restart_okb (dstep (drun disk_demo (firstn k tr)) (DBase OCrash))) (List.seq 0%nat 12%nat))
  = (11%nat, true).
Proof. vm_compute. reflexivity. Qed.

Example disk_demo_shrink_first_not_restartable :
  let '(_, shr, _) := do_cmd ord_id (ds_st disk_demo) (CShrink 5) in
  let tr := DSmRecover 5 :: map DBase shr ++ [DSmSync] in
  restart_okb (dstep (drun disk_demo (firstn 10 tr)) (DBase OCrash)) = false.
Proof. vm_compute. reflexivity. Qed.

(* an on-disk replica applies entries up to 7 and snapshots itself: 24 operations,
   restartable at every cut; without the Sync the recorded snapshot is ahead of
   the state machine after the record *)
Definition save_demo : dstate := cmd_entries (mkDS init 0 0) 7.

Example save_demo_all_cuts :
  let '(_, tr, oc) := cmd_save_ondisk save_demo 0 7 in
  (length tr, oc, forallb (fun k => restart_okb (dstep (drun save_demo (firstn k tr)) (DBase OCrash))) (List.seq 0%nat 26%nat))
  = (24%nat, Done, true).
Proof. vm_compute. reflexivity. Qed.

Example save_demo_without_sync_not_restartable :
  let '(_, tr, _) := cmd_save_ondisk save_demo 0 7 in
  restart_okb (dstep (drun save_demo (tl tr)) (DBase OCrash)) = false.
Proof. vm_compute. reflexivity. Qed.

(* a two-file image, main file in 2 chunks: if only the last file were fsynced the
   snapshot file handed over would be empty after a crash *)
Example recvx_demo :
  let s := fst (do_cmds ord_id init [CRecvX 5 2 1; CApply 5]) in
  (st_rec s, vnames (st_fs (run s [OCrash])),
   forallb (fun o => files_goodb 5 (d_files o) && ext_fullb (d_files o)) (st_fs (run s [OCrash])))
  = (5, [DFinal 5], true).
Proof. vm_compute. reflexivity. Qed.

(* the largest id has 20 decimal digits; a bound of 16 on the id part would reject it *)
Example name_len_witness :
  (printed_len 10 0 (2 ^ 64 - 1), printed_len 10 0 (10 ^ 16), printed_len 16 16 (2 ^ 64 - 1),
   part_ok 1 16 10 0 (10 ^ 16)) = (20, 17, 16, false).
Proof. vm_compute. reflexivity. Qed.

(* a regular replica: crash in the middle of a compaction after two snapshots *)
Example reg_restart_demo :
  let s := run init (firstn 50 (snd (do_cmds ord_id init [CSave 5 2; CCommit 5; CRecv 9 3; CApply 9; CCompact 5]))) in
  let '(u, _, ok) := process_orphans ord_id (run s [OCrash]) in
  let '(t, ops, oc) := init_recover_reg (mkDS u 0 0) in
  (st_rec s, ok, oc, ds_smv t, ops) = (9, true, Done, 9, [DSmRecover 9]).
Proof. vm_compute. reflexivity. Qed.
