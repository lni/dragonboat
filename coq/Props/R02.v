(* R02 (sub-check of C02 / C03): the behaviours of the L1 model -- which is compared state
   by state with internal/raft on every run of the raft checks and of this one -- are
   behaviours of the abstract protocol L2 of the global safety theorems (Props/L2.v).

   The check is a run-time refinement mapping: ocaml/r02/driver.ml maps every L1 cluster
   state to an L2 state and asks, for every L1 operation, for L2 labels that lead from the
   L2 state before to the L2 state after.  The only trusted part of that search is the
   extracted [step_fn4_sim]; the theorems below say what its acceptance means:

     step_fn4_sound / run4_sound   an accepted label sequence is a sequence of steps of the
                                   relation [step4] the safety theorems are about,
     run4_reachable                so the state it ends in is a reachable state,
     cfg_sim_contract              the membership function the checker instantiates the
                                   model with (a mirror of the simulator's membership state
                                   machine, rejected requests included) meets the contract of
                                   the membership theorems,
     accepted_run_*                hence every safety theorem of the combined stage holds for
                                   every state of an accepted run.

   The proofs are in Proofs/RaftNetCfgSnapExec.v and Proofs/RaftNetCfgSnap.v. *)
From DB Require Import Model.RaftNet Model.RaftNetSnap Model.RaftNetCfg Model.RaftNetCfgSnap
  Model.RaftNetCfgSnapExec Proofs.RaftNetCfgSafety Proofs.RaftNetCfgSnapExec.

Theorem step_fn4_sound : forall cfg_of is_cc s l s',
  step_fn4 cfg_of is_cc s l = Some s' -> step4 cfg_of is_cc s l s'.
Proof. exact RaftNetCfgSnapExec.step_fn4_sound. Qed.
Print Assumptions step_fn4_sound.

Theorem run4_sound : forall cfg_of is_cc ls s s',
  run4 cfg_of is_cc s ls = Some s' -> steps4 cfg_of is_cc s ls s'.
Proof. exact RaftNetCfgSnapExec.run4_sound. Qed.
Print Assumptions run4_sound.

Theorem run4_reachable : forall cfg_of is_cc ls s,
  run4 cfg_of is_cc init4 ls = Some s -> reachable4 cfg_of is_cc s.
Proof. exact RaftNetCfgSnapExec.run4_reachable. Qed.
Print Assumptions run4_reachable.

(* running a label list in two pieces is running it in one: the checker feeds the labels
   of one L1 operation after the other into the step function *)
Theorem run4_app : forall cfg_of is_cc ls1 ls2 s,
  run4 cfg_of is_cc s (ls1 ++ ls2) =
  match run4 cfg_of is_cc s ls1 with Some s1 => run4 cfg_of is_cc s1 ls2 | None => None end.
Proof. exact RaftNetCfgSnapExec.run4_app. Qed.
Print Assumptions run4_app.

Theorem cfg_sim_contract : forall C0, NoDup C0 -> cfg_contract (cfg_sim C0) is_cc_sim.
Proof. exact RaftNetCfgSnapExec.cfg_sim_contract. Qed.
Print Assumptions cfg_sim_contract.

(* ---- every state of an accepted run satisfies the safety theorems ---- *)

Theorem accepted_run_reachable : forall C0 ls s,
  run4_sim C0 init4 ls = Some s -> reachable4 (cfg_sim C0) is_cc_sim s.
Proof. intros C0 ls s. apply run4_reachable. Qed.
Print Assumptions accepted_run_reachable.

Theorem accepted_run_election_safety : forall C0, NoDup C0 -> forall ls s i j,
  run4_sim C0 init4 ls = Some s ->
  role (nodes (base3 (base4 s)) i) = Leader -> role (nodes (base3 (base4 s)) j) = Leader ->
  term (nodes (base3 (base4 s)) i) = term (nodes (base3 (base4 s)) j) -> i = j.
Proof.
  intros C0 ND ls s i j H.
  exact (RaftNetCfgSnap.election_safety4 _ _ (cfg_sim_contract C0 ND) s i j (run4_reachable _ _ ls s H)).
Qed.
Print Assumptions accepted_run_election_safety.

Theorem accepted_run_log_matching : forall C0, NoDup C0 -> forall ls s i j k,
  run4_sim C0 init4 ls = Some s -> 1 <= k ->
  k <= length (log (nodes (base3 (base4 s)) i)) -> k <= length (log (nodes (base3 (base4 s)) j)) ->
  term_at (log (nodes (base3 (base4 s)) i)) k = term_at (log (nodes (base3 (base4 s)) j)) k ->
  firstn k (log (nodes (base3 (base4 s)) i)) = firstn k (log (nodes (base3 (base4 s)) j)).
Proof.
  intros C0 ND ls s i j k H.
  exact (RaftNetCfgSnap.log_matching4 _ _ (cfg_sim_contract C0 ND) s i j k (run4_reachable _ _ ls s H)).
Qed.
Print Assumptions accepted_run_log_matching.

Theorem accepted_run_state_machine_safety : forall C0, NoDup C0 -> forall ls s a b k,
  run4_sim C0 init4 ls = Some s ->
  k <= commit (nodes (base3 (base4 s)) a) -> k <= commit (nodes (base3 (base4 s)) b) ->
  firstn k (log (nodes (base3 (base4 s)) a)) = firstn k (log (nodes (base3 (base4 s)) b)).
Proof.
  intros C0 ND ls s a b k H.
  exact (RaftNetCfgSnap.state_machine_safety4 _ _ (cfg_sim_contract C0 ND) s a b k (run4_reachable _ _ ls s H)).
Qed.
Print Assumptions accepted_run_state_machine_safety.

Theorem accepted_run_committed_never_replaced : forall C0, NoDup C0 -> forall ls s ls' s' i k,
  run4_sim C0 init4 ls = Some s -> run4_sim C0 s ls' = Some s' ->
  k <= commit (nodes (base3 (base4 s)) i) ->
  firstn k (log (nodes (base3 (base4 s')) i)) = firstn k (log (nodes (base3 (base4 s)) i)).
Proof.
  intros C0 ND ls s ls' s' i k H H'.
  exact (RaftNetCfgSnap.committed_never_replaced4 _ _ (cfg_sim_contract C0 ND) s ls' s' i k
           (run4_reachable _ _ ls s H) (run4_sound _ _ ls' s s' H')).
Qed.
Print Assumptions accepted_run_committed_never_replaced.

Theorem accepted_run_leader_completeness : forall C0, NoDup C0 -> forall ls s i k s1 ls' s2 j,
  run4_sim C0 init4 ls = Some s ->
  step_fn4_sim C0 s (L4Base (L3Base (LAdvanceCommit i k))) = Some s1 ->
  run4_sim C0 s1 ls' = Some s2 ->
  role (nodes (base3 (base4 s2)) j) = Leader ->
  term (nodes (base3 (base4 s)) i) < term (nodes (base3 (base4 s2)) j) ->
  firstn k (log (nodes (base3 (base4 s2)) j)) = firstn k (log (nodes (base3 (base4 s)) i)).
Proof.
  intros C0 ND ls s i k s1 ls' s2 j H H1 H2.
  exact (RaftNetCfgSnap.leader_completeness4_trace _ _ (cfg_sim_contract C0 ND) s i k s1 ls' s2 j
           (run4_reachable _ _ ls s H) (step_fn4_sound _ _ _ _ _ H1) (run4_sound _ _ ls' s1 s2 H2)).
Qed.
Print Assumptions accepted_run_leader_completeness.

Theorem accepted_run_applied_le_committed : forall C0, NoDup C0 -> forall ls s i,
  run4_sim C0 init4 ls = Some s -> applied (base4 s) i <= commit (nodes (base3 (base4 s)) i).
Proof.
  intros C0 ND ls s i H.
  exact (RaftNetCfgSnap.applied_le_committed4 _ _ (cfg_sim_contract C0 ND) s i (run4_reachable _ _ ls s H)).
Qed.
Print Assumptions accepted_run_applied_le_committed.

Theorem accepted_run_snapshot_is_committed : forall C0 ls s i,
  run4_sim C0 init4 ls = Some s -> first4 s i <= commit (nodes (base3 (base4 s)) i).
Proof.
  intros C0 ls s i H.
  exact (RaftNetCfgSnap.snapshot_is_committed4 _ _ s i (run4_reachable _ _ ls s H)).
Qed.
Print Assumptions accepted_run_snapshot_is_committed.

(* ---- non-vacuity ---- *)

(* bootstrap voters 1, 2, 3.  Node 1 is elected in term 1 with the vote of node 2, proposes
   "add voter 4" (payload 104), replicates to node 2, commits and applies it (its
   configuration becomes 4,1,2,3), compacts its log up to index 2 and sends its snapshot;
   node 4, new and empty, restores it. *)
Definition bs (l : label) : label4 := L4Base (L3Base l).
Definition cc104 : entry := mkE 1 104.

Definition run_e : list label4 :=
  [ bs (LTimeout 1); bs (LHigherTerm 2 1); bs (LHandleRV 2 1 1 0 0); bs (LBecomeLeader 1);
    bs (LPropose 1 104);
    bs (LSendAE 1 0 2 0); bs (LHandleAE 2 1 1 0 0 [noop 1; cc104] 0); bs (LSelfAck 1);
    bs (LAdvanceCommit 1 2);
    L4Base (L3Apply 1); L4Base (L3Apply 1);
    L4Compact 1 2; L4SendIS 1 2;
    bs (LHigherTerm 4 1); L4HandleIS 4 1 1 2 1 ].

Definition obs4 (o : option net4) (i : id) :=
  match o with
  | Some s => let x := l2_obs s i in
              Some (o_term x, o_role x, o_log x, o_commit x, o_applied x, o_first x,
                    l2_cfg [1; 2; 3] s i)
  | None => None
  end.

Example run_e_accepted :
  obs4 (run4_sim [1; 2; 3] init4 run_e) 1 = Some (1, 2, [noop 1; cc104], 2, 2, 2, [4; 1; 2; 3]) /\
  obs4 (run4_sim [1; 2; 3] init4 run_e) 2 = Some (1, 0, [noop 1; cc104], 0, 0, 0, [1; 2; 3]) /\
  obs4 (run4_sim [1; 2; 3] init4 run_e) 4 = Some (1, 0, [noop 1; cc104], 2, 0, 2, [1; 2; 3]).
Proof. vm_compute. repeat split. Qed.

(* the step function refuses what the relation does not allow: a second vote in a term, a
   commit without a quorum (after the change: 3 of 4), a Replicate below the snapshot, a
   second membership change while one is pending, a campaign with unapplied entries *)
Example run_e_refused :
  run4_sim [1; 2; 3] init4 (run_e ++ [bs (LTimeout 3); bs (LHandleRV 2 1 3 0 0)]) = None /\
  run4_sim [1; 2; 3] init4 (run_e ++ [bs (LPropose 1 7); bs (LSendAE 1 2 1 2);
                                      bs (LHandleAE 2 1 1 2 1 [mkE 1 7] 2); bs (LSelfAck 1);
                                      bs (LAdvanceCommit 1 3)]) = None /\
  run4_sim [1; 2; 3] init4 (run_e ++ [bs (LSendAE 1 1 1 0)]) = None /\
  run4_sim [1; 2; 3] init4 (firstn 5 run_e ++ [bs (LPropose 1 203)]) = None /\
  run4_sim [1; 2; 3] init4 (run_e ++ [bs (LTimeout 4)]) = None.
Proof. vm_compute. repeat split. Qed.

(* rejected requests leave the membership as it is: removing the last voter, bringing a
   removed replica back, a second role for a member *)
Example cfg_sim_rejections :
  cfg_sim [1] [mkE 1 201] = [1] /\
  cfg_sim [1; 2] [mkE 1 202; mkE 1 102] = [1] /\
  cfg_sim [1; 2] [mkE 1 303; mkE 1 403; mkE 1 103] = [3; 1; 2] /\
  cfg_sim [1; 2] [mkE 1 404; mkE 1 104; mkE 1 204] = [1; 2].
Proof. vm_compute. repeat split. Qed.
