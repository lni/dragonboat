(* C08 — snapshot + log suffix = replaying the full log; compaction never goes
   above a recorded snapshot. Statements; each theorem is closed by a lemma of
   Proofs/RsmApply.v or derived from one in a few lines. *)
From DB Require Import Base.Bytes Gen.GenC05 Gen.GenC08 Model.RsmApply Proofs.RsmApply.
From DB Require Model.Session Model.Membership.
From DB Require Model.RaftCore Proofs.SnapshotFallback.
Open Scope N_scope.

(* The apply path (internal/rsm/statemachine.go, raftpb/entry.go).
   Everything is quantified over the user state machine (S, result, sm_update,
   sm_save, sm_recover with sm_recover (sm_save s) = Some s), the address
   normalisation, the configuration, the session capacity, ALL logs [es] (indexes
   1, 2, 3, ..., positive terms) and ALL delivery schedules: [delivery es pos ts
   final] says that the task list [ts] hands the log to a replica that has applied
   [pos] entries in segments that each start at or below the first unapplied entry
   (any overlap, any batch size) and reaches [final].                              *)

(* BATCHING / RE-DELIVERY IS INVISIBLE: a task list does exactly what applying the
   not yet applied entries one by one does — same state, same reports, same panic *)
Theorem tasks_equal_entries :
  forall (S result : Type) (sm_update : S -> bytes -> S * result) norm cfg es,
  contiguous 0 es -> Forall (fun e => 0 < en_term e) es ->
  forall pos ts final, delivery es pos ts final ->
  forall st : @state S result, synced st -> r_index st = N.of_nat pos -> (pos <= length es)%nat ->
  run_tasks sm_update norm cfg st ts =
  run_sync sm_update norm cfg st (firstn (final - pos) (skipn pos es)).
Proof. exact @run_tasks_delivery. Qed.
Print Assumptions tasks_equal_entries.

(* two replicas handed the same log — cut into tasks and re-delivered in any two
   ways — end in identical states and report identical results *)
Theorem apply_is_function_of_log :
  forall (S result : Type) (sm_update : S -> bytes -> S * result) norm cfg es cap (s0 : S) ts1 ts2,
  contiguous 0 es -> Forall (fun e => 0 < en_term e) es ->
  delivery es 0 ts1 (length es) -> delivery es 0 ts2 (length es) ->
  run_tasks sm_update norm cfg (init_state cap s0) ts1 = run_tasks sm_update norm cfg (init_state cap s0) ts2 /\
  run_tasks sm_update norm cfg (init_state cap s0) ts1 = run_sync sm_update norm cfg (init_state cap s0) es.
Proof.
  intros S result sm_update norm cfg es cap s0 ts1 ts2 C F D1 D2.
  rewrite !(run_tasks_init sm_update norm cfg es cap s0 _ _ C F) by eassumption.
  rewrite firstn_all. split; reflexivity.
Qed.
Print Assumptions apply_is_function_of_log.

(* GAP FREEDOM: the hole panic of EntriesToApply and the index / term / batch
   assertions of setApplied / setLastApplied are unreachable from a gap-free log
   under every delivery schedule; the applied index advances by exactly one per
   entry and every entry is reported once *)
Theorem apply_gap_free :
  forall (S result : Type) (sm_update : S -> bytes -> S * result) norm cfg es cap (s0 : S) ts final,
  contiguous 0 es -> terms_ok 0 es -> delivery es 0 ts final ->
  match run_tasks sm_update norm cfg (init_state cap s0) ts with
  | Err x => x = ENotManaged \/ x = ECC \/ x = ESession \/ (x = EOnDisk /\ c_ondisk cfg = true)
  | Ok (st, evs) => r_index st = N.of_nat final /\ r_last_index st = N.of_nat final /\ length evs = final
  end.
Proof. exact @apply_gap_free_proved. Qed.
Print Assumptions apply_gap_free.

(* SNAPSHOT + LOG SUFFIX = FULL LOG (regular and concurrent state machines; file
   snapshots: the replica's own on restart, the leader's when it lags, an exported
   one). For every log, every cut [k] with a non-empty membership, every earlier
   snapshot index [ssi] of the cut replica, a snapshot of kind regular or exported
   taken at [k] succeeds, leaves the replica unchanged (only snapshotIndex moves)
   and ANY replica behind [k] — fresh ([init] = true; any factory state, any
   default capacity) or running and lagging ([init] = false) — that recovers from
   it and is then handed the rest of the log under ANY delivery schedule starting
   at or below [k] ends with the same five components [obs] = (user data, session
   table in LRU order, membership, applied index, term) as the uninterrupted
   replica, and reports the same result for every entry after the cut. *)
Theorem snapshot_cut_equiv :
  forall (S result : Type) (sm_update : S -> bytes -> S * result) norm
         (sm_save : S -> bytes) (sm_recover : bytes -> option S),
  (forall s, sm_recover (sm_save s) = Some s) ->
  forall cfg cap (s0 : S) es k st_f evs_f,
  c_ondisk cfg = false -> 0 < cap ->
  contiguous 0 es -> Forall (fun e => 0 < en_term e) es ->
  run_entries sm_update norm cfg (init_state cap s0) es = Ok (st_f, evs_f) ->
  (0 < k <= length es)%nat ->
  exists st_k evs_k evs_r,
    run_entries sm_update norm cfg (init_state cap s0) (firstn k es) = Ok (st_k, evs_k) /\
    evs_f = evs_k ++ evs_r /\
    forall kind ssi,
      kind <> SSStreaming -> Membership.m_is_empty (r_mem st_k) = false ->
      ssi <= r_index st_k -> (kind = SSExported \/ ssi <> r_index st_k) ->
      let cutter := with_ss_index (sync st_k) ssi in
      exists img,
        snapshot sm_save cfg kind cutter = Ok (Snap img (with_ss_index (sync st_k) (r_index st_k))) /\
        i_index img = N.of_nat k /\
        forall (init : bool) (st0 : @state S result) ts,
          r_last_index st0 < N.of_nat k -> r_od_init st0 = 0 -> r_od st0 = 0 ->
          delivery es k ts (length es) ->
          exists st_r st_f',
            recover sm_recover cfg init st0 img = Ok (Recovered st_r) /\ obs st_r = obs st_k /\
            run_tasks sm_update norm cfg st_r ts = Ok (st_f', evs_r) /\ obs st_f' = obs st_f.
Proof.
  intros S result sm_update norm sm_save sm_recover RT cfg cap s0 es k st_f evs_f OD CAP C F RUN [K1 K2].
  apply (run_entries_at sm_update norm cfg es k) in RUN as (st_k & evs_k & evs_r & R1 & R2 & E).
  exists st_k, evs_k, evs_r. split; [exact R1|]. split; [exact E|].
  destruct (prefix_state sm_update norm _ _ _ _ _ _ _ R1 K2) as (IX & ODI & ODX & TAB).
  intros kind ssi KS ME SI NO cutter.
  exact (cut_restores sm_update norm sm_save sm_recover RT cfg es k st_k st_f evs_r kind ssi
           OD C F K2 (TAB CAP) IX ODI (ODX OD) R2 KS ME SI NO).
Qed.
Print Assumptions snapshot_cut_equiv.

Definition demo_cc : Membership.cc := Membership.mkCC 0 0%Z 1 [97; 49] false.
Definition demo_log : list entry :=
  [ mkE 1 1 (BCC demo_cc);
    mkE 2 1 (BApp (Session.mkEntry 5 (2 ^ 64 - 2) 0 []));
    mkE 3 1 (BApp (Session.mkEntry 5 1 0 [1; 2; 3]));
    mkE 4 2 (BApp (Session.mkEntry 9 0 0 [7]));
    mkE 5 2 (BApp (Session.mkEntry 5 2 1 [4])) ].

(* a restart from a snapshot at 3 with an overlap of two entries *)
Example snapshot_cut_nonvacuous :
  let cfg := mkCfg false false in
  match rsm_run_entries cfg (rsm_init 4 0) demo_log, rsm_run_entries cfg (rsm_init 4 0) (firstn 3 demo_log) with
  | Ok (f, _), Ok (sk, _) =>
    match rsm_snapshot cfg SSRegular (sync sk) with
    | Ok (Snap img _) =>
      match rsm_recover cfg true (rsm_init 9 77) img with
      | Ok (Recovered r) =>
        match rsm_apply_task cfg r (skipn 1 demo_log) with
        | Ok (f', evs) => obs f' = obs f /\ r_index f = 5 /\ r_sm f <> 0 /\ Session.t_list (r_tab f) <> [] /\ length evs = 2%nat
        | _ => False
        end
      | _ => False
      end
    | _ => False
    end
  | _, _ => False
  end.
Proof. vm_compute. repeat split; discriminate. Qed.

(* CONCURRENT snapshots: everything that goes into the image is captured by
   prepare() in one critical section; whatever the replica applies between
   prepare() and the end of the save, the image is the one an atomic snapshot at
   the prepare point produces (so snapshot_cut_equiv applies to it) *)
Theorem snapshot_cut_equiv_concurrent :
  forall (S result : Type) (sm_save : S -> bytes) cfg k (st st_later : @state S result) m st1,
  prepare cfg k st = Ok (Prepared m st1) ->
  fst (finish_save sm_save cfg m st_later) = fst (finish_save sm_save cfg m st1) /\
  snapshot sm_save cfg k st = Ok (Snap (fst (finish_save sm_save cfg m st1)) (snd (finish_save sm_save cfg m st1))).
Proof.
  intros S result sm_save cfg k st st_later m st1 P. split; [reflexivity|].
  unfold snapshot. rewrite P. cbn [bind]. now destruct (finish_save sm_save cfg m st1).
Qed.
Print Assumptions snapshot_cut_equiv_concurrent.

(* ON-DISK state machines: the snapshot is a dummy (membership, index, term,
   OnDiskIndex; no user data, the session table is not restored — sessions are
   not supported there, [ondisk_entry]); the user data comes back from the state
   machine's own disk, which holds the state after an entry [pD] it applied
   (r_od st_D = pD: Open returns an index it applied, or 0) with
   OnDiskIndex(snapshot) <= pD (Sync precedes the snapshot). Entries at or below
   pD are no-ops for the user state machine while config changes still apply. *)
Theorem snapshot_cut_equiv_ondisk :
  forall (S result : Type) (sm_update : S -> bytes -> S * result) norm
         (sm_save : S -> bytes) (sm_recover : bytes -> option S),
  (forall s, sm_recover (sm_save s) = Some s) ->
  forall cfg cap (s0 : S) es k pD st_f evs_f,
  c_ondisk cfg = true -> 0 < cap ->
  contiguous 0 es -> Forall (fun e => 0 < en_term e) es -> Forall ondisk_entry es ->
  run_entries sm_update norm cfg (init_state cap s0) es = Ok (st_f, evs_f) ->
  (0 < k <= length es)%nat -> (pD <= length es)%nat ->
  exists st_k evs_k st_D evs_D,
    run_entries sm_update norm cfg (init_state cap s0) (firstn k es) = Ok (st_k, evs_k) /\
    run_entries sm_update norm cfg (init_state cap s0) (firstn pD es) = Ok (st_D, evs_D) /\
    forall ssi ts,
      Membership.m_is_empty (r_mem st_k) = false -> ssi <= r_index st_k ->
      r_od st_D = N.of_nat pD -> r_od st_k <= N.of_nat pD ->
      delivery es k ts (length es) ->
      exists img st_r st_f' evs',
        snapshot sm_save cfg SSRegular (with_ss_index (sync st_k) ssi) =
          Ok (Snap img (with_ss_index (sync st_k) (r_index st_k))) /\
        i_dummy img = true /\ i_data img = None /\
        recover sm_recover cfg true (open_ondisk (init_state cap (r_sm st_D)) (N.of_nat pD)) img = Ok (Recovered st_r) /\
        run_tasks sm_update norm cfg st_r ts = Ok (st_f', evs') /\ obs st_f' = obs st_f /\ r_od st_f' = r_od st_f.
Proof. intros S result sm_update norm sm_save sm_recover _. apply snapshot_cut_equiv_ondisk_proved. Qed.
Print Assumptions snapshot_cut_equiv_ondisk.

Definition demo_disk_log : list entry :=
  [ mkE 1 1 (BCC demo_cc);
    mkE 2 1 (BApp (Session.mkEntry 9 0 0 [1]));
    mkE 3 1 (BApp (Session.mkEntry 0 0 0 []));
    mkE 4 2 (BApp (Session.mkEntry 9 0 0 [2; 3]));
    mkE 5 2 (BCC (Membership.mkCC 0 0%Z 2 [97; 50] false));
    mkE 6 2 (BApp (Session.mkEntry 8 0 0 [4])) ].

(* snapshot at 3, the disk holds the state after entry 4: entry 4 is skipped for
   the user state machine, 5 (config change) and 6 are applied *)
Example snapshot_cut_ondisk_nonvacuous :
  let cfg := mkCfg true false in
  match rsm_run_entries cfg (rsm_init 4 0) demo_disk_log,
        rsm_run_entries cfg (rsm_init 4 0) (firstn 3 demo_disk_log),
        rsm_run_entries cfg (rsm_init 4 0) (firstn 4 demo_disk_log) with
  | Ok (f, _), Ok (sk, _), Ok (sd, _) =>
    match rsm_snapshot cfg SSRegular (sync sk) with
    | Ok (Snap img _) =>
      match rsm_recover cfg true (rsm_open_ondisk (rsm_init 4 (r_sm sd)) 4) img with
      | Ok (Recovered r) =>
        match rsm_apply_task cfg r (skipn 2 demo_disk_log) with
        | Ok (f', evs) => obs f' = obs f /\ r_od sd = 4 /\ r_od sk = 2 /\ i_dummy img = true /\
                          r_od f' = 6 /\ evs = [EvSkip; EvCC true; EvApp (Session.OApplied (r_sm f, [4]))]
        | _ => False
        end
      | _ => False
      end
    | _ => False
    end
  | _, _, _ => False
  end.
Proof. vm_compute. repeat split. Qed.

(* A STREAMED SNAPSHOT NEVER CARRIES DATA NEWER THAN ITS INDEX (on-disk state
   machines; node.canStream -> StateMachine.ReadyToStream). A replica restarted
   with its state machine opened at D, recovered from the snapshot it had recorded
   and handed any part of its log accepts a Stream task only in states whose image
   has OnDiskIndex <= Index (stream_guard_nonvacuous below shows a task refused while
   the replica still replays below D). *)
Theorem stream_image_not_ahead :
  forall (S result : Type) (sm_update : S -> bytes -> S * result) norm
         (sm_save : S -> bytes) (sm_recover : bytes -> option S),
  (forall s, sm_recover (sm_save s) = Some s) ->
  forall cfg cap (s : S) D img (st_r st : @state S result) es evs m st1,
  c_ondisk cfg = true -> i_od img <= i_index img ->
  recover sm_recover cfg true (open_ondisk (init_state cap s) D) img = Ok (Recovered st_r) ->
  run_entries sm_update norm cfg st_r es = Ok (st, evs) ->
  ready_to_stream cfg (sync st) = true ->
  prepare cfg SSStreaming (sync st) = Ok (Prepared m st1) ->
  mt_od m <= mt_index m /\ i_od (image_of sm_save cfg m) <= i_index (image_of sm_save cfg m).
Proof.
  intros S result sm_update norm sm_save sm_recover RT cfg cap s D img st_r st es evs m st1 OD W REC RUN RDY PRE.
  eapply recover_od_bounded in REC; eauto; [|apply N.le_refl].
  eapply stream_meta_not_ahead with (st := st); eauto. eapply run_entries_od_bounded; eauto.
Qed.
Print Assumptions stream_image_not_ahead.

(* the guard is needed: the disk at 4, the dummy snapshot at 3, one entry replayed
   ... the replica is not ready, and the image it would stream has the metadata of
   index 3 with the data of index 4; once the replay has passed 4 it is ready *)
Example stream_guard_nonvacuous :
  let cfg := mkCfg true false in
  match rsm_run_entries cfg (rsm_init 4 0) (firstn 2 demo_disk_log),
        rsm_run_entries cfg (rsm_init 4 0) (firstn 4 demo_disk_log) with
  | Ok (sk, _), Ok (sd, _) =>
    match rsm_snapshot cfg SSRegular (sync sk) with
    | Ok (Snap img _) =>
      match rsm_recover cfg true (rsm_open_ondisk (rsm_init 4 (r_sm sd)) 4) img with
      | Ok (Recovered r) =>
        match rsm_apply_task cfg r (firstn 1 (skipn 2 demo_disk_log)), rsm_apply_task cfg r (skipn 2 demo_disk_log) with
        | Ok (r3, _), Ok (r6, _) =>
          rsm_ready_to_stream cfg r3 = false /\ r_index r3 = 3 /\ r_od r3 = 4 /\
          rsm_ready_to_stream cfg r6 = true /\ r_index r6 = 6 /\ r_od r6 = 6
        | _, _ => False
        end
      | _ => False
      end
    | _ => False
    end
  | _, _ => False
  end.
Proof. vm_compute. repeat split. Qed.

(* The raft side (internal/raft raft.go sendReplicateMessage, L1 model RaftCore). *)
Module RC := RaftCore.

(* every message sendReplicateMessage emits is a Replicate whose entries are the
   leader's log from the follower's next index on, with previous index next-1
   (nothing skipped), or - when those entries are no longer in the log - an
   InstallSnapshot carrying the leader's snapshot record *)
Theorem replicate_or_snapshot : forall r to k rp,
  RC.find_peer r to = Some (k, rp) ->
  exists new, RC.r_msgs (RC.send_replicate r to) = RC.r_msgs r ++ new /\
    (new = [] \/ exists x, new = [x] /\ RC.m_to x = to /\
      ((RC.m_type x = GenRaft.mt_Replicate /\ RC.m_logindex x = RC.rm_next rp - 1 /\
        exists ents0, RC.log_entries_from (RC.r_log r) (RC.rm_next rp) = Some ents0 /\
          RC.m_entries x = match k with RC.KWitness => RC.make_metadata_entries ents0 | _ => ents0 end) \/
       (RC.m_type x = GenRaft.mt_InstallSnapshot /\ RC.log_entries_from (RC.r_log r) (RC.rm_next rp) = None /\
        RC.ss_index (RC.m_snapshot x) = RC.ss_index (RC.log_snapshot (RC.r_log r)) /\
        RC.ss_index (RC.m_snapshot x) <> 0))).
Proof. exact SnapshotFallback.replicate_or_snapshot_proved. Qed.
Print Assumptions replicate_or_snapshot.

(* A LAGGING FOLLOWER WHOSE ENTRIES WERE COMPACTED GETS A SNAPSHOT, NEVER A GAP: with
   the follower's next entry below the leader's first available one, the only
   message is an InstallSnapshot; because the log is never compacted above a
   recorded snapshot (compaction_below_recorded_snapshot: marker <= snapshot index)
   it reaches next-1 and the leader's marker, so after installing it the follower
   needs only entries the leader still has *)
Theorem compacted_follower_gets_snapshot : forall r to k rp,
  RC.find_peer r to = Some (k, rp) ->
  RC.rm_next rp < RC.log_first (RC.r_log r) -> RC.rm_next rp <= RC.log_last (RC.r_log r) ->
  RC.l_marker (RC.r_log r) <= RC.ss_index (RC.log_snapshot (RC.r_log r)) ->
  exists new, RC.r_msgs (RC.send_replicate r to) = RC.r_msgs r ++ new /\
    (new = [] \/ exists x, new = [x] /\ RC.m_to x = to /\ RC.m_type x = GenRaft.mt_InstallSnapshot /\
       RC.rm_next rp - 1 <= RC.ss_index (RC.m_snapshot x) /\
       RC.log_first (RC.r_log r) <= RC.ss_index (RC.m_snapshot x) + 1).
Proof. exact SnapshotFallback.compacted_follower_gets_snapshot_proved. Qed.
Print Assumptions compacted_follower_gets_snapshot.

(* the leader's log starts at 6 (marker 5, snapshot record at 6), follower 2 needs entry 3 *)
Example compacted_follower_nonvacuous :
  let l := RC.mkLog 5 1 [RC.mkEnt 1 6 0 0 0 0 0 []; RC.mkEnt 1 7 0 0 0 0 0 []] 7 7 7 None
                    (RC.mkSnap 6 1 [1; 2] [] [] false false true 0) in
  let r := RC.set_peer (RC.new_raft 1 RC.Follower 10 2 false false l [1; 2] [] [] None 0) RC.KRemote 2
                       (RC.mkRemote 0 3 0 RC.RRetry true 0 false) in
  (exists rp, RC.find_peer r 2 = Some (RC.KRemote, rp) /\ RC.rm_next rp < RC.log_first (RC.r_log r) /\
              RC.rm_next rp <= RC.log_last (RC.r_log r)) /\
  RC.l_marker (RC.r_log r) <= RC.ss_index (RC.log_snapshot (RC.r_log r)) /\
  map (fun x => (RC.m_type x, RC.m_to x, RC.ss_index (RC.m_snapshot x), RC.m_entries x))
      (RC.r_msgs (RC.send_replicate r 2)) = [(GenRaft.mt_InstallSnapshot, 2, 6, [])].
Proof.
  vm_compute. split; [|split; [discriminate|reflexivity]].
  eexists. split; [reflexivity|]. split; [reflexivity|discriminate].
Qed.

(* Compaction (node.go doSave / compactLog / getCompactionIndex / recover / removeLog). *)

(* every value handed to LogReader.Compact / ILogDB.RemoveEntriesTo — in every run
   of the node's bookkeeping: any interleaving of saves (periodic, user requested
   with any overhead / compaction index, exported, aborted, commit refused),
   snapshots received from a leader, recoveries, restarts and removeLog calls, for
   every config.CompactionOverhead incl. 0 — is positive and at most the index of a
   snapshot whose record had ALREADY been committed to the log store at that
   moment; the record is still there at the end of the run *)
Theorem compaction_below_recorded_snapshot : forall oh ops,
  Forall (fun p : N * list N =>
            0 < fst p /\
            (exists r, In r (snd p) /\ fst p <= r) /\
            incl (snd p) (n_recorded (nrun oh ninit ops)))
         (n_removed (nrun oh ninit ops)).
Proof.
  intros oh ops. destruct (nrun_inv oh ops ninit ninit_inv) as (_ & _ & C).
  eapply Forall_impl; [|exact C]. intros p [[P E] I]. auto.
Qed.
Print Assumptions compaction_below_recorded_snapshot.

Example compaction_nonvacuous :
  n_removed (nrun 2 ninit [NSave default_req 10 (SaveOk 10) true; NRemoveLog;
                           NSave (mkReq false true 0 12) 15 (SaveOk 15) true; NRemoveLog;
                           NRestart; NRecover true true; NRemoveLog])
  = [(13, [15; 10]); (12, [15; 10]); (8, [10])].
Proof. vm_compute. reflexivity. Qed.

(* all three branches of getCompactionIndex *)
Theorem get_compaction_index_spec : forall oh q index v,
  get_compaction_index oh q index = Some v ->
  0 < v /\ v <= index /\
  ((q_override q = true /\ 0 < q_cindex q /\ v = q_cindex q /\ v < index) \/
   (q_override q = true /\ q_cindex q = 0 /\ v = index - q_overhead q) \/
   (q_override q = false /\ v = index - oh)).
Proof. exact get_compaction_index_spec_proved. Qed.
Print Assumptions get_compaction_index_spec.

Theorem compaction_overhead_zero : forall q index,
  0 < index -> q_override q = false -> get_compaction_index 0 q index = Some index.
Proof.
  intros q index P E. unfold get_compaction_index. rewrite E.
  destruct (0 <? index) eqn:Ei; [f_equal; lia|lia].
Qed.
Print Assumptions compaction_overhead_zero.

(* the snapshot records in the log store only grow under the bookkeeping *)
Theorem recorded_grow_only : forall oh st op, incl (n_recorded st) (n_recorded (nstep oh st op)).
Proof. exact recorded_grow_only_proved. Qed.
Print Assumptions recorded_grow_only.

(* FINDING (repaired in /repo, see findings/known.txt): with the comparison as it
   stood (`index >= req.CompactionIndex+1` in uint64 arithmetic) a user requested
   compaction index of 2^64-1 was handed to the compaction although it is above
   the snapshot index; below 2^64-1 the repaired comparison is the same function *)
Theorem compaction_index_wrap_refuted :
  exists q index v, index < 2 ^ 64 /\ q_cindex q < 2 ^ 64 /\
    get_compaction_index_wrapping 0 q index = Some v /\ index < v.
Proof.
  exists (mkReq false true 0 (2 ^ 64 - 1)), 100, (2 ^ 64 - 1).
  repeat split; vm_compute; reflexivity.
Qed.
Print Assumptions compaction_index_wrap_refuted.

Theorem compaction_index_wrapping_agrees : forall oh q index,
  q_cindex q < 2 ^ 64 - 1 ->
  get_compaction_index_wrapping oh q index = get_compaction_index oh q index.
Proof. exact compaction_index_wrapping_agrees_proved. Qed.
Print Assumptions compaction_index_wrapping_agrees.

(* the comparisons, captured fields and call orders the model is written from, as
   re-read from the source on this run *)
Theorem source_tie :
  src_eta_old_le = true /\ src_eta_hole_gt = true /\ src_eta_skip = true /\
  src_set_applied_next = true /\ src_set_applied_term = true /\
  src_in_init_le = true /\ src_set_od_init_le = true /\ src_set_od_le = true /\
  src_recover_required_init = true /\ src_recover_required = true /\ src_partial_check_init = true /\
  src_recover_out_of_date_ge = true /\ src_recover_partial = true /\ src_status_same_index = true /\
  src_ssmeta_fields = true /\ src_apply_restores = true /\ src_dummy_rule = true /\
  src_compaction_user_index = true /\ src_compaction_user_index_set = true /\
  src_compaction_user_overhead = true /\ src_compaction_overhead = true /\
  src_dosave_order = true /\ src_commit_order = true /\ src_recover_order = true /\
  src_remove_log_order = true /\ src_save_raft_state_before_process_snapshot = true /\
  src_snapshot_update_not_fast_applied = true /\
  src_can_stream_guard = true /\ src_ready_to_stream = true /\ src_concurrent_save_syncs = true /\
  src_membership_get_copies = true /\ src_send_snapshot_decision = true /\
  src_stream_task_outcome = true /\ src_chunk_sync_cond = true /\ src_batch_payload_own_buffer = true.
Proof. repeat split; reflexivity. Qed.
Print Assumptions source_tie.
