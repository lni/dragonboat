(* C03 — at most one leader per term; leaders hold all committed entries; one vote per
   term, also across restarts.
   This file: the LOCAL half, proved on the faithful executable model of raft.go
   (Model/RaftCore.v, exact differential correspondence with internal/raft on every run):
   the per-replica facts from which the global argument starts. The GLOBAL half
   (election_safety, leader_completeness on the message-soup network built from replicas
   obeying exactly these local rules) is in Props/L2.v and is listed in DESIGN.md section 5.
   Statements; the arguments are in Proofs/ (RaftStep, RaftNodeLemmas, RaftTable). *)
From DB Require Import Model.RaftCore Model.RaftNode Proofs.RaftTable Proofs.RaftStep Proofs.RaftNodeLemmas.
Open Scope N_scope.

(* raft.Handle, for every message, state and recursion depth: the term never decreases *)
Theorem handle_term_monotone : forall f r m, r_term r <= r_term (handle f r m).
Proof. intros f r m. apply handle_tv_le. Qed.
Print Assumptions handle_term_monotone.

(* ... and while the term stays the same a vote once cast is never changed:
   a replica votes for at most one candidate per term *)
Theorem one_vote_per_term_local :
  forall f r m, r_term (handle f r m) = r_term r -> r_vote r <> 0 -> r_vote (handle f r m) = r_vote r.
Proof. intros f r m. apply handle_tv_le. Qed.
Print Assumptions one_vote_per_term_local.

(* the persistence step of every Update makes the hard state durable that the replica had
   when the update (and every message released with it) was produced *)
Theorem update_persists_hard_state :
  forall nd more la, prev_is_durable nd ->
    dstate_or_zero (fst (node_update nd more la)) = raft_state (nd_raft nd).
Proof. exact update_persists_hard_state_proved. Qed.
Print Assumptions update_persists_hard_state.

Theorem update_keeps_prev_durable :
  forall nd more la, prev_is_durable nd -> u_invalid (snd (node_update nd more la)) = false ->
    prev_is_durable (fst (node_update nd more la)).
Proof. exact update_keeps_prev_durable_proved. Qed.
Print Assumptions update_keeps_prev_durable.

(* crash + restart: term and vote come back exactly as persisted (so the vote of the
   current term survives the restart) *)
Theorem restart_reloads_term_and_vote :
  forall nd o t v c, nd_dstate nd = Some (t, v, c) ->
    ss_index (nd_dsnap nd) <= c ->
    c <= ss_index (nd_dsnap nd) + nlen (skipn (N.to_nat (ss_index (nd_dsnap nd) - nd_dmarker nd)) (nd_dents nd)) ->
    r_term (nd_raft (node_restart nd o)) = t /\ r_vote (nd_raft (node_restart nd o)) = v.
Proof.
  intros nd o t v c Hst Hlo Hhi. apply tv_pair. unfold node_restart. cbv zeta. rewrite Hst. cbn [nd_raft set].
  rewrite applied_upd_tvr. apply new_raft_tv. apply orb_false_iff. split; apply N.ltb_ge; assumption.
Qed.
Print Assumptions restart_reloads_term_and_vote.

(* from the GENERATED handler table: vote responses are counted by candidates only, and
   the RequestVote handler is registered for RequestVote messages only *)
Theorem vote_responses_counted_by_candidates_only :
  forallb (fun s => match handler_of s mt_RequestVoteResp with H_none => true | _ => s =? st_candidate end)
          [st_follower; st_candidate; st_preVoteCandidate; st_leader; st_nonVoting; st_witness] = true.
Proof. vm_compute. reflexivity. Qed.
Print Assumptions vote_responses_counted_by_candidates_only.

Theorem request_vote_handler_only_for_request_vote :
  forall s t, handler_of s t = H_handleNodeRequestVote -> t = mt_RequestVote.
Proof. exact request_vote_handler_type. Qed.
Print Assumptions request_vote_handler_only_for_request_vote.

(* non-vacuity: a three-voter replica (bootstrap entries applied) that campaigns moves to term 2 and votes for itself;
   a second RequestVote of the same term from another candidate is refused *)
Example campaign_then_refuse :
  let nd := launch 1 Follower 3 1 false false [1; 2; 3] [[]; []; []] 3 in
  let r1 := raft_handle ((nd_raft nd) <| r_applied := 3 |>) ((msg0 mt_Election) <| m_from := 1 |>) in
  let r2 := raft_handle r1 ((msg0 mt_RequestVote) <| m_from := 2 |> <| m_to := 1 |> <| m_term := 2 |>
                              <| m_logindex := 3 |> <| m_logterm := 1 |>) in
  (r_term r1, r_vote r1, r_term r2, r_vote r2, map m_reject (r_msgs r2)) = (2, 1, 2, 1, [false; false; true]).
Proof. vm_compute. reflexivity. Qed.
