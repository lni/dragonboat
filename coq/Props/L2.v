(* L2 — global safety of the Raft protocol of internal/raft on an abstract network.
     stage 1   fixed voting set V, quorum = |V|/2+1, no compaction, no membership change
     stage 2   + log compaction and InstallSnapshot          (forward simulation to stage 1)
     stage 3   + single-server membership change applied at commit, with the two guards
               the code has                                  (own inductive invariant)
     stage 2+3 both                                          (forward simulation to stage 3)
   The first part of this file is stage 1.
   Statements only: each theorem is closed by [exact <lemma>]; proofs live in
   Proofs/RaftNet{Lists,Election,Log,CommitDefs,Commit,Safety}.v.

   The model is Model/RaftNet.v: nodes (term, voted_for, role, log, commit), a
   grow-only soup of every message ever sent (loss, duplication, delay, reordering =
   "any message may be handled any number of times, by anybody, or never"), labels
   Timeout / HigherTerm / StepDown / HandleRV / BecomeLeader / Propose / SendAE /
   HandleAE / AdvanceCommit / SendHB / HandleHB / Restart.  Its header lists every
   deviation from raft.go (D1..D9); all of them make the model more permissive.

   Every theorem quantifies over every voting set V without duplicates and over ALL
   reachable states: [reachable V n] = there is a list of labels ls with
   [steps V (init) ls n], any length, any interleaving.  Used by C02 (replica
   agreement), C03 (election safety, leader completeness, one vote per term) and,
   through them, C01.

   Ghost state mentioned in some statements ([llog n t] = the log of the leader of term
   t; [committed V n t k] = entry k of that log has term t and a quorum of V
   acknowledged a prefix >= k in term t) has no influence on any guard; the
   ghost-free forms are [leader_completeness_trace], [state_machine_safety],
   [committed_never_replaced]. *)
From DB Require Import Model.RaftNet Model.RaftNetSnap Model.RaftNetCfg Model.RaftNetCfgSnap
  Proofs.RaftNetLists Proofs.RaftNetElection Proofs.RaftNetLog Proofs.RaftNetCommitDefs
  Proofs.RaftNetCommit Proofs.RaftNetSafety Proofs.RaftNetSnap Proofs.RaftNetCfgLemmas
  Proofs.RaftNetCfgInv Proofs.RaftNetCfgStep Proofs.RaftNetCfgSafety Proofs.RaftNetCfgSnap
  Model.RaftNetRead Proofs.RaftNetRead.

(* two quorums of V share a member (no NoDup V needed) *)
Theorem quorum_intersect : forall (V Q1 Q2 : list id),
  incl Q1 V -> incl Q2 V -> NoDup Q1 -> NoDup Q2 ->
  quorum V <= length Q1 -> quorum V <= length Q2 ->
  exists x, In x Q1 /\ In x Q2.
Proof. exact RaftNetLists.quorum_intersect. Qed.
Print Assumptions quorum_intersect.

(* all granted votes of one voter in one term name one candidate; Restart keeps
   (term, voted_for), so this holds across restarts *)
Theorem one_vote_per_term : forall V, NoDup V -> forall n t w c1 c2 vl1 vl2,
  reachable V n ->
  In (Vote t w c1 vl1) (msgs n) -> In (Vote t w c2 vl2) (msgs n) -> c1 = c2.
Proof. exact RaftNetElection.one_vote_per_term. Qed.
Print Assumptions one_vote_per_term.

(* two nodes that are Leader in the same term are the same node *)
Theorem election_safety : forall V, NoDup V -> forall n i j,
  reachable V n ->
  role (nodes n i) = Leader -> role (nodes n j) = Leader ->
  term (nodes n i) = term (nodes n j) -> i = j.
Proof. exact RaftNetElection.election_safety. Qed.
Print Assumptions election_safety.

(* a granted vote is the voter's recorded vote while it stays in that term
   (grant_msg_reflects_vote), and a node never changes its vote within a term *)
Theorem grant_reflects_vote : forall V, NoDup V -> forall n t w c vl,
  reachable V n -> In (Vote t w c vl) (msgs n) ->
  t < term (nodes n w) \/ (term (nodes n w) = t /\ voted (nodes n w) = Some c).
Proof. exact RaftNetElection.grant_reflects_vote. Qed.
Print Assumptions grant_reflects_vote.

Theorem vote_stable_in_term : forall V n l n' w c,
  step V n l n' -> voted (nodes n w) = Some c -> term (nodes n' w) = term (nodes n w) ->
  voted (nodes n' w) = Some c.
Proof. exact RaftNetElection.vote_stable_in_term. Qed.
Print Assumptions vote_stable_in_term.

Theorem terms_monotone : forall V n l n' i,
  step V n l n' -> term (nodes n i) <= term (nodes n' i).
Proof. exact RaftNetElection.step_term_mono. Qed.
Print Assumptions terms_monotone.

(* a leader owns a quorum of Vote messages of its term (leader_only_via_quorum) *)
Theorem leader_has_vote_quorum : forall V, NoDup V -> forall n i,
  reachable V n -> role (nodes n i) = Leader ->
  exists Q, is_quorum V Q /\
            forall w, In w Q -> exists vl, In (Vote (term (nodes n i)) w i vl) (msgs n).
Proof. exact RaftNetElection.leader_has_vote_quorum. Qed.
Print Assumptions leader_has_vote_quorum.

(* the logs that exist in a state are: node logs, the sender's view implied by an AE
   message (its prefix up to prev and its entries), logs recorded in votes, leader
   logs.  If two of them have the same term at the same index they are equal up to
   that index. *)
Theorem log_matching : forall V, NoDup V -> forall n a b k,
  reachable V n -> known_log n a -> known_log n b ->
  1 <= k -> k <= length a -> k <= length b ->
  term_at a k = term_at b k -> firstn k a = firstn k b.
Proof. exact RaftNetLog.log_matching. Qed.
Print Assumptions log_matching.

(* a receiver whose log has the AE's prevTerm at prevIndex holds the sender's whole
   prefix up to prevIndex *)
Theorem ae_prev_match : forall V, NoDup V -> forall n t ldr prev pt ents lc i,
  reachable V n -> In (AE t ldr prev pt ents lc) (msgs n) ->
  term_at (log (nodes n i)) prev = pt ->
  firstn prev (log (nodes n i)) = firstn prev (llog n t) /\ prev <= length (log (nodes n i)).
Proof. exact RaftNetLog.ae_prev_match. Qed.
Print Assumptions ae_prev_match.

(* terms never decrease along a log *)
Theorem log_terms_sorted : forall V, NoDup V -> forall n l,
  reachable V n -> known_log n l -> sorted l.
Proof. exact RaftNetLog.log_terms_sorted. Qed.
Print Assumptions log_terms_sorted.

(* state form *)
Theorem leader_completeness : forall V, NoDup V -> forall n t k i,
  reachable V n -> committed V n t k ->
  role (nodes n i) = Leader -> t < term (nodes n i) ->
  firstn k (log (nodes n i)) = firstn k (llog n t).
Proof. exact RaftNetSafety.leader_completeness. Qed.
Print Assumptions leader_completeness.

(* event form, ghost-free: once a leader i advanced its commit index to k (step
   AdvanceCommit i k in state n), its entries 1..k are in the log of every leader of
   every later term in every later state *)
Theorem leader_completeness_trace : forall V, NoDup V -> forall n i k n1 ls n2 j,
  reachable V n -> step V n (LAdvanceCommit i k) n1 -> steps V n1 ls n2 ->
  role (nodes n2 j) = Leader -> term (nodes n i) < term (nodes n2 j) ->
  firstn k (log (nodes n2 j)) = firstn k (log (nodes n i)).
Proof. exact RaftNetSafety.leader_completeness_trace. Qed.
Print Assumptions leader_completeness_trace.

Theorem state_machine_safety : forall V, NoDup V -> forall n a b k,
  reachable V n -> k <= commit (nodes n a) -> k <= commit (nodes n b) ->
  firstn k (log (nodes n a)) = firstn k (log (nodes n b)).
Proof. exact RaftNetSafety.state_machine_safety. Qed.
Print Assumptions state_machine_safety.

Theorem state_machine_safety_entry : forall V, NoDup V -> forall n a b k j,
  reachable V n -> k <= commit (nodes n a) -> k <= commit (nodes n b) -> 1 <= j <= k ->
  nth_error (log (nodes n a)) (j - 1) = nth_error (log (nodes n b)) (j - 1).
Proof. exact RaftNetSafety.state_machine_safety_entry. Qed.
Print Assumptions state_machine_safety_entry.

Theorem commit_in_range : forall V, NoDup V -> forall n i,
  reachable V n -> commit (nodes n i) <= length (log (nodes n i)).
Proof. exact RaftNetSafety.commit_in_range. Qed.
Print Assumptions commit_in_range.

(* once commit i >= k, the first k entries of node i never change in any later state
   (also across Restart, which may lower the commit index) *)
Theorem committed_never_replaced : forall V, NoDup V -> forall n ls n' i k,
  reachable V n -> steps V n ls n' -> k <= commit (nodes n i) ->
  firstn k (log (nodes n' i)) = firstn k (log (nodes n i)).
Proof. exact RaftNetSafety.committed_never_replaced. Qed.
Print Assumptions committed_never_replaced.

Theorem committed_entry_never_replaced : forall V, NoDup V -> forall n ls n' i k,
  reachable V n -> steps V n ls n' -> 1 <= k <= commit (nodes n i) ->
  nth_error (log (nodes n' i)) (k - 1) = nth_error (log (nodes n i)) (k - 1).
Proof. exact RaftNetSafety.committed_entry_never_replaced. Qed.
Print Assumptions committed_entry_never_replaced.

(* the two panics on the replication path are unreachable (deviation D7) *)

(* tryAppend never finds a conflict at or below the committed index *)
Theorem append_never_conflicts_with_committed : forall V, NoDup V ->
  forall n j t ldr prev pt ents lc,
  reachable V n -> In (AE t ldr prev pt ents lc) (msgs n) ->
  t = term (nodes n j) -> term_at (log (nodes n j)) prev = pt ->
  try_append (log (nodes n j)) (commit (nodes n j)) prev ents <> None.
Proof. exact RaftNetSafety.append_never_conflicts_with_committed. Qed.
Print Assumptions append_never_conflicts_with_committed.

(* the commit value of a heartbeat addressed to j never exceeds j's last index *)
Theorem heartbeat_commit_in_range : forall V, NoDup V -> forall n j t ldr c,
  reachable V n -> In (HB t ldr j c) (msgs n) -> t = term (nodes n j) ->
  c <= length (log (nodes n j)).
Proof. exact RaftNetSafety.heartbeat_commit_in_range. Qed.
Print Assumptions heartbeat_commit_in_range.

(* executable side: the step function is sound for the relation *)

Theorem step_fn_sound : forall V n l n', step_fn V n l = Some n' -> step V n l n'.
Proof. exact RaftNetSafety.step_fn_sound. Qed.
Print Assumptions step_fn_sound.

Theorem run_sound : forall V ls n n', run V n ls = Some n' -> steps V n ls n'.
Proof. exact RaftNetSafety.run_sound. Qed.
Print Assumptions run_sound.

Theorem step_ok_sound : forall V ids n l n',
  step_ok V ids n l n' = true ->
  exists n1, step V n l n1 /\ nodes_obs_eqb ids n1 n' = true.
Proof. exact RaftNetSafety.step_ok_sound. Qed.
Print Assumptions step_ok_sound.

Theorem nodes_obs_eqb_eq : forall ids a b i,
  nodes_obs_eqb ids a b = true -> In i ids ->
  term (nodes a i) = term (nodes b i) /\ voted (nodes a i) = voted (nodes b i) /\
  role (nodes a i) = role (nodes b i) /\ log (nodes a i) = log (nodes b i) /\
  commit (nodes a i) = commit (nodes b i).
Proof. exact RaftNetSafety.nodes_obs_eqb_eq. Qed.
Print Assumptions nodes_obs_eqb_eq.

(* non-vacuity: a concrete 3-node run *)

Definition V3 : list id := [1; 2; 3].

Definition e1 : entry := noop 1.
Definition e2 : entry := mkE 1 42.

(* node 1 campaigns in term 1, node 2 votes, node 1 becomes leader (no-op at index 1),
   a client entry goes to index 2, node 2 and 3 replicate, node 1 commits index 2, node 2
   learns the commit from a heartbeat, node 2 restarts with commit 0 (log kept), then node 3
   campaigns in term 2 with the votes of 2 and 3, becomes leader, replicates and commits *)
Definition run_a : list label := [
  LTimeout 1;
  LHigherTerm 2 1; LHandleRV 2 1 1 0 0;
  LBecomeLeader 1;
  LPropose 1 42;
  LSendAE 1 0 2 0;
  LHandleAE 2 1 1 0 0 [e1; e2] 0;
  LSelfAck 1;
  LAdvanceCommit 1 2;
  LSendHB 1 2 2; LHandleHB 2 1 1 2 ].

Definition run_b : list label := [
  LHigherTerm 3 1; LHandleAE 3 1 1 0 0 [e1; e2] 0;
  LRestart 2 0 2;
  LTimeout 3;
  LHigherTerm 2 2; LHandleRV 2 2 3 2 1;
  LBecomeLeader 3;
  LSendAE 3 2 1 0;
  LHandleAE 2 2 3 2 1 [noop 2] 0;
  LSelfAck 3;
  LAdvanceCommit 3 3;
  LSendAE 3 3 0 3;
  LHigherTerm 1 2; LHandleAE 1 2 3 2 1 [noop 2] 0; LHandleAE 1 2 3 3 2 [] 3 ].

Definition obs (o : option net) (i : id) : option (nat * role_t * list entry * nat) :=
  match o with
  | Some n => Some (term (nodes n i), role (nodes n i), log (nodes n i), commit (nodes n i))
  | None => None
  end.

(* after run_a: node 1 leads term 1 and nodes 1, 2 have committed [e1; e2] *)
Example run1_elects_and_commits :
  obs (run V3 (init) run_a) 1 = Some (1, Leader, [e1; e2], 2) /\
  obs (run V3 (init) run_a) 2 = Some (1, Follower, [e1; e2], 2) /\
  obs (run V3 (init) run_a) 3 = Some (0, Follower, [], 0).
Proof. vm_compute. repeat split. Qed.

(* after run_a ++ run_b: node 3 leads term 2, holds the entries committed in term 1, and
   everybody has committed [e1; e2; noop 2] *)
Example run2_second_leader_is_complete :
  obs (run V3 (init) (run_a ++ run_b)) 3 = Some (2, Leader, [e1; e2; noop 2], 3) /\
  obs (run V3 (init) (run_a ++ run_b)) 2 = Some (2, Follower, [e1; e2; noop 2], 0) /\
  obs (run V3 (init) (run_a ++ run_b)) 1 = Some (2, Follower, [e1; e2; noop 2], 3).
Proof. vm_compute. repeat split. Qed.

(* so the hypotheses of the theorems are satisfiable: the final state is reachable ... *)
Example run2_reachable :
  forall n, run V3 (init) (run_a ++ run_b) = Some n -> reachable V3 n.
Proof. exact (RaftNetSafety.run_reachable V3 (run_a ++ run_b)). Qed.

(* ... and a disabled label is refused: node 2 cannot become leader without votes, a
   second vote in the same term for another candidate is refused, an AE that would cut
   committed entries does not exist in the soup *)
Example disabled_labels :
  run V3 (init) (run_a ++ [LBecomeLeader 2]) = None /\
  run V3 (init) [LTimeout 1; LTimeout 3; LHigherTerm 2 1; LHandleRV 2 1 1 0 0;
                 LHandleRV 2 1 3 0 0] = None /\
  run V3 (init) (run_a ++ [LHandleAE 2 1 1 0 0 [mkE 1 7] 0]) = None.
Proof. vm_compute. repeat split. Qed.

(* a leader that crashes after sending entries it has not written yet loses them
   (Restart 1 0 1 keeps one entry), but cannot lose what it acknowledged *)
Example crash_loses_unwritten_suffix_only :
  obs (run V3 (init) [LTimeout 1; LHigherTerm 2 1; LHandleRV 2 1 1 0 0; LBecomeLeader 1;
                      LSelfAck 1; LPropose 1 42; LSendAE 1 0 2 0; LRestart 1 0 1]) 1
    = Some (1, Follower, [e1], 0) /\
  run V3 (init) [LTimeout 1; LHigherTerm 2 1; LHandleRV 2 1 1 0 0; LBecomeLeader 1;
                 LSelfAck 1; LPropose 1 42; LSendAE 1 0 2 0; LRestart 1 0 0] = None.
Proof. vm_compute. repeat split. Qed.

(* Stage 2: log compaction and InstallSnapshot (Model/RaftNetSnap.v) *)

(* A stage-2 state is a stage-1 state [base s] (whose node logs are the LOGICAL logs:
   the compacted prefix is kept as ghost) + the snapshot index [first s i] of every node
   + the snapshot messages sent.  What node i stores is
   [stored s i = (first, term at first, entries after first)]. *)

(* every reachable stage-2 state is a reachable stage-1 state with a bigger soup: the
   soup [ms] holds, for every snapshot message (t, ldr, sidx, sterm), the Replicate
   messages with every prev <= sidx that the snapshot stands for *)
Theorem stage2_refines_stage1 : forall V, NoDup V -> forall s,
  reachable2 V s ->
  exists ms, reachable V (with_msgs (base s) ms) /\ R s ms.
Proof. exact RaftNetSnap.stage2_refines_stage1. Qed.
Print Assumptions stage2_refines_stage1.

(* compaction never passes the commit index *)
Theorem snapshot_is_committed : forall V s i,
  reachable2 V s -> first s i <= commit (nodes (base s) i).
Proof. exact RaftNetSnap.snapshot_is_committed. Qed.
Print Assumptions snapshot_is_committed.

Theorem election_safety2 : forall V, NoDup V -> forall s i j,
  reachable2 V s ->
  role (nodes (base s) i) = Leader -> role (nodes (base s) j) = Leader ->
  term (nodes (base s) i) = term (nodes (base s) j) -> i = j.
Proof. exact RaftNetSnap.election_safety2. Qed.
Print Assumptions election_safety2.

Theorem log_matching2 : forall V, NoDup V -> forall s i j k,
  reachable2 V s ->
  1 <= k -> k <= length (log (nodes (base s) i)) -> k <= length (log (nodes (base s) j)) ->
  term_at (log (nodes (base s) i)) k = term_at (log (nodes (base s) j)) k ->
  firstn k (log (nodes (base s) i)) = firstn k (log (nodes (base s) j)).
Proof. exact RaftNetSnap.log_matching2. Qed.
Print Assumptions log_matching2.

Theorem leader_completeness2_trace : forall V, NoDup V -> forall s i k s1 ls s2 j,
  reachable2 V s -> step2 V s (L2Base (LAdvanceCommit i k)) s1 -> steps2 V s1 ls s2 ->
  role (nodes (base s2) j) = Leader ->
  term (nodes (base s) i) < term (nodes (base s2) j) ->
  firstn k (log (nodes (base s2) j)) = firstn k (log (nodes (base s) i)).
Proof. exact RaftNetSnap.leader_completeness2_trace. Qed.
Print Assumptions leader_completeness2_trace.

Theorem state_machine_safety2 : forall V, NoDup V -> forall s a b k,
  reachable2 V s -> k <= commit (nodes (base s) a) -> k <= commit (nodes (base s) b) ->
  firstn k (log (nodes (base s) a)) = firstn k (log (nodes (base s) b)).
Proof. exact RaftNetSnap.state_machine_safety2. Qed.
Print Assumptions state_machine_safety2.

(* ... and on what the nodes really store *)
Theorem state_machine_safety2_stored : forall V, NoDup V -> forall s a b k j,
  reachable2 V s -> k <= commit (nodes (base s) a) -> k <= commit (nodes (base s) b) ->
  first s a < j -> first s b < j -> j <= k ->
  nth_error (snd (stored s a)) (j - 1 - first s a)
  = nth_error (snd (stored s b)) (j - 1 - first s b).
Proof. exact RaftNetSnap.state_machine_safety2_stored. Qed.
Print Assumptions state_machine_safety2_stored.

Theorem committed_never_replaced2 : forall V, NoDup V -> forall s ls s' i k,
  reachable2 V s -> steps2 V s ls s' -> k <= commit (nodes (base s) i) ->
  firstn k (log (nodes (base s') i)) = firstn k (log (nodes (base s) i)).
Proof. exact RaftNetSnap.committed_never_replaced2. Qed.
Print Assumptions committed_never_replaced2.

(* a snapshot stands for a committed prefix *)
Theorem snapshot_content_committed : forall V, NoDup V -> forall s t ldr sidx sterm i k,
  reachable2 V s -> In (IS t ldr sidx sterm) (snaps s) ->
  k <= sidx -> k <= commit (nodes (base s) i) ->
  firstn k (log (nodes (base s) i)) = firstn k (llog (base s) t) /\
  sterm = term_at (llog (base s) t) sidx.
Proof. exact RaftNetSnap.snapshot_content_committed. Qed.
Print Assumptions snapshot_content_committed.

(* restore() leaves (snapshot index, snapshot term, no entries), committed = snapshot index *)
Theorem restore_stored : forall V, NoDup V -> forall s j t ldr sidx sterm s',
  reachable2 V s -> step2 V s (L2HandleIS j t ldr sidx sterm) s' ->
  commit (nodes (base s) j) < sidx -> term_at (log (nodes (base s) j)) sidx <> sterm ->
  stored s' j = (sidx, sterm, []) /\ commit (nodes (base s') j) = sidx.
Proof. exact RaftNetSnap.restore_stored. Qed.
Print Assumptions restore_stored.

Theorem step_fn2_sound : forall V s l s', step_fn2 V s l = Some s' -> step2 V s l s'.
Proof. exact RaftNetSnap.step_fn2_sound. Qed.
Print Assumptions step_fn2_sound.

Theorem run2_sound : forall V ls s s', run2 V s ls = Some s' -> steps2 V s ls s'.
Proof. exact RaftNetSnap.run2_sound. Qed.
Print Assumptions run2_sound.

(* non-vacuity: continue the run above; leader 3 compacts its log up to index 2, sends its
   snapshot at index 3; node 2 (restarted, commit 0, has the entries) fast-forwards its
   commit index; node 4 (a new non-voting node with an empty log) restores the snapshot *)
Definition run_c : list label2 :=
  map L2Base (run_a ++ run_b) ++
  [ L2Compact 3 2; L2SendIS 3 3;
    L2HandleIS 2 2 3 3 2;
    L2Base (LHigherTerm 4 2); L2HandleIS 4 2 3 3 2 ].

Definition obs2 (o : option net2) (i : id) :=
  match o with
  | Some s => Some (stored s i, commit (nodes (base s) i), log (nodes (base s) i))
  | None => None
  end.

Example run_c_snapshot :
  obs2 (run2 V3 init2 run_c) 3 = Some ((2, 1, [noop 2]), 3, [e1; e2; noop 2]) /\
  obs2 (run2 V3 init2 run_c) 2 = Some ((0, 0, [e1; e2; noop 2]), 3, [e1; e2; noop 2]) /\
  obs2 (run2 V3 init2 run_c) 4 = Some ((3, 2, []), 3, [e1; e2; noop 2]).
Proof. vm_compute. repeat split. Qed.

(* after compaction the leader cannot send a Replicate below its snapshot, and a node
   cannot restart below its snapshot *)
Example run_c_disabled :
  run2 V3 init2 (run_c ++ [L2Base (LSendAE 3 1 1 0)]) = None /\
  run2 V3 init2 (run_c ++ [L2Base (LRestart 4 0 3)]) = None /\
  run2 V3 init2 (run_c ++ [L2Compact 2 4]) = None.
Proof. vm_compute. repeat split. Qed.

(* Stage 3: single-server membership change (Model/RaftNetCfg.v) *)

(* A stage-3 state is a stage-1 state [base3 s] + per node the applied index and the
   pendingConfigChange flag (+ ghost).  The voters a node counts are
   [cfg_of (first (applied s i) entries of its log)]: membership changes take effect
   when applied, as in dragonboat; the two guards of the code are steps guards
   (no campaign while committed > applied; at most one unapplied config change in a
   leader's log).  [cfg_of] / [is_cc] are arguments; every theorem holds for every pair
   that meets [cfg_contract]:
     an entry that is no config change does not change cfg_of,
     quorums of cfg_of l and cfg_of (l ++ [e]) intersect,
     cfg_of l has no duplicates, the no-op of a new leader is no config change. *)

(* quorums intersect when one voter is added or removed: the contract is met by every
   membership function that changes one voter per config change entry *)
Theorem quorum_intersect_adjacent : forall (C : list id) (x : id),
  NoDup C -> ~ In x C -> qnear C (x :: C) /\ qnear (x :: C) C.
Proof. exact RaftNetCfgLemmas.quorum_intersect_adjacent. Qed.
Print Assumptions quorum_intersect_adjacent.

(* ... for instance by this one (payload 100+v adds voter v, 200+v removes voter v) *)
Theorem cfg_fold_contract : forall C0, NoDup C0 -> cfg_contract (cfg_fold C0) cc_payload.
Proof. exact RaftNetCfgSafety.cfg_fold_contract. Qed.
Print Assumptions cfg_fold_contract.

Theorem election_safety3 : forall cfg_of is_cc, cfg_contract cfg_of is_cc -> forall s i j,
  reachable3 cfg_of is_cc s ->
  role (nodes (base3 s) i) = Leader -> role (nodes (base3 s) j) = Leader ->
  term (nodes (base3 s) i) = term (nodes (base3 s) j) -> i = j.
Proof. exact RaftNetCfgSafety.election_safety3. Qed.
Print Assumptions election_safety3.

Theorem one_vote_per_term3 : forall cfg_of is_cc, cfg_contract cfg_of is_cc ->
  forall s t w c1 c2 vl1 vl2,
  reachable3 cfg_of is_cc s ->
  In (Vote t w c1 vl1) (msgs (base3 s)) -> In (Vote t w c2 vl2) (msgs (base3 s)) -> c1 = c2.
Proof. exact RaftNetCfgSafety.one_vote_per_term3. Qed.
Print Assumptions one_vote_per_term3.

(* a leader owns a quorum of votes of the configuration it campaigned with *)
Theorem leader_has_vote_quorum3 : forall cfg_of is_cc, cfg_contract cfg_of is_cc -> forall s i,
  reachable3 cfg_of is_cc s -> role (nodes (base3 s) i) = Leader ->
  exists Q, is_quorum (lcfg s (term (nodes (base3 s) i))) Q /\
            forall w, In w Q -> voted_msg (base3 s) (term (nodes (base3 s) i)) w i.
Proof. exact RaftNetCfgSafety.leader_has_vote_quorum3. Qed.
Print Assumptions leader_has_vote_quorum3.

Theorem log_matching3 : forall cfg_of is_cc, cfg_contract cfg_of is_cc -> forall s i j k,
  reachable3 cfg_of is_cc s ->
  1 <= k -> k <= length (log (nodes (base3 s) i)) -> k <= length (log (nodes (base3 s) j)) ->
  term_at (log (nodes (base3 s) i)) k = term_at (log (nodes (base3 s) j)) k ->
  firstn k (log (nodes (base3 s) i)) = firstn k (log (nodes (base3 s) j)).
Proof. exact RaftNetCfgSafety.log_matching3. Qed.
Print Assumptions log_matching3.

(* [In (t, k, a) (cevents s)]: the leader of term t advanced its commit index to k with
   a quorum of the configuration of its first a (applied) entries *)
Theorem leader_completeness3 : forall cfg_of is_cc, cfg_contract cfg_of is_cc ->
  forall s t k a i,
  reachable3 cfg_of is_cc s -> In (t, k, a) (cevents s) ->
  role (nodes (base3 s) i) = Leader -> t < term (nodes (base3 s) i) ->
  firstn k (log (nodes (base3 s) i)) = firstn k (llog (base3 s) t).
Proof. exact RaftNetCfgSafety.leader_completeness3. Qed.
Print Assumptions leader_completeness3.

Theorem leader_completeness3_trace : forall cfg_of is_cc, cfg_contract cfg_of is_cc ->
  forall s i k s1 ls s2 j,
  reachable3 cfg_of is_cc s ->
  step3 cfg_of is_cc s (L3Base (LAdvanceCommit i k)) s1 -> steps3 cfg_of is_cc s1 ls s2 ->
  role (nodes (base3 s2) j) = Leader ->
  term (nodes (base3 s) i) < term (nodes (base3 s2) j) ->
  firstn k (log (nodes (base3 s2) j)) = firstn k (log (nodes (base3 s) i)).
Proof. exact RaftNetCfgSafety.leader_completeness3_trace. Qed.
Print Assumptions leader_completeness3_trace.

Theorem state_machine_safety3 : forall cfg_of is_cc, cfg_contract cfg_of is_cc -> forall s a b k,
  reachable3 cfg_of is_cc s ->
  k <= commit (nodes (base3 s) a) -> k <= commit (nodes (base3 s) b) ->
  firstn k (log (nodes (base3 s) a)) = firstn k (log (nodes (base3 s) b)).
Proof. exact RaftNetCfgSafety.state_machine_safety3. Qed.
Print Assumptions state_machine_safety3.

Theorem committed_never_replaced3 : forall cfg_of is_cc, cfg_contract cfg_of is_cc ->
  forall s ls s' i k,
  reachable3 cfg_of is_cc s -> steps3 cfg_of is_cc s ls s' -> k <= commit (nodes (base3 s) i) ->
  firstn k (log (nodes (base3 s') i)) = firstn k (log (nodes (base3 s) i)).
Proof. exact RaftNetCfgSafety.committed_never_replaced3. Qed.
Print Assumptions committed_never_replaced3.

(* the guards of the code, as facts about every reachable state *)
Theorem applied_le_committed : forall cfg_of is_cc, cfg_contract cfg_of is_cc -> forall s i,
  reachable3 cfg_of is_cc s -> applied s i <= commit (nodes (base3 s) i).
Proof.
  intros cfg_of is_cc (A & B & C & D). exact (RaftNetCfgSafety.applied_le_committed cfg_of is_cc A B C D).
Qed.
Print Assumptions applied_le_committed.

Theorem no_campaign_with_unapplied_entries : forall cfg_of is_cc, cfg_contract cfg_of is_cc ->
  forall s i,
  reachable3 cfg_of is_cc s -> role (nodes (base3 s) i) = Candidate ->
  applied s i = commit (nodes (base3 s) i).
Proof. exact RaftNetCfgSafety.no_campaign_with_unapplied_entries. Qed.
Print Assumptions no_campaign_with_unapplied_entries.

Theorem one_unapplied_cc_in_leader_log : forall cfg_of is_cc, cfg_contract cfg_of is_cc ->
  forall s i,
  reachable3 cfg_of is_cc s -> role (nodes (base3 s) i) = Leader ->
  ccs is_cc (log (nodes (base3 s) i)) (applied s i) <= 1.
Proof.
  intros cfg_of is_cc (A & B & C & D). exact (RaftNetCfgSafety.one_unapplied_cc_in_leader_log cfg_of is_cc A B C D).
Qed.
Print Assumptions one_unapplied_cc_in_leader_log.

(* no log ever has two config changes above its commit index, so the panic in
   preLeaderPromotionHandleConfigChange (the LBecomeLeader guard) is unreachable *)
Theorem one_cc_above_commit : forall cfg_of is_cc, cfg_contract cfg_of is_cc -> forall s i,
  reachable3 cfg_of is_cc s ->
  ccs is_cc (log (nodes (base3 s) i)) (commit (nodes (base3 s) i)) <= 1.
Proof. exact RaftNetCfgSafety.one_cc_above_commit. Qed.
Print Assumptions one_cc_above_commit.

Theorem append_never_conflicts_with_committed3 : forall cfg_of is_cc, cfg_contract cfg_of is_cc ->
  forall s j t ldr prev pt ents lc,
  reachable3 cfg_of is_cc s -> In (AE t ldr prev pt ents lc) (msgs (base3 s)) ->
  t = term (nodes (base3 s) j) -> term_at (log (nodes (base3 s) j)) prev = pt ->
  try_append (log (nodes (base3 s) j)) (commit (nodes (base3 s) j)) prev ents <> None.
Proof. exact RaftNetCfgSafety.append_never_conflicts_with_committed3. Qed.
Print Assumptions append_never_conflicts_with_committed3.

Theorem heartbeat_commit_in_range3 : forall cfg_of is_cc, cfg_contract cfg_of is_cc ->
  forall s j t ldr c,
  reachable3 cfg_of is_cc s -> In (HB t ldr j c) (msgs (base3 s)) ->
  t = term (nodes (base3 s) j) -> c <= length (log (nodes (base3 s) j)).
Proof. exact RaftNetCfgSafety.heartbeat_commit_in_range3. Qed.
Print Assumptions heartbeat_commit_in_range3.

Theorem step_fn3_sound : forall cfg_of is_cc s l s',
  step_fn3 cfg_of is_cc s l = Some s' -> step3 cfg_of is_cc s l s'.
Proof. exact RaftNetCfgSafety.step_fn3_sound. Qed.
Print Assumptions step_fn3_sound.

Theorem run3_sound : forall cfg_of is_cc ls s s',
  run3 cfg_of is_cc s ls = Some s' -> steps3 cfg_of is_cc s ls s'.
Proof. exact RaftNetCfgSafety.run3_sound. Qed.
Print Assumptions run3_sound.

(* non-vacuity: initial voters 1, 2, 3; node 1 becomes leader, proposes "add voter 4"
   (payload 104); a second config change is refused while the first is pending; the change
   is committed by two of {1,2,3} and applied by the leader; from then on a commit needs
   three of {4,1,2,3} *)
Definition cfg3 := cfg_fold [1; 2; 3].
Definition cc1 : entry := mkE 1 104.
Definition e7 : entry := mkE 1 7.

Definition run_d : list label3 :=
  map L3Base [ LTimeout 1; LHigherTerm 2 1; LHandleRV 2 1 1 0 0; LBecomeLeader 1;
               LPropose 1 104;
               LSendAE 1 0 2 0; LHandleAE 2 1 1 0 0 [e1; cc1] 0; LSelfAck 1;
               LAdvanceCommit 1 2 ] ++
  [ L3Apply 1; L3Apply 1 ] ++
  map L3Base [ LPropose 1 7; LSendAE 1 2 1 2; LHandleAE 2 1 1 2 1 [e7] 2; LSelfAck 1 ].

Definition obs3 (o : option net3) (i : id) :=
  match o with
  | Some s => Some (log (nodes (base3 s) i), commit (nodes (base3 s) i), applied s i,
                    cfg cfg3 s i, pending s i)
  | None => None
  end.

Example run_d_membership_change :
  obs3 (run3 cfg3 cc_payload init3 run_d) 1 = Some ([e1; cc1; e7], 2, 2, [4; 1; 2; 3], false) /\
  obs3 (run3 cfg3 cc_payload init3 run_d) 2 = Some ([e1; cc1; e7], 2, 0, [1; 2; 3], false).
Proof. vm_compute. repeat split. Qed.

(* with acknowledgements of 1 and 2 only, index 3 cannot be committed in the new
   configuration; with node 3 it can.  A second config change while one is pending, a
   campaign with unapplied entries, and a plain LRestart label are refused. *)
Example run_d_quorums :
  run3 cfg3 cc_payload init3 (run_d ++ [L3Base (LAdvanceCommit 1 3)]) = None /\
  obs3 (run3 cfg3 cc_payload init3
          (run_d ++ map L3Base [ LHigherTerm 3 1; LHandleAE 3 1 1 0 0 [e1; cc1] 0;
                                 LHandleAE 3 1 1 2 1 [e7] 2; LAdvanceCommit 1 3 ])) 1
    = Some ([e1; cc1; e7], 3, 2, [4; 1; 2; 3], false) /\
  run3 cfg3 cc_payload init3
       (map L3Base [ LTimeout 1; LHigherTerm 2 1; LHandleRV 2 1 1 0 0; LBecomeLeader 1;
                     LPropose 1 104; LPropose 1 105 ]) = None /\
  run3 cfg3 cc_payload init3 (run_d ++ [L3Base (LTimeout 2)]) = None /\
  run3 cfg3 cc_payload init3 (run_d ++ [L3Base (LRestart 2 0 3)]) = None /\
  obs3 (run3 cfg3 cc_payload init3 (run_d ++ [L3Crash 2 2 3 0])) 2
    = Some ([e1; cc1; e7], 2, 0, [1; 2; 3], false).
Proof. vm_compute. repeat split. Qed.

(* the run is a run of the relation, so its states are reachable *)
Example run_d_reachable :
  forall s, run3 cfg3 cc_payload init3 run_d = Some s -> reachable3 cfg3 cc_payload s.
Proof. exact (RaftNetCfgSafety.run3_reachable cfg3 cc_payload run_d). Qed.

(* Stages 2 and 3 together (Model/RaftNetCfgSnap.v): membership change with
   log compaction and InstallSnapshot *)

(* every reachable state is a reachable stage-3 state with a bigger soup (the Replicate
   messages every snapshot stands for), so the stage-3 theorems hold for the logical logs *)
Theorem stage23_refines_stage3 : forall cfg_of is_cc, cfg_contract cfg_of is_cc -> forall s,
  reachable4 cfg_of is_cc s ->
  exists ms, reachable3 cfg_of is_cc (with_msgs3 (base4 s) ms) /\ R4 s ms.
Proof. exact RaftNetCfgSnap.stage23_refines_stage3. Qed.
Print Assumptions stage23_refines_stage3.

Theorem snapshot_is_committed4 : forall cfg_of is_cc s i,
  reachable4 cfg_of is_cc s -> first4 s i <= commit (nodes (base3 (base4 s)) i).
Proof. exact RaftNetCfgSnap.snapshot_is_committed4. Qed.
Print Assumptions snapshot_is_committed4.

Theorem election_safety4 : forall cfg_of is_cc, cfg_contract cfg_of is_cc -> forall s i j,
  reachable4 cfg_of is_cc s ->
  role (nodes (base3 (base4 s)) i) = Leader -> role (nodes (base3 (base4 s)) j) = Leader ->
  term (nodes (base3 (base4 s)) i) = term (nodes (base3 (base4 s)) j) -> i = j.
Proof. exact RaftNetCfgSnap.election_safety4. Qed.
Print Assumptions election_safety4.

Theorem log_matching4 : forall cfg_of is_cc, cfg_contract cfg_of is_cc -> forall s i j k,
  reachable4 cfg_of is_cc s -> 1 <= k ->
  k <= length (log (nodes (base3 (base4 s)) i)) -> k <= length (log (nodes (base3 (base4 s)) j)) ->
  term_at (log (nodes (base3 (base4 s)) i)) k = term_at (log (nodes (base3 (base4 s)) j)) k ->
  firstn k (log (nodes (base3 (base4 s)) i)) = firstn k (log (nodes (base3 (base4 s)) j)).
Proof. exact RaftNetCfgSnap.log_matching4. Qed.
Print Assumptions log_matching4.

Theorem leader_completeness4_trace : forall cfg_of is_cc, cfg_contract cfg_of is_cc ->
  forall s i k s1 ls s2 j,
  reachable4 cfg_of is_cc s ->
  step4 cfg_of is_cc s (L4Base (L3Base (LAdvanceCommit i k))) s1 -> steps4 cfg_of is_cc s1 ls s2 ->
  role (nodes (base3 (base4 s2)) j) = Leader ->
  term (nodes (base3 (base4 s)) i) < term (nodes (base3 (base4 s2)) j) ->
  firstn k (log (nodes (base3 (base4 s2)) j)) = firstn k (log (nodes (base3 (base4 s)) i)).
Proof. exact RaftNetCfgSnap.leader_completeness4_trace. Qed.
Print Assumptions leader_completeness4_trace.

Theorem state_machine_safety4 : forall cfg_of is_cc, cfg_contract cfg_of is_cc -> forall s a b k,
  reachable4 cfg_of is_cc s ->
  k <= commit (nodes (base3 (base4 s)) a) -> k <= commit (nodes (base3 (base4 s)) b) ->
  firstn k (log (nodes (base3 (base4 s)) a)) = firstn k (log (nodes (base3 (base4 s)) b)).
Proof. exact RaftNetCfgSnap.state_machine_safety4. Qed.
Print Assumptions state_machine_safety4.

Theorem committed_never_replaced4 : forall cfg_of is_cc, cfg_contract cfg_of is_cc ->
  forall s ls s' i k,
  reachable4 cfg_of is_cc s -> steps4 cfg_of is_cc s ls s' ->
  k <= commit (nodes (base3 (base4 s)) i) ->
  firstn k (log (nodes (base3 (base4 s')) i)) = firstn k (log (nodes (base3 (base4 s)) i)).
Proof. exact RaftNetCfgSnap.committed_never_replaced4. Qed.
Print Assumptions committed_never_replaced4.

Theorem applied_le_committed4 : forall cfg_of is_cc, cfg_contract cfg_of is_cc -> forall s i,
  reachable4 cfg_of is_cc s -> applied (base4 s) i <= commit (nodes (base3 (base4 s)) i).
Proof. exact RaftNetCfgSnap.applied_le_committed4. Qed.
Print Assumptions applied_le_committed4.

(* ReadIndex (Model/RaftNetRead.v, stage-1 voter set): C06 *)

(* A read record r = (ctx, term, leader, index) is made by a leader that has committed
   an entry of its own term, with index := its commit index; [r_snap r] is the (ghost)
   state of the whole system at that moment.  Once a quorum of V has confirmed ctx in
   that term, the index is at least every commit index that any node had when the read
   was requested -- also the highest one a node ever had ([hcommit]), so it covers
   everything acknowledged to any client before the request. *)
Theorem read_index_not_stale : forall V, NoDup V -> forall s r j,
  reachableR V s -> In r (reads s) -> confirmed V s r ->
  hcommit (nodes (r_snap r) j) <= r_index r.
Proof. exact RaftNetRead.read_index_not_stale. Qed.
Print Assumptions read_index_not_stale.

Theorem read_index_covers_commits : forall V, NoDup V -> forall s r j,
  reachableR V s -> In r (reads s) -> confirmed V s r ->
  commit (nodes (r_snap r) j) <= r_index r.
Proof. exact RaftNetRead.read_index_covers_commits. Qed.
Print Assumptions read_index_covers_commits.

(* readIndex.confirm releases the older pending reads together with the confirmed one, at
   its index ([reads s] is newest first) *)
Theorem read_index_covers_older_reads : forall V, NoDup V -> forall s pre r post r' j,
  reachableR V s -> reads s = pre ++ r :: post -> In r' post -> confirmed V s r ->
  hcommit (nodes (r_snap r') j) <= r_index r.
Proof. exact RaftNetRead.read_index_covers_older_reads. Qed.
Print Assumptions read_index_covers_older_reads.

Theorem step_fnR_sound : forall V s l s', step_fnR V s l = Some s' -> stepR V s l s'.
Proof. exact RaftNetRead.step_fnR_sound. Qed.
Print Assumptions step_fnR_sound.

Theorem confirmed_b_sound : forall V, NoDup V -> forall s r,
  confirmed_b V s r = true -> confirmed V s r.
Proof. exact RaftNetRead.confirmed_b_sound. Qed.
Print Assumptions confirmed_b_sound.

(* non-vacuity: after run_a (leader 1 of term 1 has committed index 2, an entry of its own
   term) a read with ctx 7 is requested and confirmed by node 2; before that confirmation
   it is not confirmed; a leader that has not committed anything in its term cannot
   serve reads; a node of another term cannot confirm *)
Definition run_r : list labelR := map LRBase run_a ++ [LRRequest 1 7].

Definition read_obs (o : option netR) :=
  match o with
  | Some s => Some (map (fun r => (r_ctx r, r_term r, r_ldr r, r_index r, confirmed_b V3 s r)) (reads s))
  | None => None
  end.

Example read_confirmed :
  read_obs (runR V3 (initR) run_r) = Some [(7, 1, 1, 2, false)] /\
  read_obs (runR V3 (initR) (run_r ++ [LRRespond 2 1 7])) = Some [(7, 1, 1, 2, true)] /\
  runR V3 (initR) (run_r ++ [LRRespond 3 1 7]) = None /\
  runR V3 (initR) (map LRBase [LTimeout 1; LHigherTerm 2 1; LHandleRV 2 1 1 0 0; LBecomeLeader 1]
                     ++ [LRRequest 1 7]) = None.
Proof. vm_compute. repeat split. Qed.
