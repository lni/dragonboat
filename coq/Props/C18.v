(* C18 — roles are respected: only full voters campaign or lead; quorums count voters and
   witnesses; witnesses get metadata only. LOCAL theorems on the faithful L1 model plus facts
   computed from the GENERATED handler table. Statements; the arguments are in Proofs/RaftRoles.v. *)
From DB Require Import Model.RaftCore Proofs.RaftTable Proofs.RaftStep Proofs.RaftRoles.
Open Scope N_scope.

(* from initializeHandlerMap: no election, vote-response, replication-response, heartbeat-
   response, check-quorum, leader-heartbeat, timeout-now or leader-transfer handler for
   non-voting members and witnesses; witnesses additionally take no proposals, reads or
   log queries *)
Theorem handler_table_roles_nonvoting :
  no_handler st_nonVoting [mt_Election; mt_RequestVoteResp; mt_RequestPreVoteResp;
                           mt_ReplicateResp; mt_HeartbeatResp; mt_LeaderHeartbeat; mt_CheckQuorum;
                           mt_TimeoutNow; mt_LeaderTransfer; mt_SnapshotStatus; mt_Unreachable] = true.
Proof. vm_compute. reflexivity. Qed.
Print Assumptions handler_table_roles_nonvoting.

Theorem handler_table_roles_witness :
  no_handler st_witness [mt_Election; mt_RequestVoteResp; mt_RequestPreVoteResp;
                         mt_ReplicateResp; mt_HeartbeatResp; mt_LeaderHeartbeat; mt_CheckQuorum;
                         mt_TimeoutNow; mt_LeaderTransfer; mt_SnapshotStatus; mt_Unreachable;
                         mt_Propose; mt_ReadIndex; mt_ReadIndexResp; mt_LogQuery] = true.
Proof. vm_compute. reflexivity. Qed.
Print Assumptions handler_table_roles_witness.

(* for EVERY state of a non-voting member or witness, every message and every recursion
   depth of raft.Handle: the replica does not become candidate, pre-vote candidate or leader;
   a witness stays a witness; a non-voting member changes role only by promotion to follower *)
Theorem only_voters_campaign_or_lead :
  forall f r m, r_role r = NonVoting \/ r_role r = Witness ->
    r_role (handle f r m) <> Candidate /\ r_role (handle f r m) <> PreVoteCandidate /\
    r_role (handle f r m) <> Leader /\ (r_role r = Witness -> r_role (handle f r m) = Witness).
Proof.
  intros f r m Hnw. destruct (handle_nw_promo f r m Hnw) as [H|[H1 H2]].
  - rewrite H. destruct Hnw as [E|E]; rewrite E; repeat split; try discriminate; intros; congruence.
  - rewrite H2. repeat split; try discriminate. intros E. congruence.
Qed.
Print Assumptions only_voters_campaign_or_lead.

Theorem nonvoting_changes_role_only_by_promotion :
  forall f r m, r_role r = NonVoting \/ r_role r = Witness ->
    r_role (handle f r m) = r_role r \/ (r_role r = NonVoting /\ r_role (handle f r m) = Follower).
Proof. exact handle_nw_promo. Qed.
Print Assumptions nonvoting_changes_role_only_by_promotion.

(* whatever sendReplicateMessage emits for a witness carries only metadata entries (index and
   term, no payload, no client identifiers) or membership changes, and a witness snapshot
   without file *)
Theorem witness_gets_metadata_only :
  forall r to rp x, find_peer r to = Some (KWitness, rp) ->
    In x (r_msgs (send_replicate r to)) ->
    In x (r_msgs r) \/
    (m_to x = to /\ Forall witness_safe (m_entries x) /\
     (m_type x = mt_InstallSnapshot -> ss_witness (m_snapshot x) = true /\ ss_has_file (m_snapshot x) = false)).
Proof. exact witness_gets_metadata_only_proved. Qed.
Print Assumptions witness_gets_metadata_only.

(* votes and pre-votes from non-voting members are not counted *)
Theorem vote_from_nonvoting_ignored :
  forall r m, amem (m_from m) (r_nonvotings r) = true -> handle_candidate_request_vote_resp r m = r.
Proof. intros r m H. unfold handle_candidate_request_vote_resp. rewrite H. reflexivity. Qed.
Print Assumptions vote_from_nonvoting_ignored.

Theorem prevote_from_nonvoting_ignored :
  forall r m, amem (m_from m) (r_nonvotings r) = true -> handle_prevote_candidate_resp r m = r.
Proof. intros r m H. unfold handle_prevote_candidate_resp. rewrite H. reflexivity. Qed.
Print Assumptions prevote_from_nonvoting_ignored.

(* ReadIndex confirmation requests (heartbeats with a hint) go to voting members only *)
Theorem readindex_hint_only_to_voters :
  forall r ctx x, negb ((fst ctx =? 0) && (snd ctx =? 0)) = true ->
    In x (r_msgs (broadcast_heartbeat_hint r ctx)) -> In x (r_msgs r) \/ In (m_to x) (voting_ids r).
Proof. exact readindex_hint_only_to_voters_proved. Qed.
Print Assumptions readindex_hint_only_to_voters.

(* the code's own list of forbidden cells (checkHandlerMap) is empty in the generated table *)
Theorem check_handler_map_holds :
  forallb (fun c => match handler_of (fst c) (snd c) with H_none => true | _ => false end)
    [(st_leader, mt_Heartbeat); (st_leader, mt_Replicate); (st_leader, mt_InstallSnapshot);
     (st_leader, mt_ReadIndexResp); (st_leader, mt_RequestPreVoteResp);
     (st_follower, mt_ReplicateResp); (st_follower, mt_HeartbeatResp); (st_follower, mt_SnapshotStatus);
     (st_follower, mt_Unreachable); (st_follower, mt_RequestPreVoteResp);
     (st_candidate, mt_ReplicateResp); (st_candidate, mt_HeartbeatResp); (st_candidate, mt_SnapshotStatus);
     (st_candidate, mt_Unreachable); (st_candidate, mt_RequestPreVoteResp);
     (st_preVoteCandidate, mt_ReplicateResp); (st_preVoteCandidate, mt_HeartbeatResp);
     (st_preVoteCandidate, mt_SnapshotStatus); (st_preVoteCandidate, mt_Unreachable);
     (st_nonVoting, mt_Election); (st_nonVoting, mt_RequestVoteResp); (st_nonVoting, mt_ReplicateResp);
     (st_nonVoting, mt_HeartbeatResp); (st_nonVoting, mt_RequestPreVoteResp);
     (st_witness, mt_Election); (st_witness, mt_Propose); (st_witness, mt_ReadIndex);
     (st_witness, mt_ReadIndexResp); (st_witness, mt_RequestVoteResp); (st_witness, mt_ReplicateResp);
     (st_witness, mt_HeartbeatResp); (st_witness, mt_RequestPreVoteResp); (st_witness, mt_LogQuery)] = true.
Proof. vm_compute. reflexivity. Qed.
Print Assumptions check_handler_map_holds.

(* non-vacuity: a witness that receives a RequestVote of a higher term stays a witness *)
Example witness_stays_witness :
  let r := new_raft 3 Witness 10 1 true false (mkLog 0 0 [] 0 0 0 None empty_snapshot) [1; 2] [] [3] None 12 in
  r_role (raft_handle r ((msg0 mt_RequestVote) <| m_from := 1 |> <| m_term := 5 |>)) = Witness.
Proof. vm_compute. reflexivity. Qed.
