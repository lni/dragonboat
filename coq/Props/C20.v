(* C20 - quorum-loss repair by ImportSnapshot yields the exported state and the
   given members.  Statements, each closed by a lemma of Proofs/ImportTool.v or in a
   few lines from such lemmas; the model is Model/ImportTool.v.

     import_run inp = (executed steps, Imported record | Refused reason)
   is the model of tools.ImportSnapshot: the steps are ordered by the positions
   tools/genmodel extracts from the body of ImportSnapshot on every run, the I/O
   failures of the steps are an oracle ([in_env_fail]), every theorem holds for
   all of them.  [logdb_import] / [tan_import] model logdb.ImportSnapshot.

   Not proved here (named in checks/C20.json): that the restarted replicas'
   state machines equal the exported state (recover-from-image is C08/C14; the
   end-to-end harness run checks it on the real code), and that the restarted
   shard elects a leader (C17; end-to-end run). *)
From DB Require Import Base.Bytes Base.CRC32 Gen.GenC20 Model.ImportTool Proofs.ImportTool.
Open Scope N_scope.

(* Addresses = exactly the given list, no non-voting / witness members,
   Removed = old Removed + every old member (of any kind) that is not listed,
   ConfigChangeId = snapshot index, Imported set, everything that identifies
   the image unchanged. *)
Theorem import_membership_exact : forall dst old members,
  let ss := get_processed dst old members in
  let m := s_membership ss in
  (forall id, alookup id (m_addresses m) = alookup id members) /\
  m_nonvotings m = [] /\ m_witnesses m = [] /\
  (forall id, In id (m_removed m) <->
     In id (m_removed (s_membership old)) \/
     (old_member (s_membership old) id /\ amem id members = false)) /\
  m_ccid m = s_index old /\
  s_imported ss = true /\
  s_index ss = s_index old /\ s_term ss = s_term old /\ s_checksum ss = s_checksum old /\
  s_type ss = s_type old /\ s_shard ss = s_shard old /\ s_filesize ss = s_filesize old /\
  s_dummy ss = s_dummy old.
Proof.
  intros dst old members. cbn. repeat split; try reflexivity;
    [intros id; apply alookup_mnorm | apply In_processed_removed..].
Qed.
Print Assumptions import_membership_exact.

(* a member list that passed checkMembers: nobody listed ends up removed *)
Theorem import_no_member_removed : forall dst old members,
  check_members (s_membership old) members = None ->
  forall id, amem id members = true ->
  ~ In id (m_removed (s_membership (get_processed dst old members))).
Proof. exact import_no_member_removed_proved. Qed.
Print Assumptions import_no_member_removed.

(* ... and every listed replica that was known before was a voting member at
   the same address *)
Theorem accepted_members_keep_address_and_kind : forall old members id a,
  check_members old members = None -> In (id, a) members ->
  (forall v, alookup id (m_addresses old) = Some v -> v = a) /\
  amem id (m_nonvotings old) = false /\ amem id (m_witnesses old) = false /\
  ~ In id (m_removed old).
Proof. exact accepted_member_facts. Qed.
Print Assumptions accepted_members_keep_address_and_kind.

(* exactly the lists the property names are refused: a member is refused iff it
   changes an address, is a non-voting member or witness (kind change), or was
   removed *)
Theorem check_members_iff : forall old members,
  check_members old members = None <->
  forall id a, In (id, a) members -> ~ bad_member old id a.
Proof. exact check_members_iff_proved. Qed.
Print Assumptions check_members_iff.

(* Go iterates the member map in random order: the verdict does not depend on it *)
Theorem check_members_order_independent : forall old m1 m2,
  (forall kv, In kv m1 <-> In kv m2) ->
  (check_members old m1 = None <-> check_members old m2 = None).
Proof. exact check_members_perm. Qed.
Print Assumptions check_members_order_independent.

Theorem check_import_settings_iff : forall raddr members replica,
  check_import_settings raddr members replica = SettingsOk <-> alookup replica members = Some raddr.
Proof. exact check_import_settings_ok. Qed.
Print Assumptions check_import_settings_iff.

Theorem complete_image_iff : forall file recorded,
  is_complete_image file recorded = ImageComplete <-> payload_checksum file = CkOk recorded.
Proof. exact is_complete_image_spec. Qed.
Print Assumptions complete_image_iff.

(* what the recorded checksum covers (observation O6): two files of the same
   length that agree on the 4 bytes at every block-CRC offset have the same
   checksum - a change inside a block payload, the header or the tail is not
   seen by the import-time check (it is seen by the block reader on restart,
   C14) *)
Theorem checksum_covers_block_crcs_only : forall f1 f2 offs,
  length f1 = length f2 -> crc_offsets (nlen f1) = Some offs ->
  (forall o, In o offs -> read_at4 f1 o = read_at4 f2 o) ->
  payload_checksum f1 = payload_checksum f2.
Proof.
  intros f1 f2 offs Hl Ho H. unfold payload_checksum, nlen in *.
  rewrite <- Hl, Ho, (read_crcs_ext f1 f2 offs H). reflexivity.
Qed.
Print Assumptions checksum_covers_block_crcs_only.

(* a change confined to one byte of a block CRC is refused *)
Theorem crc_field_byte_change_detected : forall f1 f2 offs pre post b1 b2 recorded,
  crc_offsets (nlen f1) = Some offs -> crc_offsets (nlen f2) = Some offs ->
  read_crcs f1 offs = Some (pre ++ b1 :: post) ->
  read_crcs f2 offs = Some (pre ++ b2 :: post) ->
  wf_bytes pre -> wf_bytes post -> b1 < 256 -> b2 < 256 -> b1 <> b2 ->
  is_complete_image f1 recorded = ImageComplete ->
  is_complete_image f2 recorded = ImageIncomplete.
Proof. exact crc_field_byte_change_detected_proved. Qed.
Print Assumptions crc_field_byte_change_detected.

(* every refusal condition of the property: refused, by one of the checks,
   and no mutating step was executed *)
Theorem import_refused_when : forall inp,
  refusal_condition inp ->
  exists tr r, import_run inp = (tr, Refused r) /\ check_refusal r /\ safe_trace tr.
Proof. exact import_refused_when_proved. Qed.
Print Assumptions import_refused_when.

(* structure of the program: each of the checks occurs before the first
   mutating step and its failure ends ImportSnapshot *)
Theorem checks_before_mutations : forall o, is_check o = true ->
  In o (before_first_mutation import_prog) /\ op_guard o = true.
Proof. rewrite import_prog_eq. intros o H. destruct o; try discriminate; cbn; auto 10. Qed.
Print Assumptions checks_before_mutations.

(* whatever the inputs and the I/O failures: if any mutating step was executed
   then all the checks had passed *)
Theorem refusal_precedes_any_mutation : forall inp tr out,
  import_run inp = (tr, out) ->
  forall o, In o tr -> mutating o = true -> exists old, all_checks_pass inp old.
Proof.
  intros inp tr out H o Hin Hm. destruct (import_run_checks _ _ _ H) as [Hp|(Hs & _)]; [exact Hp|].
  rewrite (Hs o Hin) in Hm. discriminate.
Qed.
Print Assumptions refusal_precedes_any_mutation.

(* conversely a request meeting none of the refusal conditions runs to the end
   (absent I/O errors) and records the processed record *)
Theorem import_succeeds_when : forall inp old,
  all_checks_pass inp old -> in_env_fail inp = [] ->
  import_run inp =
    ([OCheckSettings; OLocate; OReadMeta; OCheckComplete; OCheckExtFiles; OCheckMembers; ONewEnv;
      OCreateNodeHostDir; OOpenLogDB; OCheckNodeHostDir;
      if in_ssdir_exists inp then OCleanup else OCreateSSDir;
      OCreateTemp; OProcess; OCopy; OFinalize; OLogDBImport],
     Imported (get_processed (in_final_dir inp) old (in_members inp))).
Proof. exact import_run_success. Qed.
Print Assumptions import_succeeds_when.

Theorem checks_pass_iff_no_refusal_condition : forall inp old,
  alookup (in_replica inp) (in_members inp) = Some (in_raft_address inp) ->
  in_src_exists inp = true -> (exists f, snapshot_files (in_entries inp) = [f]) ->
  in_meta inp = MetaOk old ->
  payload_checksum (in_file inp) = CkOk (s_checksum old) ->
  (forall f, In f (s_files old) -> ext_file_present (in_entries inp) f = true) ->
  (forall id a, In (id, a) (in_members inp) -> ~ bad_member (s_membership old) id a) ->
  all_checks_pass inp old.
Proof. exact checks_pass_when. Qed.
Print Assumptions checks_pass_iff_no_refusal_condition.

(* a successful import (any I/O oracle) passed the checks, copied and finalised
   the image and handed exactly the processed record to the log store *)
Theorem imported_implies_checked : forall inp tr ss,
  import_run inp = (tr, Imported ss) ->
  exists old, all_checks_pass inp old /\
              ss = get_processed (in_final_dir inp) old (in_members inp) /\
              In OCopy tr /\ In OFinalize tr /\ In OLogDBImport tr.
Proof. exact import_run_imported. Qed.
Print Assumptions imported_implies_checked.

(* from EVERY prior content of the replica's records: state = (term, no vote,
   commit = index), the only snapshot record is the imported one, max index =
   index, bootstrap = Join with the image's state machine type and no initial
   members, nothing above the index is visible.  (The entries themselves stay
   in the Pebble store; they are unreachable behind the max index.) *)
Theorem logstore_after_import : forall ls ss,
  s_index ss <> 0 -> s_type ss <> sm_unknown ->
  exists ls', logdb_import ls ss = LOk ls' /\
    ls_state ls' = Some (mkHS (s_term ss) 0 (s_index ss)) /\
    ls_snapshots ls' = [ss] /\ ls_get_snapshot ls' = Some ss /\
    ls_maxindex ls' = Some (s_index ss) /\
    ls_bootstrap ls' = Some (mkBS true (s_type ss) []) /\
    (forall lo, s_index ss <= lo -> ls_visible_entries ls' lo = []) /\
    ls_entries ls' = ls_entries ls.
Proof. exact logstore_after_import_proved. Qed.
Print Assumptions logstore_after_import.

(* the Tan log store ends with the same records *)
Theorem logstore_after_import_tan_same : forall ls ss ls',
  s_index ss <> 0 -> logdb_import ls ss = LOk ls' ->
  let t := tan_import ls ss in
  ls_state t = ls_state ls' /\ ls_bootstrap t = ls_bootstrap ls' /\
  ls_snapshots t = ls_snapshots ls' /\ ls_maxindex t = ls_maxindex ls' /\
  (forall lo, s_index ss <= lo -> ls_visible_entries t lo = ls_visible_entries ls' lo).
Proof. exact tan_matches_pebble_proved. Qed.
Print Assumptions logstore_after_import_tan_same.

(* life after the repair: whatever the replica's store held before the import
   (entries, its own newer snapshots, a log compacted beyond the export index),
   k entries appended right above the imported index are exactly what the store
   returns above it - Pebble and Tan (whose per-replica compaction point is
   forgotten by the import) *)
Theorem entries_after_import_readable : forall ls ss ls' k term,
  s_index ss <> 0 -> logdb_import ls ss = LOk ls' ->
  ls_visible_entries (apply_lsop ls' (LSaveEntries (s_index ss + 1) k term)) (s_index ss) =
  mk_entries (N.to_nat k) (s_index ss + 1) term.
Proof. exact entries_after_import_readable_proved. Qed.
Print Assumptions entries_after_import_readable.

Theorem tan_entries_after_import_readable : forall t ss k term,
  s_index ss <> 0 ->
  ts_visible_entries (apply_tsop (tan_import_t t ss) (LSaveEntries (s_index ss + 1) k term)) (s_index ss) =
  mk_entries (N.to_nat k) (s_index ss + 1) term.
Proof. exact tan_entries_after_import_readable_proved. Qed.
Print Assumptions tan_entries_after_import_readable.

(* the tool writes the records into the store NewNodeHost is going to open:
   same data directory, same low latency (WAL) directory, for every
   NodeHostDir / WALDir *)
Theorem tool_opens_store_where_nodehost_does : forall nhdir waldir,
  tool_store_dirs nhdir waldir = nodehost_store_dirs nhdir waldir.
Proof. reflexivity. Qed.
Print Assumptions tool_opens_store_where_nodehost_does.

(* tool + store: after a successful run the newest snapshot record of the
   replica is the processed record (membership = import_membership_exact) *)
Theorem imported_record_in_store : forall inp tr ss ls,
  import_run inp = (tr, Imported ss) -> s_index ss <> 0 -> s_type ss <> sm_unknown ->
  exists old ls', in_meta inp = MetaOk old /\ logdb_import ls ss = LOk ls' /\
    ls_get_snapshot ls' = Some (get_processed (in_final_dir inp) old (in_members inp)).
Proof.
  intros inp tr ss ls H Hi Ht. destruct (import_run_imported _ _ _ H) as (old & Hp & -> & _).
  destruct (logstore_after_import_proved ls _ Hi Ht) as (ls' & H1 & _ & _ & H2 & _).
  exists old, ls'. destruct Hp as (_ & _ & H3 & _). auto.
Qed.
Print Assumptions imported_record_in_store.

(* the steps executed by a run with passing checks and no I/O failure *)
Theorem import_run_trace : forall inp old,
  all_checks_pass inp old -> in_env_fail inp = [] ->
  fst (import_run inp) = success_trace (in_ssdir_exists inp).
Proof. intros inp old H He. rewrite (import_run_success inp old H He). reflexivity. Qed.
Print Assumptions import_run_trace.

(* a power failure after any number of steps (an I/O failure stops the run at
   a step, which is the same prefix), on a host that does not yet record the
   imported image: the log store never names the imported image without the
   finalised image being in place - no half imported replica can start *)
Theorem crash_never_half_imported : forall b k st,
  host_consistent_with b st -> h_record_imported st = false ->
  half_imported (host_after (firstn k (success_trace b)) st) = false.
Proof. exact crash_never_half_imported_proved. Qed.
Print Assumptions crash_never_half_imported.

(* ... and running the tool again, from whatever the failure left, ends in the
   completely repaired host *)
Theorem import_rerunnable : forall b b' k st,
  host_consistent_with b' (host_after (firstn k (success_trace b)) st) ->
  host_after (success_trace b') (host_after (firstn k (success_trace b)) st) = mkH false false false true true.
Proof. intros b b' k st. apply import_rerunnable_proved. Qed.
Print Assumptions import_rerunnable.

(* observation O7 (DESIGN section 7): when the tool is run on a host that
   already records the imported image, the steps between cleanupSnapshotDir
   and FinalizeSnapshot leave the record without its image; a power failure
   there needs another run of the tool (import_rerunnable) *)
Theorem restartable_without_rerun_refuted :
  exists k, half_imported (host_after (firstn k (success_trace true)) (mkH false false false true true)) = true.
Proof. exists 11%nat. reflexivity. Qed.
Print Assumptions restartable_without_rerun_refuted.

(* PARTIAL (restart_state_is_image): on the initial recovery after the import
   the record found in the log store is loaded into the state machine -
   regular, concurrent or on-disk, whatever index the on-disk state machine
   reports as already applied (the Imported flag forces it; observation O5: the
   OnDiskIndex that getProcessedSnapshotRecord does not copy is never
   consulted).  Missing for the full statement "every replica's state equals
   the exported state": snapshotter.Load (image -> state machine = C08/C14
   round trip) and the non-shrunk test are taken as given; the end-to-end runs
   check the resulting state on the real code. *)
Theorem restart_loads_imported_image_partial : forall dst old members on_disk_sm last_applied ondisk_init ondisk,
  s_dummy old = false -> last_applied < s_index old ->
  do_recover on_disk_sm false last_applied ondisk_init ondisk (get_processed dst old members) true = RcLoaded.
Proof. exact restart_loads_imported_image. Qed.
Print Assumptions restart_loads_imported_image_partial.

(* PARTIAL as above. The first start after the import (intact image) loads it;
   on every later start while the imported record is still the newest one an
   on-disk state machine - which shrank the image after that first recovery -
   does NOT load the shrunk image although the record is still Imported: it
   keeps the durable state it opened with. *)
Theorem first_restart_loads_image_partial : forall dst old members on_disk_sm ondisk_init,
  s_dummy old = false -> 0 < s_index old ->
  restart_recover on_disk_sm false ondisk_init (get_processed dst old members) = RcLoaded.
Proof. exact first_restart_loads. Qed.
Print Assumptions first_restart_loads_image_partial.

Theorem later_restart_skips_shrunk_image_partial : forall dst old members ondisk_init,
  s_dummy old = false -> 0 < s_index old ->
  restart_recover true true ondisk_init (get_processed dst old members) = RcSkipped.
Proof. exact later_restart_skips_shrunk_image. Qed.
Print Assumptions later_restart_skips_shrunk_image_partial.

(* without the flag the same record is skipped by an on-disk state machine that
   has applied anything at all *)
Theorem restart_without_imported_flag_refuted :
  exists ss ondisk, s_imported ss = false /\ s_index ss = 100 /\
    do_recover true false 0 ondisk ondisk ss true = RcSkipped.
Proof.
  exists (mkSS [] 0 100 1 (mkM 0 [] [] [] []) [] [] false 1 sm_ondisk false 0 false), 7.
  vm_compute. auto.
Qed.
Print Assumptions restart_without_imported_flag_refuted.

(* non-vacuity: a concrete export (members 1,2 voting, 3 non-voting, 7 removed;
   a one-block snapshot file) imported on replica 1 with the list {1, 4}       *)

Definition ex_file : bytes := repeat 0 1024 ++ [10; 20; 30] ++ [1; 2; 3; 4] ++ repeat 0 16.
Definition ex_sum : bytes := match payload_checksum ex_file with CkOk s => s | _ => [] end.
Definition ex_old : snapshot :=
  mkSS [47; 120; 47; 115; 46; 103; 98; 115; 110; 97; 112] 1047 100 5
       (mkM 90 [(1, [97]); (2, [98])] [(3, [99])] [] [7]) [mkSF [47; 120; 47; 101; 120; 116] 9 1 []]
       ex_sum false 1 sm_regular false 0 false.
Definition ex_inp (members : amap) : input :=
  mkIn [97] members 1 true [mkDE [115; 46; 103; 98; 115; 110; 97; 112] false 1047; mkDE [109] false 50;
                             mkDE [101; 120; 116] false 9]
       (MetaOk ex_old) ex_file true [47; 100] [].

Example import_witness :
  ex_sum = be 4 (crc32 [1; 2; 3; 4]) /\
  (exists tr ss, import_run (ex_inp [(1, [97]); (4, [100])]) = (tr, Imported ss) /\
     In OCleanup tr /\ s_imported ss = true /\
     s_membership ss = mkM 100 [(1, [97]); (4, [100])] [] [] [2; 3; 7]) /\
  (* re-admitting the removed replica 7 / the non-voting replica 3 / moving 2 / leaving out 1 *)
  import_run (ex_inp [(1, [97]); (7, [100])]) =
    ([OCheckSettings; OLocate; OReadMeta; OCheckComplete; OCheckExtFiles; OCheckMembers],
     Refused (RMembers EAddingRemoved)) /\
  snd (import_run (ex_inp [(1, [97]); (3, [99])])) = Refused (RMembers ENonVotingAsRegular) /\
  snd (import_run (ex_inp [(1, [97]); (2, [100])])) = Refused (RMembers EAddrChanged) /\
  import_run (ex_inp [(4, [100])]) = ([OCheckSettings], Refused (RInvalidMembers SettingsNotListed)) /\
  refusal_condition (ex_inp [(4, [100])]).
Proof.
  split; [|split; [|split; [|split; [|split; [|split]]]]]; try (vm_compute; reflexivity).
  - eexists. eexists. vm_compute. repeat split. auto 20.
  - left. vm_compute. discriminate.
Qed.

Example logstore_witness :
  let ls := mkLS (Some (mkHS 9 2 300)) (Some (mkBS false sm_regular [(1, [97])])) (Some 300)
                 [ex_old; mkSS [] 0 200 6 (mkM 0 [] [] [] []) [] [] false 1 sm_regular false 0 false]
                 [(299, 9); (300, 9)] in
  let ss := get_processed [47; 100] ex_old [(1, [97])] in
  logdb_import ls ss =
    LOk (mkLS (Some (mkHS 5 0 100)) (Some (mkBS true sm_regular [])) (Some 100) [ss] [(299, 9); (300, 9)]).
Proof. vm_compute. reflexivity. Qed.
