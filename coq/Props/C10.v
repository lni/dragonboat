(* C10 — the log store is crash-atomic and never reports a failed write as success.
   Statements; the arguments live in Proofs/, the witnesses of the refuted statements are
   evaluated here.

   Vocabulary (Model/LogDBFaulty.v):
     fdb                       the Pebble-backed log db (durable KV map + in-memory cache) plus
                               the KV oracle: the call counter, the fault (n, kind) = the n-th KV
                               call returns an I/O error / the process dies before / after it
                               took effect, and the trace of KV calls
     f_step b fl d o           one API operation (b: batched entry format; fl: which repairs
                               the code contains); result FOk | FErr | FPanic | FCrash
     cur_flags                 the flags regenerated from the source of /repo (Gen/GenC10.v);
                               the theorems about the current code are stated for cur_flags and
                               proved for all_fixed: they stop checking when a repair is undone
     f_run b fl d ops          runs until the first operation that does not report success:
                               (number of acknowledged operations, result of the one in
                               flight, final state)
     ref_step / ref_run        the fault-free C09 models (Model/LogDBPlain.v, LogDBBatched.v)
     recovered d               reopen after the process died: durable map, empty cache
   Tan record layer (Model/TanRecord.v): frame / replay, see below. *)
From DB Require Import Base.Bytes Gen.GenC09 Gen.GenC10 Model.LogStoreSpec Model.KV Model.LogDBPlain
  Model.LogDBBatched Model.LogDBFaulty Model.TanRecord Proofs.LogDBPlain Proofs.LogDBFaulty
  Proofs.LogDBFaultySpec Proofs.TanRecord Proofs.TanRecordMulti.
Open Scope N_scope.

(* ERROR PROPAGATION.  If any KV call (read or write) made by an operation of the current
   code returns an error, the operation does not report success.  All operations:
   SaveRaftState, SaveSnapshots, RemoveEntriesTo, RemoveNodeData, ImportSnapshot; both
   entry formats; every state, every call index. *)
Theorem error_never_success : forall b d o r d' n,
  f_fault (d_st d) = Some (n, FtErr) ->
  f_step b cur_flags d o = (r, d') ->
  fired (d_st d) (d_st d') n -> r <> FOk.
Proof.
  exact (fun b d o r d' n => fault_never_success b d o r d' n FtErr).
Qed.
Print Assumptions error_never_success.

(* Success means persisted: whatever the fault, an operation of the current code that
   reports success has left exactly the durable map and cache of the complete fault-free
   operation. *)
Theorem success_is_persisted : forall b d o d',
  f_step b cur_flags d o = (FOk, d') -> ref_step b (pdb_of d) o = Some (pdb_of d').
Proof. intros b d o d' H. exact (proj1 (step_ok b d o d' H)). Qed.
Print Assumptions success_is_persisted.

(* The code BEFORE the repairs (findings F1, F2) refutes error_never_success; the witnesses
   are replayed on the implementation (corpus/C10/f1_f2_witness.txt). *)
Theorem error_never_success_refuted_f1 :
  exists d us n p',
    let res := f_save_raft_state false false true d us in
    f_fault (d_st d) = Some (n, FtErr) /\
    fired (d_st d) (d_st (snd res)) n /\
    fst res = FOk /\ d_kv (snd res) = d_kv d /\
    p_save_raft_state (pdb_of d) us = Some p' /\ p_kv p' <> d_kv d.
Proof.
  exists f1_db, [f1_update], 0. eexists. cbv zeta. repeat apply conj; vm_compute; reflexivity || discriminate.
Qed.
Print Assumptions error_never_success_refuted_f1.

Theorem error_never_success_refuted_f1_snapshots :
  exists d n ss p',
    let res := f_save_snapshots false d [mk_snap_update n ss] in
    f_fault (d_st d) = Some (0, FtErr) /\
    fired (d_st d) (d_st (snd res)) 0 /\
    fst res = FOk /\ d_kv (snd res) = d_kv d /\
    p_save_snapshots (pdb_of d) [mk_snap_update n ss] = Some p' /\ p_kv p' <> d_kv d.
Proof.
  exists f1_db, w_node, (mkSs 5 1 9). eexists. cbv zeta. repeat apply conj; vm_compute; reflexivity || discriminate.
Qed.
Print Assumptions error_never_success_refuted_f1_snapshots.

Theorem error_never_success_refuted_f2 :
  exists ops n p,
    let res := f_run true (mkFl true true false) (fdb_init (Some (n, FtErr))) ops in
    snd (fst res) = FOk /\ fst (fst res) = length ops /\ n < f_calls (d_st (snd res)) /\
    ref_run true ops = Some p /\
    b_iterate p w_node 1 6 (2 ^ 62) = RIter [w_ent 1; w_ent 2; w_ent 3; w_ent 4; w_ent 5] 680 /\
    b_iterate (recovered (snd res)) w_node 1 6 (2 ^ 62) = RIter [] 0.
Proof. exists f2_ops, 2. eexists. cbv zeta. repeat apply conj; vm_compute; reflexivity. Qed.
Print Assumptions error_never_success_refuted_f2.

(* CRASH ATOMICITY at the KV level.  For every operation sequence, every fault (an error
   or a crash before / after any KV call, or none): the acknowledged prefix ran exactly as
   the fault-free model, and the durable map found by recovery is
     - the one after the acknowledged prefix, or
     - the one after the acknowledged prefix plus the COMPLETE operation in flight, or
     - for RemoveNodeData in flight only: its write batch applied, its range delete not
       (the removed replica's hard state, max index and snapshot records are gone, entry
       keys are still there; what a reader finds in that state is not covered by a theorem).
   A run without an effective fault ends with the fault-free state. *)
Theorem crash_atomic_kv : forall b ft ops k r d',
  f_run b cur_flags (fdb_init ft) ops = (k, r, d') ->
  exists p, ref_run b (firstn k ops) = Some p /\
    ((r = FOk /\ k = length ops /\ recovered d' = p_reopen p) \/
     (r <> FOk /\ (k < length ops)%nat /\ crash_state b p (nth_error ops k) (d_kv d'))).
Proof. exact crash_atomic_kv_proved. Qed.
Print Assumptions crash_atomic_kv.

(* ONE BATCH PER SAVE.  Regenerated facts: db.saveRaftState contains exactly one
   CommitWriteBatch call, its helpers contain no other KV write call, commits are synced
   (pebble.WriteOptions{Sync: true}).  Model, at the level of the KV call trace (f_trace, newest
   call first), for BOTH entry formats, EVERY variant of the error handling (f1, f2), every
   state, every fault: the calls one SaveRaftState makes are read calls (GetValue /
   IterateValue) followed by at most one write call, which is a CommitWriteBatch of a
   non-empty batch w; the durable map afterwards is the old one, or the old one with exactly
   w applied, and it is the latter whenever the save reports success.  So all puts and deletes
   of one save are in one batch, there is no second write call that could be separated from it
   by a crash.  (That the implementation makes the same calls with the same batch contents is the
   differential tie: the `| calls` column compared on every operation of every case.) *)
Theorem save_is_one_batch :
  (c10_save_raft_state_commit_calls = 1 /\ c10_save_path_other_write_calls = 0 /\ c10_commit_sync = true) /\
  forall b f1 f2 d us r d', f_save_raft_state b f1 f2 d us = (r, d') ->
    exists rds, Forall (fun c => is_write c = false) rds /\
      ((f_trace (d_st d') = rds ++ f_trace (d_st d) /\ d_kv d' = d_kv d) \/
       (exists w, w <> [] /\ f_trace (d_st d') = CCommit w :: rds ++ f_trace (d_st d) /\
                  (d_kv d' = d_kv d \/ d_kv d' = kv_commit (d_kv d) w) /\
                  (r = FOk -> d_kv d' = kv_commit (d_kv d) w))).
Proof. split; [repeat split; reflexivity | exact save_is_one_batch_trace]. Qed.
Print Assumptions save_is_one_batch.

(* THE RECOVERED LOG (plain format, contract-abiding runs: wf_ops = what the raft core
   guarantees, Model/LogStoreSpec.v).  After any fault at any KV call the recovered store
   refines the logical log s after the acknowledged operations or after the acknowledged
   operations plus the one in flight (log_ok, Proofs/LogDBFaultySpec.v): every contract-abiding
   IterateEntries / ReadRaftState / GetSnapshot answers as the logical log does; per replica the
   log is gap-free (contig from marker+1), every entry of it is stored, the recorded max index is
   its last index, and the hard state record is the logical one - i.e. one that was written.
   (RemoveNodeData in flight is excluded here: see crash_atomic_kv for its intermediate state.) *)
Theorem recovered_log_gap_free_and_ends_at_max : forall ft ops k r d',
  wf_ops spec_init ops = true ->
  f_run false cur_flags (fdb_init ft) ops = (k, r, d') ->
  (forall n, nth_error ops k <> Some (ORemNode n)) ->
  exists s, (s = spec_run spec_init (firstn k ops) \/
             (r <> FOk /\ s = spec_run spec_init (firstn (S k) ops))) /\
            log_ok (recovered d') s.
Proof. exact recovered_log_proved. Qed.
Print Assumptions recovered_log_gap_free_and_ends_at_max.

(* TAN RECORD LAYER (Model/TanRecord.v; ck = the checksum function, a parameter of which
   only ck b < 2^32 is used; lognum = the reader's log number).
   Records of ARBITRARY sizes: full chunks, first / middle / last chunks over any number of
   32 KB blocks, zero padding when fewer than 7 bytes are left in a block, records ending
   exactly at a block boundary, a trailer smaller than a chunk header. *)
Theorem tan_replay_roundtrip : forall ck lognum, (forall b, ck b < 2 ^ 32) ->
  forall rs, replay ck lognum (frame ck rs) = (rs, VEof).
Proof. exact tan_replay_roundtrip_proved. Qed.
Print Assumptions tan_replay_roundtrip.

(* Anything after the complete records (garbage, zeroes, a torn or foreign chunk): if the
   reader rejects the first record it finds there - for whatever reason, v is its verdict -
   replay returns exactly the complete records.  v can be VCrc (a chunk-shaped tail with a
   wrong checksum), which open() does not treat as a torn tail
   (tan_garbage_tail_recoverable_refuted below). *)
Theorem tan_replay_rejected_tail : forall ck lognum, (forall b, ck b < 2 ^ 32) ->
  forall rs g v, read_record ck lognum (nlen (frame ck rs) mod blk) g = RecStop v ->
  replay ck lognum (frame ck rs ++ g) = (rs, v).
Proof. exact tan_replay_rejected_tail_proved. Qed.
Print Assumptions tan_replay_rejected_tail.

(* EVERY CUT POINT.  The written bytes are cut (truncated) at ANY byte: inside the zero
   padding at a block end, inside a chunk header, inside the payload of a full / first /
   middle / last chunk, or exactly between two chunks of one record.  Replay returns a prefix
   of the written records - exactly the records whose bytes are completely inside the cut
   (k is maximal), unaltered, never a fabricated one - and stops with a verdict that open()
   treats as a torn tail (EOF, invalid chunk, unexpected EOF), never with the checksum error
   that makes open() fail.
   Assumption on the checksum oracle: ck b < 2^32 only (no collision-freeness is needed for
   pure truncation).  Garbage after the cut is covered by tan_replay_rejected_tail when it
   starts where a record would start and the reader rejects its first record; garbage that
   continues a half-written record (a cut inside a record followed by foreign bytes) is NOT
   covered by a theorem: there the outcome depends on the checksum of the foreign bytes
   (compared differentially, tangarb cases). *)
Theorem tan_replay_ignores_torn_tail : forall ck lognum, (forall b, ck b < 2 ^ 32) ->
  forall rs cut,
  exists k v, replay ck lognum (takeN cut (frame ck rs)) = (firstn k rs, v) /\
              recoverable v = true /\
              nlen (frame ck (firstn k rs)) <= cut /\
              ((k < length rs)%nat -> cut < nlen (frame ck (firstn (S k) rs))).
Proof. exact tan_replay_ignores_torn_tail_proved. Qed.
Print Assumptions tan_replay_ignores_torn_tail.

Theorem tan_replay_torn_record : forall ck lognum, (forall b, ck b < 2 ^ 32) ->
  forall rs r c, c < nlen (write_record ck (nlen (frame ck rs)) r) ->
  exists v, replay ck lognum (frame ck rs ++ takeN c (write_record ck (nlen (frame ck rs)) r)) = (rs, v) /\
            recoverable v = true.
Proof. exact tan_replay_torn_record_proved. Qed.
Print Assumptions tan_replay_torn_record.

(* NOT every tail is recoverable: "whatever follows the complete records, replay stops with
   a verdict open() recovers from" is refuted - a chunk-shaped tail whose checksum does not
   match stops replay with VCrc (ErrCRCMismatch), which is not in tan's IsInvalidRecord, so
   open() fails instead of cutting the log there.  The witness is replayed on the real reader
   (corpus/C10/tan_crc_tail.txt: verdict crc on both sides).  Unreachable by pure truncation
   (tan_replay_ignores_torn_tail); reachable only if unsynced pages reach the disk out of
   order (header page written, payload page not). *)
Theorem tan_garbage_tail_recoverable_refuted :
  exists ck lognum rs g, (forall b, ck b < 2 ^ 32) /\
    replay ck lognum (frame ck rs ++ g) = (rs, VCrc) /\ recoverable VCrc = false.
Proof.
  exists (fun b => (7 + nlen b) mod 2 ^ 32), 0, [[1; 2; 3]], [0; 0; 0; 0; 1; 0; 1; 5]. split.
  - intros b. apply N.mod_lt. discriminate.
  - split; vm_compute; reflexivity.
Qed.
Print Assumptions tan_garbage_tail_recoverable_refuted.

(* TAN SAVE PATH, fsync and error rules (the shape of the code is regenerated into
   Gen/GenC10.v; these obligations stop checking when it changes, the black-box crash
   search and the I/O error injection (tanio) then look for a failing input):
   - multiplexed mode: the shared log file is fsynced at the end of a SaveRaftState call if
     ANY update of the call needs it (entries, snapshot record, term/vote change), whatever
     the position of that update in the batch;
   - regular mode: every update that needs it is fsynced;
   - an error of the log rollover fails the write (and with it the save). *)
Theorem tan_batch_fsync_if_any_update_needs_it : forall needs,
  In true needs -> tan_batch_sync needs = true.
Proof.
  intros needs H. change (existsb (fun b => b) needs = true). apply existsb_exists. exists true. split; auto.
Qed.
Print Assumptions tan_batch_fsync_if_any_update_needs_it.

Theorem tan_regular_fsync_every_update_that_needs_it : forall needs, tan_seq_sync needs = needs.
Proof. reflexivity. Qed.
Print Assumptions tan_regular_fsync_every_update_that_needs_it.

Theorem tan_rollover_error_fails_the_save : forall w, tan_write_result true w = false.
Proof. reflexivity. Qed.
Print Assumptions tan_rollover_error_fails_the_save.

(* THE ENGINE STOPS ON A LOG STORE ERROR (shape of engine.go / snapshotter.go, regenerated):
   processSteps hands the error of SaveRaftState on, snapshotter.saveSnapshot hands the error
   of SaveSnapshots on, and in every worker main loop (step, commit, apply, snapshot, close)
   every `if err := ...; err != nil` ends in panicNow.  This is a statement about these code
   shapes only; the behaviour - the process dies by a panic, no message leaves the host after
   the failed save, nothing of the failed update is applied or reported completed, the hosts
   come back with every completed proposal - is what the nhfail cases execute on real
   NodeHosts over a log store whose k-th SaveRaftState / SaveSnapshots fails. *)
Theorem engine_stops_on_store_error :
  c10_process_steps_propagates_save_error = true /\
  c10_snapshotter_propagates_save_snapshots_error = true /\
  c10_engine_workers_panic_on_error = true.
Proof. repeat split; reflexivity. Qed.
Print Assumptions engine_stops_on_store_error.

Example c10_example_tan_batch : tan_batch_sync [true; false; false] = true /\ tan_batch_sync [false; false] = false.
Proof. vm_compute. split; reflexivity. Qed.

Example c10_example_tan :
  let ck := fun b : bytes => 7 + nlen b in
  replay ck 0 (frame ck [[1; 2; 3]; []; [9]]) = ([[1; 2; 3]; []; [9]], VEof) /\
  replay ck 0 (takeN 20 (frame ck [[1; 2; 3]; []; [9]])) = ([[1; 2; 3]; []], VInvalid) /\
  (* a record of 40000 bytes: first + last chunk over two blocks *)
  nlen (frame ck [repeat 5 (N.to_nat 40000)]) = 40014 /\
  fst (replay ck 0 (takeN 33000 (frame ck [[1]; repeat 5 (N.to_nat 40000)]))) = [[1]].
Proof. vm_compute. repeat split; reflexivity. Qed.

(* non-vacuity: the repaired model fails the witnesses of F1 and F2; a crash after the
   commit of the second save of a run leaves acked + in flight *)
Example c10_example_f1 : fst (f_save_raft_state false true true f1_db [f1_update]) = FErr.
Proof. vm_compute. reflexivity. Qed.
Example c10_example_crash :
  let res := f_run true cur_flags (fdb_init (Some (3, FtCrashAfter))) f2_ops in
  fst (fst res) = 2%nat /\ snd (fst res) = FCrash /\
  b_iterate (recovered (snd res)) w_node 1 6 (2 ^ 62) = RIter [w_ent 1; w_ent 2; w_ent 3; w_ent 4; w_ent 5] 680.
Proof. vm_compute. repeat split; reflexivity. Qed.
