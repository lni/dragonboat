(* C07 — membership changes are safe, ordered and identical on all replicas.
   Statements, each closed by a lemma of Proofs/Membership.v or a few lines
   from one.

   This file: the membership RULES (internal/rsm/membership.go) on the model
   Model/Membership.v. Every theorem holds for every address
   normalisation function [norm] (the code: trim white space + case fold), for
   ordered config change on and off, for EVERY sequence [reqs] of requests
   (decoded config change entry, log index) - valid, invalid, repeated,
   concurrent - and from every membership [m] meeting the stated invariant (the
   empty membership, and so every membership a replica that started empty ever
   holds or restores, meets all of them except voters_inv, which holds from the
   first applied AddNode on).
     run norm ordered m reqs = (final membership, verdict per request)

   The raft side (one unapplied config change in the leader's log, no campaign
   with an unapplied change, C02/C03 across membership changes) is in
   Props/C07R.v and Props/L2.v. *)
From DB Require Import Base.Bytes Gen.GenC07 Model.Membership Proofs.Membership.
Open Scope N_scope.

(* no replica id is ever of two kinds (voting / non-voting / witness) *)
Theorem kinds_disjoint : forall norm ordered reqs m,
  kinds_disjoint_inv m -> kinds_disjoint_inv (fst (run norm ordered m reqs)).
Proof. intros norm ordered. apply shape_invariant_run, kinds_disjoint_shape. Qed.
Print Assumptions kinds_disjoint.

(* over any sequence of requests a replica that is a member before and after
   has the kind it had, or went from non-voting to voting (the hypothesis on the
   removed set is not used: Proofs/Membership.v kind_run) *)
Theorem only_promotion_changes_kind : forall norm ordered reqs m id k k',
  removed_disjoint_inv m ->
  kind_of m id = Some k -> kind_of (fst (run norm ordered m reqs)) id = Some k' ->
  k = k' \/ (k = NonVoting /\ k' = Voting).
Proof. intros norm ordered reqs m id k k' _. apply kind_run. Qed.
Print Assumptions only_promotion_changes_kind.

(* ... and the one request that changes a kind is an applied AddNode for that
   non-voting replica carrying (a spelling of) its own address *)
Theorem kind_change_is_promotion : forall norm ordered m c i m' v id k k',
  step norm ordered m (c, i) = (m', v) ->
  kind_of m id = Some k -> kind_of m' id = Some k' -> k <> k' ->
  v = VApplied /\ k = NonVoting /\ k' = Voting /\ id = cc_replica c /\ cc_type c = cc_add_node /\
  exists oa, alookup id (m_nonvotings m) = Some oa /\ address_equal norm oa (cc_addr c) = true.
Proof. exact kind_step. Qed.
Print Assumptions kind_change_is_promotion.

(* removed ids are not members, stay removed for ever and are never members again *)
Theorem removed_disjoint_and_permanent : forall norm ordered reqs m,
  removed_disjoint_inv m ->
  removed_disjoint_inv (fst (run norm ordered m reqs)) /\
  forall id, rmem id (m_removed m) = true ->
             rmem id (m_removed (fst (run norm ordered m reqs))) = true /\
             kind_of (fst (run norm ordered m reqs)) id = None.
Proof. exact removed_permanent. Qed.
Print Assumptions removed_disjoint_and_permanent.

(* every request to add (as any kind) a removed id is rejected, membership untouched *)
Theorem removed_id_add_rejected : forall norm ordered m c i,
  rmem (cc_replica c) (m_removed m) = true -> is_add_type (cc_type c) = true ->
  step norm ordered m (c, i) = (m, VRejected).
Proof.
  intros norm ordered m c i H Ht. apply rule_rejects. right; left.
  unfold is_add_removed_node. rewrite Ht. exact H.
Qed.
Print Assumptions removed_id_add_rejected.

(* once there is a voting member there always is one (voters_inv: the voting
   map has unique keys - true of every Go map - and is not empty) *)
Theorem last_voter_not_removable : forall norm ordered reqs m,
  voters_inv m -> voters_inv (fst (run norm ordered m reqs)).
Proof. intros norm ordered. apply shape_invariant_run, voters_shape. Qed.
Print Assumptions last_voter_not_removable.

Theorem remove_last_voter_rejected : forall norm ordered m c i,
  alen (m_addresses m) = 1 -> amem (cc_replica c) (m_addresses m) = true ->
  cc_type c = cc_remove_node ->
  step norm ordered m (c, i) = (m, VRejected).
Proof.
  intros norm ordered m c i Hl Hm Ht. apply rule_rejects. do 8 right. left.
  unfold is_delete_only_node. destruct (tests_remove_node _ Ht) as (_ & -> & _ & _).
  rewrite Hl. exact Hm.
Qed.
Print Assumptions remove_last_voter_rejected.

(* two different members never have addresses that compare equal *)
Theorem address_unique : forall norm ordered reqs m,
  address_unique_inv norm m -> address_unique_inv norm (fst (run norm ordered m reqs)).
Proof. intros norm ordered. apply shape_invariant_run, address_unique_shape. Qed.
Print Assumptions address_unique.

(* a request to add a replica under an address another member uses is rejected *)
Theorem add_used_address_rejected : forall norm ordered m c i id2 a2,
  is_add_type (cc_type c) = true ->
  In (id2, a2) (all_members m) -> id2 <> cc_replica c ->
  address_equal norm a2 (cc_addr c) = true ->
  address_unique_inv norm m ->
  step norm ordered m (c, i) = (m, VRejected).
Proof. exact used_address_rejected. Qed.
Print Assumptions add_used_address_rejected.

(* a replica keeps its address (up to normalisation) for as long as it is a
   member (the hypothesis on the removed set is not used: addr_run) *)
Theorem member_address_stable : forall norm ordered reqs m id a a',
  removed_disjoint_inv m ->
  addr_of m id = Some a -> addr_of (fst (run norm ordered m reqs)) id = Some a' ->
  address_equal norm a a' = true.
Proof. intros norm ordered reqs m id a a' _. apply addr_run. Qed.
Print Assumptions member_address_stable.

(* the membership's ConfigChangeId is the log index of the last applied change *)
Theorem ccid_is_index_of_last_applied_change : forall norm ordered reqs m,
  m_ccid (fst (run norm ordered m reqs)) =
  last_applied (m_ccid m) reqs (snd (run norm ordered m reqs)).
Proof. exact ccid_run. Qed.
Print Assumptions ccid_is_index_of_last_applied_change.

(* ordered config change: a request whose ConfigChangeID is not the current one is rejected *)
Theorem ordered_stale_id_rejected : forall norm m c i,
  cc_init c = false -> cc_ccid c <> m_ccid m ->
  step norm true m (c, i) = (m, VRejected).
Proof.
  intros norm m c i Hi Hne. apply rule_rejects. left.
  unfold is_up_to_date. rewrite Hi. cbn. destruct (N.eqb_spec (m_ccid m) (cc_ccid c)); congruence.
Qed.
Print Assumptions ordered_stale_id_rejected.

(* ordered config change, concurrent requests: with log indexes increasing (as
   they do in a log) no two applied requests carry the same ConfigChangeID, i.e.
   of the requests built on one membership view at most one takes effect *)
Theorem ordered_one_winner_per_ccid : forall norm reqs m lo,
  m_ccid m <= lo -> idx_increasing lo reqs ->
  NoDup (applied_ccids reqs (snd (run norm true m reqs))).
Proof. intros norm reqs m lo H1 H2. apply (one_winner_aux norm reqs m lo H1 H2). Qed.
Print Assumptions ordered_one_winner_per_ccid.

(* The verdicts and the final membership are a function of the log and of the
   CONTENT of the start membership: the model has no other input (no replica or
   shard id, clock, randomness), and two replicas whose maps hold the same
   entries in any internal order ([mequiv]: equal lookups, equal removed set,
   equal ConfigChangeId; Go map layout / iteration order differ between
   replicas and runs) produce the same verdict for every request and end in
   memberships with the same content. *)
Theorem outcome_is_function_of_log : forall norm ordered reqs m1 m2,
  nodup_inv m1 -> nodup_inv m2 -> mequiv m1 m2 ->
  snd (run norm ordered m1 reqs) = snd (run norm ordered m2 reqs) /\
  mequiv (fst (run norm ordered m1 reqs)) (fst (run norm ordered m2 reqs)).
Proof. exact run_equiv. Qed.
Print Assumptions outcome_is_function_of_log.

(* a replica that took / installed a snapshot after [l1] continues exactly like
   one that applied the whole log.  membership.get / set copy the maps in the
   code and are identities in the model: the statement is that [run] composes
   over the cut; that the copies share nothing is the harness' business *)
Theorem snapshot_cut_same_outcome : forall norm ordered l1 l2 m,
  run norm ordered m (l1 ++ l2) =
  let '(m1, v1) := run norm ordered m l1 in
  if has_panic v1 then (m1, v1)
  else let '(m2, v2) := run norm ordered (m_set (m_get m1)) l2 in (m2, v1 ++ v2).
Proof. exact run_app. Qed.
Print Assumptions snapshot_cut_same_outcome.

(* StateMachine.handleEntry (model: sm_handle_entry / sm_run): config change
   entries are applied whatever index the on disk state machine reported on
   Open; only ordinary updates at or below it are skipped. *)

(* membership and verdicts of a replica = [run] on the config change entries of
   its log, for every on-disk index *)
Theorem replica_membership_is_function_of_log : forall norm ordered on_disk odi es r,
  r_members (fst (sm_run norm ordered on_disk odi r es)) =
    fst (run norm ordered (r_members r) (cc_reqs es)) /\
  snd (sm_run norm ordered on_disk odi r es) =
    snd (run norm ordered (r_members r) (cc_reqs es)).
Proof. exact sm_run_is_run. Qed.
Print Assumptions replica_membership_is_function_of_log.

Theorem on_disk_index_irrelevant : forall norm ordered od1 k1 od2 k2 r1 r2 es,
  r_members r1 = r_members r2 ->
  r_members (fst (sm_run norm ordered od1 k1 r1 es)) =
    r_members (fst (sm_run norm ordered od2 k2 r2 es)) /\
  snd (sm_run norm ordered od1 k1 r1 es) = snd (sm_run norm ordered od2 k2 r2 es).
Proof.
  intros norm ordered od1 k1 od2 k2 r1 r2 es H.
  destruct (sm_run_is_run norm ordered od1 k1 es r1) as [-> ->].
  destruct (sm_run_is_run norm ordered od2 k2 es r2) as [-> ->]. rewrite H. auto.
Qed.
Print Assumptions on_disk_index_irrelevant.

(* replica A applies l1 ++ l2 and never restarts; replica B restarted after a
   snapshot record taken after l1 (its on disk state machine reporting ANY index
   k2 on Open, in particular one above config changes of l2), recovered from the
   record and replayed l2: same membership, same verdicts on l2 *)
Theorem restart_replay_same_membership : forall norm ordered od1 k1 od2 k2 r l1 l2 ss_index,
  let a := sm_run norm ordered od1 k1 r (l1 ++ l2) in
  let s := sm_run norm ordered od1 k1 r l1 in
  let b := sm_run norm ordered od2 k2 (sm_recover (m_get (r_members (fst s))) ss_index) l2 in
  has_panic (snd s) = false ->
  r_members (fst b) = r_members (fst a) /\ snd a = snd s ++ snd b.
Proof. exact restart_replay. Qed.
Print Assumptions restart_replay_same_membership.

(* The model's replica (sm_run) has no "kind" input: a replica started as a full
   member, with config.IsNonVoting or with config.IsWitness computes the same
   verdicts and membership from the same log (replica_membership_is_function_of_log
   above is that statement). The only per-replica parameter is [ordered]; in the
   code it is the third argument of newMembership in rsm.NewStateMachine, which
   genmodel checks to be exactly cfg.OrderedConfigChange (GenC07.v), a shard-wide
   setting. The harness feeds one log to real StateMachines of the three kinds. *)
Theorem ordered_flag_independent_of_replica_kind : membership_ordered_is_config_ordered = true.
Proof. reflexivity. Qed.
Print Assumptions ordered_flag_independent_of_replica_kind.

(* a request that is not applied leaves the membership untouched *)
Theorem rejected_request_changes_nothing : forall norm ordered m r m' v,
  step norm ordered m r = (m', v) -> v <> VApplied -> m' = m.
Proof. exact step_not_applied_same. Qed.
Print Assumptions rejected_request_changes_nothing.

(* the unique keys of the three Go maps are kept by the model's lists *)
Theorem map_keys_stay_unique : forall norm ordered reqs m,
  nodup_inv m -> nodup_inv (fst (run norm ordered m reqs)).
Proof. intros norm ordered. apply shape_invariant_run, nodup_shape. Qed.
Print Assumptions map_keys_stay_unique.

(* handleConfigChange panics only in apply's default branch (a Type outside the
   enum that passed the ordered-id check); the three "not suppose to reach here"
   and "rejected for unknown reasons" are unreachable, whatever the membership *)
Theorem panic_only_for_unknown_type : forall norm ordered m c i t,
  handle norm ordered m c i = Panicked t ->
  t = panic_unknown_type /\ is_up_to_date ordered m c = true /\
  (cc_type c =? cc_add_node)%Z = false /\ (cc_type c =? cc_remove_node)%Z = false /\
  (cc_type c =? cc_add_non_voting)%Z = false /\ (cc_type c =? cc_add_witness)%Z = false.
Proof.
  intros norm ordered m c i t H. pose proof (handle_spec norm ordered m c i) as S.
  rewrite H in S. exact S.
Qed.
Print Assumptions panic_only_for_unknown_type.

Theorem no_panic_for_valid_types : forall norm ordered reqs m,
  Forall (fun r : req => valid_type (cc_type (fst r))) reqs ->
  ~ In VPanic (snd (run norm ordered m reqs)) /\
  length (snd (run norm ordered m reqs)) = length reqs.
Proof. exact run_no_panic. Qed.
Print Assumptions no_panic_for_valid_types.

(* a concrete history from the empty membership (ordered on): bootstrap of two
   voters, a non-voting member, a witness, a removal, a promotion under another
   spelling of the address, then one request per reject rule *)
Example sample_verdicts :
  snd (run norm_ascii true empty_membership sample_reqs) =
  [VApplied; VApplied; VApplied; VApplied; VApplied; VApplied;
   VRejected; VRejected; VRejected; VRejected; VRejected].
Proof. vm_compute. reflexivity. Qed.

Example sample_state_is :
  observe sample_state =
  mkM 6 [(1, [104; 49]); (3, [32; 104; 51])] [2] [] [(4, [104; 52])]
  /\ kind_of sample_state 3 = Some Voting /\ kind_of sample_state 2 = None
  /\ applied_ccids sample_reqs (snd (run norm_ascii true empty_membership sample_reqs)) = [2; 3; 4; 5].
Proof. vm_compute. repeat split; reflexivity. Qed.

(* the hypotheses of the theorems above hold of that state *)
Example sample_state_meets_invariants :
  kinds_disjoint_inv sample_state /\ removed_disjoint_inv sample_state /\
  address_unique_inv norm_ascii sample_state /\ nodup_inv sample_state /\ voters_inv sample_state.
Proof. exact sample_state_invariants. Qed.

(* config changes at or below the on disk index are still applied: snapshot
   record at 6, add 4 at 7, remove 3 at 9, on disk index 10 at the restart,
   replay of 7..10 *)
Example restart_witness :
  let boot := [ (EConfigChange (mkCC 0 cc_add_node 1 [97; 49] true), 1);
                (EConfigChange (mkCC 0 cc_add_node 2 [97; 50] true), 2);
                (EConfigChange (mkCC 0 cc_add_node 3 [97; 51] true), 3);
                (EUpdate, 4); (EUpdate, 5); (EUpdate, 6) ] in
  let tail := [ (EConfigChange (mkCC 0 cc_add_node 4 [97; 52] false), 7); (EUpdate, 8);
                (EConfigChange (mkCC 0 cc_remove_node 3 [] false), 9); (EUpdate, 10) ] in
  let r0 := mkR empty_membership 0 0 in
  let s := fst (sm_run norm_ascii false true 0 r0 boot) in
  let b := fst (sm_run norm_ascii false true 10 (sm_recover (m_get (r_members s)) 6) tail) in
  observe (r_members b) = mkM 9 [(1, [97; 49]); (2, [97; 50]); (4, [97; 52])] [3] [] []
  /\ r_updates b = 0 /\ r_applied b = 10.
Proof. vm_compute. repeat split; reflexivity. Qed.

(* two representations of one membership content, in different internal order *)
Example mequiv_witness :
  let m1 := mkM 7 [(1, [104; 49]); (3, [104; 51])] [2; 9] [(5, [104; 53])] [] in
  let m2 := mkM 7 [(3, [104; 51]); (1, [104; 49])] [9; 2] [(5, [104; 53])] [] in
  m1 <> m2 /\ observe m1 = observe m2 /\
  snd (run norm_ascii false m1 sample_reqs) = snd (run norm_ascii false m2 sample_reqs) /\
  observe (fst (run norm_ascii false m1 sample_reqs)) = observe (fst (run norm_ascii false m2 sample_reqs)).
Proof. vm_compute. repeat split; try reflexivity. discriminate. Qed.

Example address_normalisation_witness :
  address_equal_ascii [32; 72; 79; 83; 84; 49; 58; 57; 9] [104; 111; 115; 116; 49; 58; 57] = true /\
  address_equal_ascii [104; 32; 49] [104; 49] = false.
Proof. vm_compute. split; reflexivity. Qed.
