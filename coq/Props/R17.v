(* R17 - raft-side sub-check of C17: the receive queue of a replica neither loses nor
   duplicates a message it accepted, and a delayed snapshot status report is handed out
   once, only after its delay, and by the first Get after it.
   [mq_run q ops] ranges over ALL sequences of
   Tick / Add / MustAdd / AddDelayed / Get / Close on Model/MsgQueue.v, from every queue state. *)
From Coq Require Import NArith List Permutation.
From DB Require Import Model.MsgQueue Proofs.MsgQueue.
Import ListNotations.
Open Scope N_scope.

(* conservation: held before + accepted during = handed out during + held after, as multisets *)
Theorem queue_no_loss_no_duplication : forall ops q,
  Permutation (held q ++ accepted ops (snd (mq_run q ops)))
              (delivered (snd (mq_run q ops)) ++ held (fst (mq_run q ops))).
Proof. exact no_loss_no_duplication_proved. Qed.
Print Assumptions queue_no_loss_no_duplication.

(* a Get at tick [now] hands out a delayed record whose due tick is past and keeps every other *)
Theorem delayed_due_exactly : forall now d id due, In (id, due) d ->
  (In id (fst (get_delayed now d)) /\ due < now \/ In (id, due) (snd (get_delayed now d)) /\ now <= due).
Proof. exact delayed_due_exactly_proved. Qed.
Print Assumptions delayed_due_exactly.

Theorem get_hands_out_everything_due : forall q,
  let q' := fst (mq_step q MGet) in
  q_items q' = [] /\ q_nodrop q' = [] /\ (forall id due, In (id, due) (q_delayed q') -> q_tick q <= due).
Proof.
  intros q. cbn [mq_step get_delayed fst q_items q_nodrop q_delayed]. repeat split.
  intros id due Hin. apply filter_In in Hin. apply N.ltb_ge, negb_true_iff, Hin.
Qed.
Print Assumptions get_hands_out_everything_due.

Theorem must_add_refused_only_when_closed : forall q id delay,
  snd (mq_step q (MMustAdd id)) = OBool (negb (q_stopped q)) /\
  snd (mq_step q (MAddDelayed id delay)) = OBool (negb (q_stopped q)).
Proof. intros q id delay. cbn [mq_step]. destruct (q_stopped q); split; reflexivity. Qed.
Print Assumptions must_add_refused_only_when_closed.

Example queue_example :
  snd (mq_run (mq_init 2) [MAddDelayed 1 1; MAdd 2; MAdd 3; MAdd 4; MMustAdd 5; MGet; MTick; MGet; MTick; MGet]) =
  [OBool true; OAdd true false; OAdd true false; OAdd false false; OBool true;
   OGet [5; 2; 3]; ONone; OGet []; ONone; OGet [1]].
Proof. vm_compute. reflexivity. Qed.
