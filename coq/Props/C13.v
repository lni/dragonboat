(* C13 — every persisted/wire value round-trips; size bounds hold. *)
From DB Require Import Base.Bytes Base.CRC32 Proofs.CRC32 Model.CodecEntry Proofs.CodecEntry Model.Frame Proofs.Frame
  Model.CodecProto Proofs.CodecProto Model.CodecUpdate Proofs.CodecUpdate
  Model.CodecPayload Proofs.CodecPayload.
Open Scope N_scope.

(* raftpb.Entry (colfer codec): decode (encode e) = e, consuming exactly the encoding *)
Theorem entry_roundtrip : forall e, wf_entry e -> decode (encode e) = DecOk e (nlen (encode e)).
Proof. exact entry_roundtrip_proved. Qed.
Print Assumptions entry_roundtrip.

(* the law holds exactly below the limit: an entry whose encoding reaches the
   (regenerated) ColferSizeMax is written by marshalTo but refused by unmarshal,
   and Size() panics above it (size_checked).  wf_entry therefore bounds the size. *)
Theorem entry_at_limit_rejected : forall e,
  wf_entry0 e -> colfer_size_max <= size e -> decode (encode e) = DecMax.
Proof.
  intros e H0 Hsz. rewrite entry_decode_encode, entry_size_exact_proved by exact H0.
  apply N.ltb_ge in Hsz. rewrite Hsz. reflexivity.
Qed.
Print Assumptions entry_at_limit_rejected.

(* entries too large to build in the extracted model are checked through functions of
   the Cmd LENGTH only (harness op BIG); these are the same computations: *)
Theorem entry_big_size : forall e, size_checked e = size_checked_len e (nlen (e_cmd e)).
Proof. intros e. unfold size_checked, size_checked_len. rewrite <- size_len_eq. reflexivity. Qed.
Print Assumptions entry_big_size.
Theorem entry_big_upper : forall e, size_upper_limit e = size_upper_limit_len (nlen (e_cmd e)).
Proof. reflexivity. Qed.
Print Assumptions entry_big_upper.
Theorem entry_big_encoding : forall e, e_cmd e <> [] ->
  encode e = encode_head e (nlen (e_cmd e)) ++ e_cmd e ++ [127].
Proof.
  intros e H. unfold encode, encode_head. rewrite field_cmd_nonempty by exact H.
  rewrite <- !app_assoc. cbn [app]. rewrite <- !app_assoc. reflexivity.
Qed.
Print Assumptions entry_big_encoding.
Theorem entry_big_decode : forall e, wf_entry0 e ->
  decode (encode e) =
  match decode_outcome_len e (nlen (e_cmd e)) with Some n => DecOk e n | None => DecMax end.
Proof.
  intros e H0. rewrite entry_decode_encode by exact H0.
  unfold decode_outcome_len. rewrite entry_size_exact_proved, <- size_len_eq.
  destruct (size e <? colfer_size_max); reflexivity.
Qed.
Print Assumptions entry_big_decode.

(* Entry.Size() is the exact length of what marshalTo writes *)
Theorem entry_size_exact : forall e, nlen (encode e) = size e.
Proof. exact entry_size_exact_proved. Qed.
Print Assumptions entry_size_exact.

(* the encoding never exceeds Entry.SizeUpperLimit() = EntryNonCmdFieldsSize + len(Cmd) *)
Theorem entry_size_le_upper_limit : forall e, wf_entry e -> nlen (encode e) <= size_upper_limit e.
Proof. exact entry_size_le_upper_limit_proved. Qed.
Print Assumptions entry_size_le_upper_limit.

Theorem entry_encode_wf_bytes : forall e, wf_entry e -> wf_bytes (encode e).
Proof. exact encode_wf_bytes_proved. Qed.
Print Assumptions entry_encode_wf_bytes.

(* non-vacuity: a concrete entry on both sides of the 2^49 boundary meets wf_entry *)
Example entry_wf_witness :
  wf_entryb (mkEntry (2 ^ 49) (2 ^ 49 - 1) (-1)%Z (2 ^ 64 - 1) 0 127 128 [1; 2; 255]) = true.
Proof. vm_compute. reflexivity. Qed.

(* Transport frame (internal/transport/tcp.go): magic, 18-byte header with self-CRC,
   payload CRC.  [read_frame enc s] is readMagicNumber followed by readMessage on a
   connection that still holds the bytes [s]; [write_message h p enc] are the bytes
   writeMessage puts on the wire. *)

(* requestHeader: decode (encode h) = h for the two legal methods *)
Theorem header_roundtrip : forall h,
  wf_header h -> method_ok (h_method h) = true -> decode_header (encode_header h) = Some h.
Proof. exact decode_encode_header. Qed.
Print Assumptions header_roundtrip.

(* what writeMessage writes is delivered by the reader with exactly the written
   payload, and the stream continues right behind it (any [rest]).  The empty
   payload is excluded because readMessage rejects size 0. *)
Theorem frame_roundtrip : forall h0 p enc rest,
  method_ok (h_method h0) = true -> h_crc h0 < 2 ^ 32 ->
  p <> [] -> wf_bytes p -> nlen p < 2 ^ 64 ->
  read_frame enc (write_message h0 p enc ++ rest) = Delivered (write_header h0 p enc) p rest.
Proof. exact frame_roundtrip_proved. Qed.
Print Assumptions frame_roundtrip.

(* a byte stream is delivered iff it is magic ++ 18 header bytes ++ payload ++ rest with:
   header CRC field = crc32 of the 18 bytes with that field zeroed, method raft or
   snapshot, size field = |payload| <> 0, and (unless encrypted) payload CRC field =
   crc32 payload. *)
Theorem frame_accept_iff_crcs_match : forall enc s h p rest,
  read_frame enc s = Delivered h p rest <->
  exists hb, s = magic ++ hb ++ p ++ rest /\
    (length hb = hdr_len /\
     be_dec (slice off_hcrc 4 hb) = crc32 (zero_hcrc hb) /\
     method_ok (be_dec (slice off_method 2 hb)) = true /\
     h = mkHeader (be_dec (slice off_method 2 hb)) (be_dec (slice off_size 8 hb))
                  (be_dec (slice off_crc 4 hb))) /\
    h_size h = nlen p /\ p <> [] /\ (enc = true \/ crc32 p = h_crc h).
Proof. exact read_frame_iff. Qed.
Print Assumptions frame_accept_iff_crcs_match.

(* truncation anywhere inside a frame => not delivered *)
Theorem frame_truncated_rejected : forall enc s h p rest k,
  read_frame enc s = Delivered h p rest ->
  (k < 2 + hdr_len + length p)%nat ->
  forall h' p' rest', read_frame enc (firstn k s) <> Delivered h' p' rest'.
Proof. exact frame_truncated_rejected_proved. Qed.
Print Assumptions frame_truncated_rejected.

(* any single-bit flip inside the payload of a delivered (unencrypted) frame is
   rejected; crc32_single_bit_detected is proved in Proofs/CRC32.v.  (The same
   statement for a flip inside the 18 header bytes is exercised exhaustively by the
   harness; it is not proved here.) *)
Theorem frame_payload_bit_flip_rejected : forall hb p p' rest h,
  read_frame false (magic ++ hb ++ p ++ rest) = Delivered h p rest ->
  length hb = hdr_len -> wf_bytes p -> Proofs.CRC32.differ_one_bit p p' ->
  read_frame false (magic ++ hb ++ p' ++ rest) = Bad.
Proof. exact frame_payload_bit_flip_rejected_proved. Qed.
Print Assumptions frame_payload_bit_flip_rejected.

(* the configuration dimension: the flag that switches the payload checksum off is
   MutualTLS and nothing else (where it comes from in NewTCPTransport and that every
   frame call passes it on are regenerated facts), so whatever CAFile/CertFile/KeyFile
   say, without mutual TLS a single-bit payload corruption is rejected *)
Theorem transport_encrypted_iff_mutual_tls : forall c, transport_encrypted c = c_mutual_tls c.
Proof. reflexivity. Qed.
Print Assumptions transport_encrypted_iff_mutual_tls.
Theorem frame_cfg_payload_bit_flip_rejected : forall c hb p p' rest h,
  c_mutual_tls c = false ->
  read_frame_cfg c (magic ++ hb ++ p ++ rest) = Delivered h p rest ->
  length hb = hdr_len -> wf_bytes p -> Proofs.CRC32.differ_one_bit p p' ->
  read_frame_cfg c (magic ++ hb ++ p' ++ rest) = Bad.
Proof.
  intros c hb p p' rest h Hc. unfold read_frame_cfg. rewrite transport_encrypted_iff_mutual_tls, Hc.
  apply frame_payload_bit_flip_rejected_proved.
Qed.
Print Assumptions frame_cfg_payload_bit_flip_rejected.

(* the per-connection loop (serveConn): good frames followed by ANY continuation
   whose next frame the reader does not deliver (corrupted, truncated, bad magic,
   poison, end of stream) hands over exactly the good frames, once each and in
   order - nothing of or behind the bad frame; the loop then returns (the connection
   worker closes the connection: regenerated fact serve_conn_then_close) *)
Theorem serve_delivers_exactly_prefix : forall enc handle frames bad fuel,
  Forall (fun f => frame_in_ok f /\ handle (write_header (fst f) (snd f) enc) (snd f) = Accepted) frames ->
  (forall h p r, read_frame enc bad <> Delivered h p r) ->
  (length frames < fuel)%nat ->
  fst (fst (serve fuel enc handle (stream_of enc frames ++ bad))) =
  map (fun f => (write_header (fst f) (snd f) enc, snd f)) frames.
Proof. exact serve_delivers_exactly_prefix_proved. Qed.
Print Assumptions serve_delivers_exactly_prefix.
(* regenerated: the connection worker in TCP.Start is `t.serveConn(conn); closeFn()` *)
Theorem serve_conn_return_closes_connection : serve_conn_then_close = true.
Proof. reflexivity. Qed.
Print Assumptions serve_conn_return_closes_connection.
Theorem serve_stops_at_bad : forall enc handle s fuel,
  (forall h p r, read_frame enc s <> Delivered h p r) -> fst (fst (serve fuel enc handle s)) = [].
Proof. exact serve_stops_at_bad_proved. Qed.
Print Assumptions serve_stops_at_bad.
Theorem serve_reader_is_read_frame : forall enc s, fst (read_frame_ex enc s) = read_frame enc s.
Proof. exact read_frame_ex_fst. Qed.
Print Assumptions serve_reader_is_read_frame.

(* non-vacuity: a concrete frame is delivered, its 1-byte-shorter prefix is not *)
Example frame_witness :
  let f := write_message (mkHeader raft_type 0 0) [1; 2; 3] false in
  read_frame false (f ++ [9]) = Delivered (mkHeader raft_type 3 (crc32 [1; 2; 3])) [1; 2; 3] [9] /\
  read_frame false (firstn 22 f) = IOErr.
Proof. vm_compute. split; reflexivity. Qed.

(* gogo-protobuf style codecs (Model/CodecProto.v).  T_encode = MarshalTo,
   T_size = Size (a separate computation in the Go code), T_decode = Unmarshal into a
   zero value.  Maps are association lists with distinct keys; equality of the decoded
   value is equality of these lists (= equality of Go maps, the harness sorts by key). *)

(* the generic wire format: parsing an encoded field list gives the field list back *)
Theorem proto_fields_roundtrip : forall fs, Forall wf_field fs -> parse_all (enc_fields fs) = Some fs.
Proof. exact parse_all_enc. Qed.
Print Assumptions proto_fields_roundtrip.

Theorem state_roundtrip : forall s, wf_state s -> state_decode (state_encode s) = Some s.
Proof. exact state_roundtrip_proved. Qed.
Print Assumptions state_roundtrip.
Theorem state_size_exact : forall s, nlen (state_encode s) = state_size s.
Proof. exact state_size_exact_proved. Qed.
Print Assumptions state_size_exact.
(* State.SizeUpperLimit() = 8 + 16*3 (generated) *)
Theorem state_size_le_upper : forall s, state_size s <= state_size_upper.
Proof. intros s. pose proof (state_size_le_33 s). change state_size_upper with 56. lia. Qed.
Print Assumptions state_size_le_upper.

Theorem session_roundtrip : forall s, wf_session s -> session_decode (session_encode s) = Some s.
Proof. exact session_roundtrip_proved. Qed.
Print Assumptions session_roundtrip.
Theorem session_size_exact : forall s, nlen (session_encode s) = session_size s.
Proof. exact session_size_exact_proved. Qed.
Print Assumptions session_size_exact.

(* the optional byte fields (Metadata, Checksum, HeaderChecksum, PayloadChecksum,
   Data) are emitted by MarshalTo and counted by Size() under the same `!= nil`
   guard; the ten guards are regenerated from the source *)
Theorem optional_field_guards_agree :
  (sf_metadata_guard_nil_marshal && sf_metadata_guard_nil_size && sn_checksum_guard_nil_marshal &&
   sn_checksum_guard_nil_size && sh_header_checksum_guard_nil_marshal && sh_header_checksum_guard_nil_size &&
   sh_payload_checksum_guard_nil_marshal && sh_payload_checksum_guard_nil_size &&
   ck_data_guard_nil_marshal && ck_data_guard_nil_size)%bool = true.
Proof. reflexivity. Qed.
Print Assumptions optional_field_guards_agree.

Theorem snapshotfile_roundtrip : forall s, wf_sf s -> sf_decode (sf_encode s) = Some s.
Proof. exact sf_roundtrip_proved. Qed.
Print Assumptions snapshotfile_roundtrip.
Theorem snapshotfile_size_exact : forall s, nlen (sf_encode s) = sf_size s.
Proof. exact sf_size_exact_proved. Qed.
Print Assumptions snapshotfile_size_exact.

Theorem membership_roundtrip : forall m, wf_mb m -> mb_decode (mb_encode m) = Some m.
Proof. exact mb_roundtrip_proved. Qed.
Print Assumptions membership_roundtrip.
Theorem membership_size_exact : forall m, nlen (mb_encode m) = mb_size m.
Proof. exact mb_size_exact_proved. Qed.
Print Assumptions membership_size_exact.

Theorem snapshot_roundtrip : forall s, wf_sn s -> sn_decode (sn_encode s) = Some s.
Proof. exact sn_roundtrip_proved. Qed.
Print Assumptions snapshot_roundtrip.
Theorem snapshot_size_exact : forall s, nlen (sn_encode s) = sn_size s.
Proof. exact sn_size_exact_proved. Qed.
Print Assumptions snapshot_size_exact.

Theorem entrybatch_roundtrip : forall es, Forall wf_entry es -> eb_decode (eb_encode es) = Some es.
Proof. exact eb_roundtrip_proved. Qed.
Print Assumptions entrybatch_roundtrip.
Theorem entrybatch_size_exact : forall es, nlen (eb_encode es) = eb_size es.
Proof. exact eb_size_exact_proved. Qed.
Print Assumptions entrybatch_size_exact.
(* EntryBatch.Size() <= EntryBatch.SizeUpperLimit() = 16 + sum (e.SizeUpperLimit() + 16) *)
Theorem entrybatch_size_le_upper : forall es, Forall wf_entry es -> eb_size es <= eb_size_upper es.
Proof. exact eb_size_le_upper_proved. Qed.
Print Assumptions entrybatch_size_le_upper.

Theorem message_roundtrip : forall m, wf_msg m -> msg_decode (msg_encode m) = Some m.
Proof. exact msg_roundtrip_proved. Qed.
Print Assumptions message_roundtrip.
Theorem message_size_exact : forall m, nlen (msg_encode m) = msg_size m.
Proof. exact msg_size_exact_proved. Qed.
Print Assumptions message_size_exact.
Theorem message_size_le_upper : forall m, wf_msg m -> msg_size m <= msg_size_upper m.
Proof. exact msg_size_le_upper_proved. Qed.
Print Assumptions message_size_le_upper.

Theorem messagebatch_roundtrip : forall b, wf_bt b -> bt_decode (bt_encode b) = Some b.
Proof. exact bt_roundtrip_proved. Qed.
Print Assumptions messagebatch_roundtrip.
Theorem messagebatch_size_exact : forall b, nlen (bt_encode b) = bt_size b.
Proof. exact bt_size_exact_proved. Qed.
Print Assumptions messagebatch_size_exact.
(* the buffer SendMessageBatch allocates (SizeUpperLimit) is never overrun by MarshalTo *)
Theorem messagebatch_size_le_upper : forall b, wf_bt b -> bt_size b <= bt_size_upper b.
Proof. exact bt_size_le_upper_proved. Qed.
Print Assumptions messagebatch_size_le_upper.

Theorem configchange_roundtrip : forall c, wf_cc c -> cc_decode (cc_encode c) = Some c.
Proof. exact cc_roundtrip_proved. Qed.
Print Assumptions configchange_roundtrip.
Theorem configchange_size_exact : forall c, nlen (cc_encode c) = cc_size c.
Proof. exact cc_size_exact_proved. Qed.
Print Assumptions configchange_size_exact.
Theorem raftdatastatus_roundtrip : forall s, wf_rds s -> rds_decode (rds_encode s) = Some s.
Proof. exact rds_roundtrip_proved. Qed.
Print Assumptions raftdatastatus_roundtrip.
Theorem raftdatastatus_size_exact : forall s, nlen (rds_encode s) = rds_size s.
Proof. exact rds_size_exact_proved. Qed.
Print Assumptions raftdatastatus_size_exact.
Theorem snapshotheader_roundtrip : forall s, wf_sh s -> sh_decode (sh_encode s) = Some s.
Proof. exact sh_roundtrip_proved. Qed.
Print Assumptions snapshotheader_roundtrip.
Theorem snapshotheader_size_exact : forall s, nlen (sh_encode s) = sh_size s.
Proof. exact sh_size_exact_proved. Qed.
Print Assumptions snapshotheader_size_exact.
Theorem bootstrap_roundtrip : forall b, wf_bs b -> bs_decode (bs_encode b) = Some b.
Proof. exact bs_roundtrip_proved. Qed.
Print Assumptions bootstrap_roundtrip.
Theorem bootstrap_size_exact : forall b, nlen (bs_encode b) = bs_size b.
Proof. exact bs_size_exact_proved. Qed.
Print Assumptions bootstrap_size_exact.
Theorem chunk_roundtrip : forall c, wf_ck c -> ck_decode (ck_encode c) = Some c.
Proof. exact ck_roundtrip_proved. Qed.
Print Assumptions chunk_roundtrip.
Theorem chunk_size_exact : forall c, nlen (ck_encode c) = ck_size_of c.
Proof. exact ck_size_exact_proved. Qed.
Print Assumptions chunk_size_exact.

(* entry payload encoding (internal/rsm/encoded.go); compression is a Section
   variable pair with the contract decompress (compress x) = Some x and the snappy
   block-format fact that a block starts with uvarint(len) *)
Theorem payload_roundtrip :
  forall (compress : bytes -> bytes) (decompress : bytes -> option bytes),
  (forall x, decompress (compress x) = Some x) ->
  (forall x, exists rest, compress x = uvarint (nlen x) ++ rest) ->
  forall ct cmd enc, cmd <> [] -> nlen cmd < 2 ^ 64 ->
  get_encoded compress ct cmd = Some enc -> get_decoded decompress enc = POk cmd.
Proof. exact payload_roundtrip_proved. Qed.
Print Assumptions payload_roundtrip.

(* the Tan record form of Update (raftpb/update.go) *)
Theorem update_roundtrip : forall u, wf_update u -> update_decode (update_encode u) = UOk u.
Proof. exact update_roundtrip_proved. Qed.
Print Assumptions update_roundtrip.

(* MarshalTo never writes more than SizeUpperLimit(): a buffer of that size is not
   overrun.  The constants 22, 56, 48 and 128 are regenerated from the source. *)
Theorem update_size_le_upper : forall u, wf_update u -> nlen (update_encode u) <= update_size_upper u.
Proof. exact update_size_le_upper_proved. Qed.
Print Assumptions update_size_le_upper.

(* non-vacuity: a membership with two addresses and a removed node, inside a snapshot,
   inside an update with one entry, round-trips by computation *)
Example update_witness :
  let mb := mkMB 7 [(1, [97; 98]); (2 ^ 63, [])] [(5, true)] [] [(9, [255])] in
  let sn := mkSN [47] 100 7 3 mb [mkSF [97] 5 6 None] (Some []) true 77 (-5) false 8 true in
  let u := mkUpdate (2 ^ 64 - 1) 2 (mkState 1 2 3) [mkEntry 1 1 0 0 0 0 0 [170; 187]] sn in
  update_decode (update_encode u) = UOk u /\ nlen (update_encode u) <=? update_size_upper u = true.
Proof. vm_compute. split; reflexivity. Qed.
