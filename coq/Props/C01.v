(* C01 — client-visible operations on a shard are linearizable.
   Statements, each closed by a lemma of Proofs/Linearizability.v or a few
   lines from one.  Definitions: Model/Linearizability.v
   (history, wf_hist, pts_ok, linearizes, linearizable_hist, check_witness, weave,
   and the hypotheses C02_.. C03_.. C05_.. C06_.. C12_.. of the composition).

   What is and is not proved here: the definition of the property on recorded
   histories, a verified certificate checker for it, and the composition
   "protocol properties => the log (with reads woven in) is a linearization".
   The unconditional statement over all traces of the protocol needs the five
   hypotheses of linearizable_from_log (C05 at_most_once, C02
   state_machine_safety, C03 leader_completeness, C12
   completed_after_local_apply, C06 read_index_not_stale) to be discharged from
   the L2 protocol model; until then they are hypotheses of that theorem and of
   log_witness_accepted, and are exercised on the implementation by the
   end-to-end harness (recorded histories). *)
From Coq Require Import List NArith Arith Bool.
From DB Require Import Gen.GenC01 Model.Linearizability Proofs.Linearizability.
Import ListNotations.
Local Open Scope nat_scope.

(* The verified certificate checker: a recorded history that passes the check with
   ANY proposed order is linearizable in the sense of the property (every completed
   operation takes effect exactly once at a point between its invocation and its
   response, Timeout/Dropped/Terminated ones at most once and after their
   invocation, refused ones never, results are the sequential specification's). *)
Theorem check_witness_sound : forall h order,
  check_witness h order = true -> linearizable_hist h.
Proof.
  intros h order H. apply check_witness_decides in H. destruct H as [Hwf Hl].
  split; [exact Hwf|exists order; exact Hl].
Qed.
Print Assumptions check_witness_sound.

(* ... and the accepted order itself is a linearization of a well-formed history *)
Theorem check_witness_sound_order : forall h order,
  check_witness h order = true -> wf_hist h /\ linearizes h order.
Proof. intros h order. apply check_witness_decides. Qed.
Print Assumptions check_witness_sound_order.

(* The greedy choice of effect points made by the checker loses nothing: effect
   points exist for an order iff the linear pass prec_ok accepts it. *)
Theorem effect_points_iff_greedy : forall h lin,
  (exists pt, pts_ok h lin pt) <-> prec_ok h 0 lin = true.
Proof. exact greedy_effect_points. Qed.
Print Assumptions effect_points_iff_greedy.

(* Composition: IF the protocol-level
   properties hold of a history h, the agreed log of client writes, the prefix each
   read observed (obs) and the ghost commit count cmt, THEN h is linearizable, and
   the linearization is "log order with each completed read inserted after the
   prefix it observed" (weave). *)
Theorem linearizable_from_log : forall h log obs cmt,
  wf_hist h ->
  C05_at_most_once h log ->
  C02_state_machine_safety h log obs cmt ->
  C03_leader_completeness h log cmt ->
  C12_completed_after_local_apply h log cmt ->
  C06_read_index_not_stale h obs cmt ->
  linearizable_hist h /\ linearizes h (weave h log obs).
Proof.
  intros h log obs cmt Hwf H05 H02 H03 H12 H06.
  pose proof (weave_linearizes h log obs cmt Hwf H05 H02 H03 H12 H06) as H.
  split; [split; [exact Hwf|exists (weave h log obs); exact H]|exact H].
Qed.
Print Assumptions linearizable_from_log.

(* The checker decides the property for a given order: it accepts exactly the
   linearization orders of well-formed histories (sound and complete). *)
Theorem check_witness_iff : forall h lin,
  check_witness h lin = true <-> wf_hist h /\ linearizes h lin.
Proof. exact check_witness_decides. Qed.
Print Assumptions check_witness_iff.

(* Hence, under the protocol-level hypotheses, the extracted checker accepts the
   witness the harness builds from the recorded Update stream: a rejection of
   that witness on a recorded history of the implementation means one of
   C02/C03/C05/C06/C12 failed there (this is what the end-to-end monitor reports
   as "the log order is not a linearization of the history"). *)
Theorem log_witness_accepted : forall h log obs cmt,
  wf_hist h ->
  C05_at_most_once h log ->
  C02_state_machine_safety h log obs cmt ->
  C03_leader_completeness h log cmt ->
  C12_completed_after_local_apply h log cmt ->
  C06_read_index_not_stale h obs cmt ->
  check_witness h (weave h log obs) = true.
Proof.
  intros h log obs cmt Hwf H05 H02 H03 H12 H06. apply check_witness_decides.
  split; [exact Hwf|]. eapply weave_linearizes; eassumption.
Qed.
Print Assumptions log_witness_accepted.

(* non-vacuity.  Two clients, a write that times out but takes effect, a read that
   observes it, a refused write: *)
Example check_witness_accepts : check_witness ex_hist [1; 2; 3]%N = true.
Proof. vm_compute. reflexivity. Qed.
(* the checker rejects a stale read (10 is read after the write of 20 completed) *)
Example check_witness_rejects_stale :
  check_witness [ Inv 1 (OpWrite 7 10); Resp 1 (Completed (0, 1)%N);
                  Inv 2 (OpWrite 7 20); Resp 2 (Completed (10, 2)%N);
                  Inv 3 (OpRead 7); Resp 3 (Completed (10, 1)%N) ]%N [1; 3; 2]%N = false.
Proof. vm_compute. reflexivity. Qed.
(* the hypotheses of linearizable_from_log are met by that history with log [1;2],
   the read having observed 2 entries, commits at events 2 and 4 *)
Example from_log_hypotheses_met :
  wf_hist ex_hist /\
  C05_at_most_once ex_hist ex_log /\
  C02_state_machine_safety ex_hist ex_log ex_obs ex_cmt /\
  C03_leader_completeness ex_hist ex_log ex_cmt /\
  C12_completed_after_local_apply ex_hist ex_log ex_cmt /\
  C06_read_index_not_stale ex_hist ex_obs ex_cmt.
Proof. exact ex_hyps. Qed.
Example from_log_witness : weave ex_hist ex_log ex_obs = [1; 2; 3]%N.
Proof. vm_compute. reflexivity. Qed.

(* tie G: the anchors the argument rests on are present in the source, and the
   result codes are pairwise distinct *)
Example anchors_present :
  (c01_read_release_guard && c01_leader_readindex_guard && c01_apply_path_completion) = true.
Proof. vm_compute. reflexivity. Qed.
Example codes_distinct :
  nodupb [c01_code_requestTimeout; c01_code_requestCompleted; c01_code_requestTerminated;
          c01_code_requestRejected; c01_code_requestDropped; c01_code_requestAborted;
          c01_code_requestCommitted] = true.
Proof. vm_compute. reflexivity. Qed.
