(* C17 — progress. Bounded-progress lemmas on the faithful L1 model; unconditional liveness is
   not a theorem (adversarial random time-outs) and is not claimed: the end-to-end
   "eventually" is covered by the deterministic simulation monitor of the check. *)
From DB Require Import Model.RaftCore Proofs.RaftProgress.
Open Scope N_scope.

(* a campaign (what the election timer triggers on a voter) moves to the next term, votes for
   itself and leaves the replica candidate (or leader when it is the only voter) *)
Theorem campaign_spec :
  forall r, is_leader r = false -> is_nonvoting r = false -> is_witness r = false ->
    r_term (campaign r) = r_term r + 1 /\ r_vote (campaign r) = r_id r /\
    (r_role (campaign r) = Candidate \/ r_role (campaign r) = Leader).
Proof. exact campaign_spec_proved. Qed.
Print Assumptions campaign_spec.

Theorem heartbeat_resp_unpauses_wait :
  forall p, rm_state p = RWait -> rm_is_paused (rm_wait_to_retry (p <| rm_active := true |>)) = false.
Proof. intros p H. unfold rm_wait_to_retry, rm_is_paused. cbn. rewrite H. reflexivity. Qed.
Print Assumptions heartbeat_resp_unpauses_wait.

Theorem rejected_replicate_backs_off :
  forall p rejected last, rm_state p = RRetry \/ rm_state p = RWait ->
    rm_next p - 1 = rejected -> 1 <= rejected ->
    snd (rm_decrease_to p rejected last) = true /\
    rm_next (fst (rm_decrease_to p rejected last)) = N.max 1 (N.min rejected (last + 1)) /\
    rm_next (fst (rm_decrease_to p rejected last)) <= rejected.
Proof.
  intros p rejected last Hs He Hr. destruct (rm_decrease_to_probed p rejected last Hs He) as (A & B & _).
  rewrite B. repeat split; [exact A|lia].
Qed.
Print Assumptions rejected_replicate_backs_off.

Theorem rejected_replicate_leaves_wait :
  forall p rejected last, rm_state p = RRetry \/ rm_state p = RWait -> rm_next p - 1 = rejected ->
    rm_state (fst (rm_decrease_to p rejected last)) = RRetry.
Proof. intros p rejected last Hs He. apply rm_decrease_to_probed; assumption. Qed.
Print Assumptions rejected_replicate_leaves_wait.

Theorem snapshot_state_left_on_status :
  forall p, rm_state p = RSnapshot -> rm_state (rm_become_wait p) = RWait.
Proof. reflexivity. Qed.
Print Assumptions snapshot_state_left_on_status.

Theorem ack_enters_replicate :
  forall p, rm_state p = RRetry ->
    rm_state (rm_responded_to p) = RReplicate /\ rm_next (rm_responded_to p) = rm_match p + 1.
Proof. intros p H. unfold rm_responded_to. rewrite H. split; reflexivity. Qed.
Print Assumptions ack_enters_replicate.

(* non-vacuity: a 3-voter follower whose timer expired becomes candidate of term 2 *)
Example election_fires_example :
  let r0 := new_raft 1 Follower 3 1 false false (mkLog 0 0 [] 0 0 0 None empty_snapshot) [1; 2; 3] [] [] (Some (1, 0, 0)) 3 in
  let r := peer_tick (peer_tick (peer_tick r0)) in (r_role r, r_term r, r_vote r) = (Candidate, 2, 1).
Proof. vm_compute. reflexivity. Qed.
