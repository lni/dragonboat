(* C12 — every accepted request gets exactly one truthful terminal result.
   Statements only: each theorem is a lemma of Proofs/Requests.v, RequestsInv.v or
   RequestsLive.v, or a few lines away from one.

   [run ops (init ps nc pq rq)] ranges over ALL sequences of critical sections of all actors
   (clients incl. Release/reuse and draining, step / apply / commit workers, tick, gc, closer)
   over Model/Requests.v, the model of /repo/request.go at critical-section granularity, for every
   number of proposal shards, queue sizes, timeout value and choice of the pooled object.
   [env_ok ops s0]: along the run the environment kept its three assumptions (a new proposal key
   differs from the keys still pending or in flight in its node, node.close() once per table, an
   entry reported committed at most once) - the model
   records a broken assumption in [h_broken].
   [got s r] is the ghost list of everything pushed into the channels of request r's object
   while r owned it; [nterm] / [ncomm] count terminal results / Committed notifications. *)
From Coq Require Import NArith List.
From DB Require Import Gen.GenC12 Model.Requests Proofs.Requests Proofs.RequestsInv Proofs.RequestsLive.
Import ListNotations.
Open Scope N_scope.

(* never two terminal results for one request - although objects are pooled and reused *)
Theorem at_most_one_terminal : forall ps nc pq rq ops, env_ok ops (init ps nc pq rq) ->
  forall r, (nterm (got (run ops (init ps nc pq rq)) r) <= 1)%nat.
Proof. intros ps nc pq rq ops He r. apply shape_nterm_le1, (li_h _ (reachable_LI _ _ _ _ _ He)). Qed.
Print Assumptions at_most_one_terminal.

(* at most one Committed notification, and nothing was delivered before it *)
Theorem committed_at_most_once_and_first : forall ps nc pq rq ops, env_ok ops (init ps nc pq rq) ->
  forall r, (ncomm (got (run ops (init ps nc pq rq)) r) <= 1)%nat /\
            (forall pre e post, got (run ops (init ps nc pq rq)) r = pre ++ e :: post ->
                                is_committed e = true -> pre = []).
Proof.
  intros ps nc pq rq ops He r. pose proof (hi_shape _ (li_h _ (reachable_LI _ _ _ _ _ He)) r) as Hs.
  split; [exact (shape_ncomm_le1 _ Hs) | intros pre e post Eg Hc; exact (shape_committed_first _ _ _ _ Hs Eg Hc)].
Qed.
Print Assumptions committed_at_most_once_and_first.

(* a result only ever reaches the request for which the table entry that produced it was
   created ([e_to] = the request recorded in the slot at insertion time) *)
Theorem no_cross_talk : forall ps nc pq rq ops, env_ok ops (init ps nc pq rq) ->
  forall r e, In e (got (run ops (init ps nc pq rq)) r) -> e_to e = r.
Proof. intros ps nc pq rq ops He. exact (hi_to _ (li_h _ (reachable_LI _ _ _ _ _ He))). Qed.
Print Assumptions no_cross_talk.

(* take-and-delete before notifying: whatever a live table / queue / worker still references
   has no terminal result yet, is referenced once, through the object it still owns, and was
   not released to the pool *)
Theorem live_requests_have_no_result : forall ps nc pq rq ops, env_ok ops (init ps nc pq rq) ->
  let s := run ops (init ps nc pq rq) in
  NoDup (map sr (live s)) /\
  forall sl, In sl (live s) -> nterm (got s (sr sl)) = 0%nat /\ o_owner (h_objs (H s) (so sl)) = sr sl /\
                               r_rel (h_reqs (H s) (sr sl)) = false.
Proof.
  intros ps nc pq rq ops He s. pose proof (reachable_LI _ _ _ _ _ He) as Li. split; [apply Li|].
  intros sl Hin. pose proof (ok_of_live _ sl Li Hin) as Hok.
  exact (conj (ok_fresh _ _ Hok) (conj (ok_owner _ _ Hok) (ok_held _ _ Hok))).
Qed.
Print Assumptions live_requests_have_no_result.

(* liveness as safety: an accepted request that has no terminal result yet is still referenced -
   by a live table, one of the two queues or the step worker's hand ([live]) *)
Theorem accepted_without_result_is_referenced : forall ps nc pq rq ops, env_ok ops (init ps nc pq rq) ->
  let s := run ops (init ps nc pq rq) in
  forall r, r < h_nreq (H s) -> r_status (h_reqs (H s) r) = 1 -> nterm (got s r) = 0%nat ->
  In r (map sr (live s)).
Proof. exact accepted_without_result_is_referenced_proved. Qed.
Print Assumptions accepted_without_result_is_referenced.

(* tick driven expiry, table by table ([h_clock] is the logical clock that node.tick advances for
   every table on every path - regenerated fact node_tick_advances_all_tables): in every reachable
   state, a referenced request whose deadline has passed gets its terminal result (Timeout, see
   completed_only_from_apply_with_that_value for the code) at the next gc of its table that is due
   (now - lastGcTime >= gcTick), exactly one, and the gc does not panic.
   Queued reads have no deadline check of their own: the step worker moves them into a batch
   (TakeReads ; AddReads), where the gc inside applied() finds them. *)
Theorem tick_expires_proposal : forall ps nc pq rq ops, env_ok ops (init ps nc pq rq) ->
  let s := run ops (init ps nc pq rq) in
  h_err (H s) = 0 ->
  forall kv, In kv (pend (P s)) -> p_stop (P s) (fst kv mod cps s) = false ->
  (sub64 (h_clock (H s)) (p_lastgc (P s) (fst kv mod cps s)) <? gc_tick) = false ->
  o_dl (h_objs (H s) (so (snd kv))) < h_clock (H s) ->
  let s' := step s (GcP (fst kv)) in
  h_err (H s') = 0 /\ nterm (got s' (sr (snd kv))) = 1%nat.
Proof. exact tick_expires_proposal_proved. Qed.
Print Assumptions tick_expires_proposal.

Theorem tick_expires_read : forall ps nc pq rq ops, env_ok ops (init ps nc pq rq) ->
  let s := run ops (init ps nc pq rq) in
  h_err (H s) = 0 ->
  forall a sl, rd_stop (R s) = false ->
  (sub64 (h_clock (H s)) (rd_lastgc (R s)) <? gc_tick) = false ->
  In sl (batch_slots (batches (R s))) -> o_dl (h_objs (H s) (so sl)) < h_clock (H s) ->
  let s' := step s (ReadsApplied a) in
  h_err (H s') = 0 /\ nterm (got s' (sr sl)) = 1%nat.
Proof. exact tick_expires_read_proved. Qed.
Print Assumptions tick_expires_read.

Theorem tick_expires_config_change : forall ps nc pq rq ops, env_ok ops (init ps nc pq rq) ->
  let s := run ops (init ps nc pq rq) in
  h_err (H s) = 0 ->
  forall sl, x_pend (C s) = Some sl ->
  (sub64 (h_clock (H s)) (x_lastgc (C s)) <? gc_tick) = false ->
  o_dl (h_objs (H s) (so sl)) < h_clock (H s) ->
  let s' := step s GcC in h_err (H s') = 0 /\ nterm (got s' (sr sl)) = 1%nat.
Proof. exact tick_expires_config_change_proved. Qed.
Print Assumptions tick_expires_config_change.

Theorem tick_expires_snapshot : forall ps nc pq rq ops, env_ok ops (init ps nc pq rq) ->
  let s := run ops (init ps nc pq rq) in
  h_err (H s) = 0 ->
  forall sl, x_pend (S s) = Some sl ->
  (sub64 (h_clock (H s)) (x_lastgc (S s)) <? gc_tick) = false ->
  o_dl (h_objs (H s) (so sl)) < h_clock (H s) ->
  let s' := step s GcS in h_err (H s') = 0 /\ nterm (got s' (sr sl)) = 1%nat.
Proof. exact tick_expires_snapshot_proved. Qed.
Print Assumptions tick_expires_snapshot.

(* exactly one, after close: in EVERY reachable state in which node.close() has completed on every
   table ([closed]: reads, every proposal shard, config change, snapshot, log query) and the step
   worker holds no read requests between get() and add(), every accepted request - of any kind,
   accepted at any time - has exactly one terminal result.  (No request can be accepted into a
   closed table and nothing a closed table held was forgotten.) *)
Theorem exactly_one_after_close : forall ps nc pq rq ops, env_ok ops (init ps nc pq rq) ->
  let s := run ops (init ps nc pq rq) in
  closed s -> taken (R s) = [] ->
  forall r, r < h_nreq (H s) -> r_status (h_reqs (H s) r) = 1 -> nterm (got s r) = 1%nat.
Proof. exact exactly_one_when_closed_proved. Qed.
Print Assumptions exactly_one_after_close.

(* node.close() run to completion - reads, every proposal shard in order, config change, snapshot,
   log query, then the add() of a handleReadIndex that was under way ([close_ops]) - from ANY
   reachable state: if no step of it panics, every accepted request has exactly one terminal result *)
Theorem close_terminates_referenced : forall ps nc pq rq ops lo hi,
  let s := run ops (init ps nc pq rq) in
  env_ok (ops ++ close_ops s lo hi) (init ps nc pq rq) ->
  let s2 := run (close_ops s lo hi) s in
  h_err (H s2) = 0 ->
  forall r, r < h_nreq (H s2) -> r_status (h_reqs (H s2) r) = 1 -> nterm (got s2 r) = 1%nat.
Proof. exact close_terminates_referenced_proved. Qed.
Print Assumptions close_terminates_referenced.

(* where an accepted request without a result is: exactly the places the tick_expires_* theorems
   and TakeReads / AddReads speak about *)
Theorem referenced_where : forall ps nc pq rq ops, env_ok ops (init ps nc pq rq) ->
  let s := run ops (init ps nc pq rq) in
  forall r, r < h_nreq (H s) -> r_status (h_reqs (H s) r) = 1 -> nterm (got s r) = 0%nat ->
  exists sl, sr sl = r /\
    ((exists key, In (key, sl) (pend (P s)) /\ p_stop (P s) (key mod cps s) = false) \/
     In sl (Requests.rq (R s)) \/ In sl (taken (R s)) \/
     (rd_stop (R s) = false /\ In sl (batch_slots (batches (R s)))) \/
     x_pend (C s) = Some sl \/ x_pend (S s) = Some sl \/ lq_pend s = Some sl).
Proof. exact referenced_where_proved. Qed.
Print Assumptions referenced_where.

(* truthfulness: every result ever delivered is the one its code path produces - the apply path
   delivers Completed/Rejected carrying exactly the value it was given (no assumption on the
   environment needed); gc delivers Timeout only when deadline < now; close only Terminated ...
   [ev_ok] spells this out per source. With [applied_called_from_apply_path] (regenerated call
   graph fact: only node.ApplyUpdate calls pendingProposals.applied) this is the local-apply half
   of "Completed only after the entry was applied, with the value the state machine returned". *)
Theorem completed_only_from_apply_with_that_value : forall ps nc pq rq ops r e,
  In e (got (run ops (init ps nc pq rq)) r) -> ev_ok e.
Proof. exact reachable_evs_ok. Qed.
Print Assumptions completed_only_from_apply_with_that_value.

(* a ReadIndex request is completed only by applied(a) for a batch whose confirmed index is
   0 < index <= a, and only while its deadline is still ahead *)
Theorem read_completed_only_when_applied : forall ps nc pq rq ops r e ap idx now dl,
  In e (got (run ops (init ps nc pq rq)) r) -> e_src e = SReadApplied ap idx now dl ->
  0 < idx /\ idx <= ap /\ (rc (e_res e) = cCompleted -> now < dl).
Proof.
  intros ps nc pq rq ops r e ap idx now dl Hin Hs. apply reachable_evs_ok in Hin.
  unfold ev_ok in Hin. rewrite Hs in Hin. destruct Hin as (A & B & C). repeat split; auto.
  intros Hc. rewrite C in Hc. destruct (now <? dl) eqn:E; [apply N.ltb_lt; exact E | discriminate Hc].
Qed.
Print Assumptions read_completed_only_when_applied.

(* exactly_one_by_deadline, what is proved and what is not.
   PROVED: at_most_one_terminal; accepted_without_result_is_referenced + referenced_where (a request
   without a result sits in one of seven places); tick_expires_proposal / _read / _config_change /
   _snapshot (the next due gc of the place delivers exactly one terminal result to everything in it
   whose deadline has passed, without panic); exactly_one_after_close and close_terminates_referenced
   (close). The statement below: add() on a stopped read table terminates what it is handed.
   NOT PROVED (hence still _partial): the composition over one whole worker round as ONE statement
   ("Tick t ; AddReads ; TakeReads ; AddReads ; GcP 0..ps-1 ; GcC ; GcS ; ReadsApplied a  =>  every
   accepted request other than a log query whose deadline is < t has exactly one terminal result").
   It needs no further invariant, only the bookkeeping that the clock, lastGcTime, the stop flags,
   the object deadlines and the table membership of the request are unchanged by the steps of the
   round that come before the gc of its table. The harness monitor checks exactly this round on the
   implementation on every run. A log query has no deadline; it completes with the step worker. *)
Theorem exactly_one_by_deadline_partial : forall ps nc pq rq ops lo hi, env_ok ops (init ps nc pq rq) ->
  let s := run ops (init ps nc pq rq) in
  h_err (H s) = 0 -> rd_stop (R s) = true ->
  let s' := step s (AddReads lo hi) in
  h_err (H s') = 0 /\ taken (R s') = [] /\ forall sl, In sl (taken (R s)) -> nterm (got s' (sr sl)) = 1%nat.
Proof.
  intros ps nc pq rq ops lo hi Henv s He Hst s'.
  destruct (addReads_stopped_LX s lo hi (reachable_LI _ _ _ _ _ Henv) He Hst) as (_ & E & Hr).
  unfold s'. rewrite (step_eq _ _ He E). exact (conj E Hr).
Qed.
Print Assumptions exactly_one_by_deadline_partial.

(* non-vacuity: concrete interleavings, evaluated *)
Definition ex_ops : list op :=
  [ ProposeA 1 1 1001 5 0; ProposeB 0; Read 3 0; TakeReads; CommitP 1 1 1001;
    AppliedTake 1 1 1001 77 false; AppliedGc; Drain 0; Release 0;
    ProposeA 2 1 1002 1 0; ProposeB 2;          (* reuses the object of request 0 *)
    CloseR; AddReads 7 30;                      (* F3 interleaving: get ; close ; add *)
    Tick 9; GcP 0; CloseP 0; CloseC; CloseS; CloseL ].
Definition ex_s := run ex_ops (init 1 true 8 8).
Example ex_env_ok : env_ok ex_ops (init 1 true 8 8) /\ h_err (H ex_s) = 0.
Proof. vm_compute. repeat split. Qed.
Example ex_results :
  map (fun e => (rc (e_res e), rv (e_res e))) (got ex_s 0) = [(cCommitted, 0); (cCompleted, 77)] /\
  map (fun e => rc (e_res e)) (got ex_s 1) = [cTerminated] /\
  map (fun e => rc (e_res e)) (got ex_s 2) = [cTimeout] /\
  r_obj (h_reqs (H ex_s) 2) = r_obj (h_reqs (H ex_s) 0).
Proof. vm_compute. repeat split; reflexivity. Qed.
