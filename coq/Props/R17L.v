(* R17L - progress sub-check of C17: the two small state machines outside the raft core that
   can hold a shard back.
   InMemRateLimiter (internal/server/rate.go): node.handleProposals pauses proposals while
   RateLimited() is true. quiesceState (quiesce.go): a quiesced replica gets QuiescedTick
   (no heartbeats, no election) instead of Tick. *)
From Coq Require Import NArith List Bool.
From DB Require Import Model.RateQuiesce Proofs.RateQuiesce.
Import ListNotations.
Open Scope N_scope.

(* whatever happened before (any reachable state satisfies rl_inv), once the in-memory log is
   empty and the follower reports are reset the poll after eleven ticks says "not limited":
   the limiter cannot hold proposals back for ever *)
Theorem drained_limiter_unlimits : forall r,
  rl_inv r -> 2 <= rl_max r -> rl_max r * 7 < w64 ->
  snd (rl_step (fst (rl_run (fst (rl_step (fst (rl_step r RReset)) (RSet 0))) (repeat RTick 11))) RLimited) = Some false.
Proof. intros r Hi H2 Hw. apply reset_drained_unlimits; [assumption..|reflexivity]. Qed.
Print Assumptions drained_limiter_unlimits.

Theorem limiter_invariant : forall max, rl_inv (rl_new max) /\ forall r o, rl_inv r -> rl_inv (fst (rl_step r o)).
Proof. intros max. split; [apply rl_new_inv|exact rl_step_inv]. Qed.
Print Assumptions limiter_invariant.

Theorem unlimit_when_drained : forall r,
  rl_enabled r = true -> rl_limited r = true ->
  max_inmem r < (rl_max r * 7) mod w64 / 10 ->
  (rl_tick_limited r = 0 \/ change_tick_threshold < rl_tick r - rl_tick_limited r) ->
  snd (rl_step r RLimited) = Some false.
Proof. exact unlimit_when_drained_proved. Qed.
Print Assumptions unlimit_when_drained.

Theorem limit_when_over : forall r,
  rl_enabled r = true -> rl_limited r = false -> rl_max r < max_inmem r ->
  (rl_tick_limited r = 0 \/ change_tick_threshold < rl_tick r - rl_tick_limited r) ->
  snd (rl_step r RLimited) = Some true.
Proof. exact limit_when_over_proved. Qed.
Print Assumptions limit_when_over.

(* MaxInMemLogSize = 0 (or MaxUint64): never limited, over all operation sequences *)
Theorem disabled_never_limited : forall ops r,
  rl_enabled r = false -> rl_limited r = false ->
  forall b, In (Some b) (snd (rl_run r ops)) -> b = false.
Proof. exact disabled_never_limited_proved. Qed.
Print Assumptions disabled_never_limited.

Theorem limited_changes_are_spaced : forall r,
  rl_limited (fst (rl_step r RLimited)) <> rl_limited r ->
  (rl_tick_limited r = 0 \/ change_tick_threshold < rl_tick r - rl_tick_limited r) /\
  rl_tick_limited (fst (rl_step r RLimited)) = rl_tick r.
Proof.
  intros r. rewrite rl_poll. cbn [fst rl_limited rl_tick_limited]. destruct (negb _) eqn:E; cbn [andb]; [|congruence].
  destruct (hold_off_over r) eqn:Et; [|congruence]. intros _. split; [apply hold_off_spec, Et|reflexivity].
Qed.
Print Assumptions limited_changes_are_spaced.

Theorem stale_follower_ignored : forall r,
  max_inmem (mkRL (rl_size r) (rl_max r) (rl_gc r) (rl_tick r) (rl_tick_limited r) (rl_limited r)) = max_inmem r.
Proof. intros r. unfold max_inmem, rl_gc. cbn [rl_followers rl_tick rl_size]. rewrite filter_filter_same. reflexivity. Qed.
Print Assumptions stale_follower_ignored.

(* the uint64 product maxSize*7 wraps for a huge limit; the 70% mark is then 0 and a limiter
   that once said "limited" never recovers. Not reachable with a sane MaxInMemLogSize
   (2.6 exabytes); recorded, not repaired. *)
Theorem huge_limit_never_recovers_refuted :
  exists max, 0 < max /\ max <> w64 - 1 /\
    forall n, snd (rl_step (fst (rl_run (mkRL 0 max [] 1 1 true) (repeat RTick n))) RLimited) = Some true.
Proof. exact Proofs.RateQuiesce.huge_limit_never_recovers_refuted. Qed.
Print Assumptions huge_limit_never_recovers_refuted.

Theorem disabled_tick_never_quiesced : forall q,
  q_enabled q = false -> snd (q_step q QTick) = Some false /\ q_quiesced (fst (q_step q QTick)) = false.
Proof. intros q He. cbn [q_step]. rewrite He. cbn [negb fst snd]. unfold q_quiesced. rewrite He. split; reflexivity. Qed.
Print Assumptions disabled_tick_never_quiesced.

Theorem activity_wakes : forall q, q_quiesced (fst (q_step q (QRecord false))) = false.
Proof. intros q. apply record_taken. reflexivity. Qed.
Print Assumptions activity_wakes.

Theorem heartbeat_wakes_after_grace : forall q,
  q_quiesced q = true -> q_new_to_quiesce q = false ->
  q_quiesced (fst (q_step q (QRecord true))) = false.
Proof. intros q Hq Hn. apply record_taken. rewrite Hq, Hn. reflexivity. Qed.
Print Assumptions heartbeat_wakes_after_grace.

Theorem heartbeat_ignored_when_awake_or_new : forall q,
  q_enabled q = true -> (q_quiesced q = false \/ q_new_to_quiesce q = true) ->
  fst (q_step q (QRecord true)) = q.
Proof. intros q He [H|H]; apply record_ignored; try exact He; rewrite H; [reflexivity|apply orb_true_r]. Qed.
Print Assumptions heartbeat_ignored_when_awake_or_new.

Theorem idle_enters : forall q,
  q_enabled q = true -> q_quiesced q = false ->
  let q' := fst (q_step q QTick) in
  (q_threshold q < q_now q + 1 - q_idle q -> q_quiesced q' = true /\ q_flag q' = true /\ snd (q_step q QTick) = Some true) /\
  (q_now q + 1 - q_idle q <= q_threshold q -> q_quiesced q' = false /\ snd (q_step q QTick) = Some false).
Proof.
  intros q He Hq. destruct (q_tick_awake q He Hq) as (H1 & H2 & ->). cbv zeta.
  split; intros H; [apply N.ltb_lt in H|apply N.ltb_ge in H]; rewrite H; cbn [fst snd]; rewrite ?H1, ?H2; repeat split.
Qed.
Print Assumptions idle_enters.

Example limiter_example :
  snd (rl_run (rl_new 100) [RIncrease 150; RLimited; RSet 60; RLimited; RTick; RLimited]) =
  [None; Some true; None; Some true; None; Some true].
Proof. vm_compute. reflexivity. Qed.
