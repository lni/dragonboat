(* R22 - progress through the NodeHost glue (sub-check of C17).
   Model/NodeGlue.v puts the event loop of node.go around the quiesce state
   machine and the in-memory rate limiter of Model/RateQuiesce.v; every guard of node.go /
   quiesce.go / queue.go / request.go it relies on is a regenerated fact (Gen/GenR22.v), so a
   source change that drops a guard breaks the theorem that needs it.

   node level:  which requests and messages wake a quiesced replica; where a rate limited
                proposal is refused and when the queue accepts again.
   shard level: the outcome class of a request (connected quorum and a leader that is reachable
                or can be elected: Completed; otherwise Dropped / Timeout; messages being lost:
                some terminal result) and who is awake afterwards. *)
From Coq Require Import NArith List Bool.
From DB Require Import Model.RateQuiesce Model.NodeGlue Proofs.RateQuiesce Proofs.NodeGlue Gen.GenR22.
Import ListNotations.
Open Scope N_scope.

(* the guards of the source the theorems below rest on: handleReadIndex, handleConfigChange and
   handleProposals record their request with the quiesce state, recordMessage runs before
   raft sees a message and treats a heartbeat with a ReadIndex hint as a read, node.tick hands
   a quiesced replica QuiescedTick and still expires pending requests, handleProposals pauses
   the proposal queue while rate limited, a paused queue refuses, a refusal is ErrSystemBusy *)
Theorem glue_guards_present : glue_facts = true.
Proof. vm_compute. reflexivity. Qed.
Print Assumptions glue_guards_present.

Theorem read_request_wakes_node : forall n, n_quiesced (node_do n EvRead) = false.
Proof. intros n. apply record_false_wakes. Qed.
Print Assumptions read_request_wakes_node.

Theorem config_change_wakes_node : forall n, n_quiesced (node_do n EvConfigChange) = false.
Proof. intros n. apply record_false_wakes. Qed.
Print Assumptions config_change_wakes_node.

(* proposals taken from the queue wake the replica *)
Theorem taken_proposals_wake_node : forall n, n_queue n <> [] -> n_quiesced (node_do n EvProposals) = false.
Proof. exact taken_proposals_wake. Qed.
Print Assumptions taken_proposals_wake_node.

Theorem non_heartbeat_message_wakes_node : forall n t hint,
  handled_by_node t = false -> is_heartbeat_type t = false -> n_quiesced (node_do n (EvMsg t hint)) = false.
Proof. intros n t hint Hh Hb. apply message_wakes; [exact Hh|rewrite Hb; reflexivity]. Qed.
Print Assumptions non_heartbeat_message_wakes_node.

Theorem hinted_heartbeat_wakes_node : forall n t hint,
  is_heartbeat_type t = true -> 0 < hint -> n_quiesced (node_do n (EvMsg t hint)) = false.
Proof. intros n t hint Hb Hh. apply message_wakes; [apply heartbeat_types_not_handled, Hb|]. apply N.ltb_lt in Hh. rewrite Hh. apply andb_false_r. Qed.
Print Assumptions hinted_heartbeat_wakes_node.

(* bounded: a quiesced replica that only gets the periodic heartbeat of an awake leader is awake
   after one grace period (an election time-out of ticks) *)
Theorem heartbeat_after_grace_ticks_wakes : forall n k,
  n_quiesced n = true -> q_wf (n_q n) -> q_election (n_q n) <= N.of_nat k ->
  n_quiesced (node_do (node_run n (repeat EvTick k)) (EvMsg mt_heartbeat 0)) = false.
Proof. exact heartbeat_after_grace_ticks_wakes_proved. Qed.
Print Assumptions heartbeat_after_grace_ticks_wakes.

Theorem snapshot_request_keeps_quiesce : forall n, n_q (node_do n EvSnapshotReq) = n_q n.
Proof. reflexivity. Qed.
Print Assumptions snapshot_request_keeps_quiesce.

Theorem refused_iff_paused : forall n sz, snd (node_step n (EvApiPropose sz)) = Some (negb (n_paused n)).
Proof. exact propose_answer. Qed.
Print Assumptions refused_iff_paused.

(* a refused proposal leaves no trace: it is in no queue and never reaches the log *)
Theorem refused_leaves_no_trace : forall n sz,
  snd (node_step n (EvApiPropose sz)) = Some false -> node_do n (EvApiPropose sz) = n.
Proof. intros n sz. unfold node_do. cbn [node_step]. destruct (n_paused n); [reflexivity|discriminate]. Qed.
Print Assumptions refused_leaves_no_trace.

Theorem over_limit_refuses : forall n sz,
  rl_enabled (n_rl n) = true -> rl_limited (n_rl n) = false ->
  (rl_tick_limited (n_rl n) = 0 \/ change_tick_threshold < rl_tick (n_rl n) - rl_tick_limited (n_rl n)) ->
  rl_max (n_rl n) < rl_size (n_rl n) ->
  n_paused (node_do n EvProposals) = true /\ snd (node_step (node_do n EvProposals) (EvApiPropose sz)) = Some false.
Proof. exact over_limit_refuses_proved. Qed.
Print Assumptions over_limit_refuses.

Theorem node_invariant : forall q e m, node_inv (node_new q e m) /\ forall n ev, node_inv n -> node_inv (node_do n ev).
Proof. intros q e m. split; [apply node_new_inv|exact node_step_inv]. Qed.
Print Assumptions node_invariant.

(* whatever happened before (node_inv holds in every reachable state): once the in-memory log
   has drained and the limiter clock ran for a while, the poll of handleProposals says "not
   limited", the queue is not paused, the next proposal is accepted *)
Theorem drained_node_accepts : forall n sz,
  node_inv n -> sane_max (rl_max (n_rl n)) -> n_queue n = [] ->
  drained (node_run n drain_events) /\ snd (node_step (node_run n drain_events) (EvApiPropose sz)) = Some true.
Proof. intros n sz Hi Hs Hq. split; [apply drained_node_accepts_proved; assumption|apply drained_accepts, drained_node_accepts_proved; assumption]. Qed.
Print Assumptions drained_node_accepts.

(* ... and it stays so for as long as the node is idle *)
Theorem drained_stays_while_idle : forall es m,
  sane_max (rl_max (n_rl m)) -> drained m -> forallb idle_event es = true -> drained (node_run m es).
Proof. exact drained_stays_while_idle_proved. Qed.
Print Assumptions drained_stays_while_idle.

Theorem request_outcome_rule : forall s h k,
  (sh_loss s = true -> request_class s h k = OT) /\
  (sh_loss s = false -> quorum_at s h = false -> request_class s h k = OF) /\
  (sh_loss s = false -> quorum_at s h = true -> progress_possible s h k = true -> request_class s h k = OC) /\
  (request_class s h k = OC -> sh_loss s = false /\ quorum_at s h = true).
Proof.
  intros s h k. unfold request_class.
  destruct (sh_loss s), (quorum_at s h), (progress_possible s h k); cbn [negb]; intuition congruence.
Qed.
Print Assumptions request_outcome_rule.

(* a request on a voter's host connected to a quorum completes in EVERY state - also when all
   replicas sleep and the leader is gone: the request wakes its replica, which campaigns *)
Theorem voter_request_completes : forall s h k,
  sh_loss s = false -> quorum_at s h = true -> origin_is_voter s h = true -> request_class s h k = OC.
Proof. intros s h k Hl Hq Ho. apply class_quorum; [exact Hl|exact Hq|apply voter_request_progresses, Ho]. Qed.
Print Assumptions voter_request_completes.

(* Quiesce off: in every state that any script of faults, membership changes, bursts ... reaches,
   every request on a host connected to a quorum completes *)
Theorem awake_shard_progresses : forall ops e m n h k,
  let s := shard_state (shard_init false e m n) ops in
  sh_loss s = false -> quorum_at s h = true -> request_class s h k = OC.
Proof. intros ops e m n h k. apply awake_progresses, shard_run_en, shard_init_en. Qed.
Print Assumptions awake_shard_progresses.

(* from every state: after a completed request every replica on its path is awake *)
Theorem completed_request_wakes : forall s h k r,
  in_component s h r = true -> unconditional_path s h k r = true ->
  n_quiesced (rp_node (complete_rep s h k (next_log s k) r)) = false.
Proof. intros s h k r Hc Hu. rewrite complete_rep_node by exact Hc. apply path_wakes, Hu. Qed.
Print Assumptions completed_request_wakes.

Theorem read_wakes_nonvoting_after_grace : forall s h r,
  in_component s h r = true -> unconditional_path s h KR r = false ->
  n_quiesced (rp_node r) = true -> q_wf (n_q (rp_node r)) ->
  q_election (n_q (rp_node r)) <= N.of_nat (grace_ticks s) ->
  n_quiesced (rp_node (complete_rep s h KR (next_log s KR) r)) = false.
Proof. intros s h r Hc Hu Hq Hw He. rewrite complete_rep_node by exact Hc. apply path_wakes_after_grace; assumption. Qed.
Print Assumptions read_wakes_nonvoting_after_grace.

(* holds by the definition of [fair]: when its probe completes, the model lets every running
   member apply everything *)
Theorem fair_period_converges : forall s, snd (fair s) = OC -> same_state (fst (fair s)) = true.
Proof. exact fair_period_converges_proved. Qed.
Print Assumptions fair_period_converges.

(* REFUTED by the faithful model (and by the code: findings/known.txt
   QUIESCED-RESTARTED-NONVOTING-BEHIND, witness corpus/R22/restarted_nonvoting_in_quiesced_shard.txt):
   "after an idle period every running reachable member has caught up". A non-voting replica
   that is restarted while every other replica sleeps hears nothing, knows no leader and never
   campaigns; it stays behind until the next request wakes the shard (then it catches up). *)
Theorem restarted_nonvoting_in_quiesced_shard_stays_behind_refuted :
  exists ops, let r := shard_run (shard_init true 30 0 3) ops in
    last (snd r) LPlain = LLag true /\ same_state (fst r) = false /\
    same_state (fst (fair (fst r))) = true.
Proof.
  exists [SAdd 1 4 k_nonvoting; SXfer 1; SStop 4; SP 2 3; SQuiesce; SStart 4; SLag 4].
  vm_compute. repeat split; reflexivity.
Qed.
Print Assumptions restarted_nonvoting_in_quiesced_shard_stays_behind_refuted.

(* three voters, quiesce on; leader pinned to 2, everything goes quiet, host 2 stops: the shard is
   quiesced, host 1 is connected to a quorum, a proposal on host 1 completes, everyone is awake *)
Example quiesced_shard_leader_gone :
  let s := shard_state (shard_init true 30 0 3) [SXfer 2; SQuiesce; SStop 2] in
  all_quiesced s = true /\ quorum_at s 1 = true /\ leader_live s 1 = false /\ some_awake_voter s 1 = false /\
  request_class s 1 KP = OC /\ all_awake (fst (apply_request s 1 KP)) = true.
Proof. vm_compute. repeat split; reflexivity. Qed.

(* without quorum: Dropped / Timeout *)
Example no_quorum_example :
  let s := shard_state (shard_init false 10 0 3) [SStop 2; SStop 3] in
  request_class s 1 KP = OF /\ request_class s 1 KR = OF /\ request_class s 1 KCC = OF.
Proof. vm_compute. repeat split; reflexivity. Qed.

(* the limiter engages on the host whose state machine is stopped, and through the RateLimit
   report of a stopped follower on the leader; after the drain nobody is limited *)
Example burst_example :
  snd (shard_run (shard_init false 10 16000 3) [SXfer 1; SGate 1 true; SBurst 1 4000 700; SGate 1 false; SDrain]) =
    [LXfer true; LPlain; LBurst true true; LPlain; LDrain false] /\
  snd (shard_run (shard_init false 10 16000 3) [SXfer 1; SGate 2 true; SBurst 1 4000 700; SGate 2 false; SDrain]) =
    [LXfer true; LPlain; LBurst true true; LPlain; LDrain false].
Proof.
  (* Only the part of a burst before it settles is evaluated: a host that refuses stays as it is
     (burst_node_settles), leader and gated follower only move their clocks (burst_rounds_settle).
     Evaluating all 4000 proposals is slow in a checker without a virtual machine. *)
  split.
  - eapply (shard_lines_via _ [SXfer 1; SGate 1 true] (SBurst 1 (24 + S 3975) 700) [SGate 1 false; SDrain]).
    + cbn [shard_step]. erewrite burst_gated_host by (vm_compute; reflexivity).
      erewrite burst_node_settles by (vm_compute; reflexivity). vm_compute. reflexivity.
    + vm_compute. reflexivity.
  - eapply (shard_lines_via _ [SXfer 1; SGate 2 true] (SBurst 1 4000 700) [SGate 2 false; SDrain]).
    + cbn [shard_step]. erewrite burst_gated_follower by (vm_compute; reflexivity).
      erewrite (burst_rounds_settle 3 496); [|vm_compute; reflexivity|reflexivity|reflexivity|apply N.leb_le; reflexivity].
      vm_compute. reflexivity.
    + vm_compute. reflexivity.
Qed.

Example drained_example :
  let n := fst (burst_node 100 (node_new false 10 16000) 700 false) in
  n_paused n = true /\ node_inv n /\ n_paused (node_run n drain_events) = false.
Proof.
  cbv zeta. erewrite (burst_node_settles 24 75) by (vm_compute; reflexivity). cbn [fst].
  split; [reflexivity|]. split; [|vm_compute; reflexivity]. split; [apply N.leb_le; reflexivity|constructor].
Qed.
