(* C02 — replica agreement. LOCAL half on the faithful L1 model (the commit rule, the follower
   append rule, the apply hand-out); the GLOBAL half (log_matching, state_machine_safety,
   committed_never_replaced over all interleavings) is Props/L2.v. Statements; the arguments are in Proofs/RaftLogLemmas.v. *)
From DB Require Import Model.RaftCore Proofs.RaftLogLemmas.
Open Scope N_scope.

(* tryCommit: a leader advances its commit index only to an index that (a) is beyond the old
   one, (b) holds an entry of the leader's CURRENT term, (c) has been reached by the match
   index of at least quorum() voting members (voters and witnesses; non-voting never) *)
Theorem try_commit_quorum :
  forall r, 0 < num_voting r -> snd (try_commit r) = true ->
    let c := l_committed (r_log (fst (try_commit r))) in
    l_committed (r_log r) < c /\ log_term (r_log r) c = r_term r /\
    (N.to_nat (quorum r) <= count_ge c (voting_matches r))%nat.
Proof. exact try_commit_quorum_proved. Qed.
Print Assumptions try_commit_quorum.

(* tryAppend on a follower never removes or replaces an entry at or below its commit index,
   whatever the Replicate message contains (the implementation panics instead) *)
Theorem follower_append_keeps_committed :
  forall l idx ents l' i, l_marker l <= l_committed l ->
    log_try_append l idx ents = Some l' -> i <= l_committed l ->
    ent_at l' i = ent_at l i /\ l_committed l' = l_committed l.
Proof.
  intros l idx ents l' i Hwf Ha Hi. unfold log_try_append in Ha.
  destruct (conflict_index l ents =? 0); [inversion Ha; subst; auto|].
  destruct (conflict_index l ents <=? l_committed l); [discriminate|].
  exact (log_append_keeps _ _ _ i Hwf Ha Hi).
Qed.
Print Assumptions follower_append_keeps_committed.

(* handling a Replicate never lowers the commit index *)
Theorem replicate_commit_monotone :
  forall r m, r_panic (handle_replicate_message r m) = false -> r_panic r = false ->
    l_committed (r_log r) <= l_committed (r_log (handle_replicate_message r m)).
Proof. intros r m H _. exact (replicate_commit_monotone_proved r m H). Qed.
Print Assumptions replicate_commit_monotone.

(* what GetUpdate hands out for apply: consecutive indexes starting right after what was
   already handed out, none beyond the commit index *)
Theorem apply_handout_gap_free_and_committed :
  forall l, wf_log l -> forall k e, nth_error (entries_to_apply l) k = Some e ->
    e_index e = N.max (l_processed l + 1) (log_first l) + N.of_nat k /\
    l_processed l < e_index e <= l_committed l.
Proof. exact apply_handout_gap_free_and_committed_proved. Qed.
Print Assumptions apply_handout_gap_free_and_committed.

(* a raft log query is answered from the committed part of the log only *)
Theorem log_query_committed_only : forall r m fi la err ents,
  r_log_query r = None ->
  r_log_query (handle_log_query r m) = Some (fi, la, err, ents) ->
  fi = log_first (r_log r) /\ la = l_committed (r_log r) + 1 /\
  (err = true -> ents = []) /\
  (err = false -> ents = [] \/
     (log_first (r_log r) <= m_from m <= l_committed (r_log r) /\
      ents = log_entries_range (r_log r) (m_from m) (N.min (m_to m) (l_committed (r_log r) + 1)))).
Proof. exact log_query_committed_only_proved. Qed.
Print Assumptions log_query_committed_only.

(* the unrolled sort used by tryCommit really sorts and keeps the multiset *)
Theorem match_array_sorted : forall l, sorted (sort_n l).
Proof. exact sort_sorted. Qed.
Print Assumptions match_array_sorted.
Theorem match_array_same_counts : forall q l, count_ge q (sort_n l) = count_ge q l.
Proof. exact count_ge_sort. Qed.
Print Assumptions match_array_same_counts.

(* non-vacuity: a 3-voter leader of term 2 whose own match is 5 and one follower acked 4
   commits exactly index 4 *)
Example commit_example :
  let ents := [mkEnt 1 1 0 0 0 0 0 []; mkEnt 1 2 0 0 0 0 0 []; mkEnt 2 3 0 0 0 0 0 [];
               mkEnt 2 4 0 0 0 0 0 []; mkEnt 2 5 0 0 0 0 0 []] in
  let r0 := new_raft 1 Follower 10 1 false false (mkLog 0 0 ents 2 2 5 None empty_snapshot) [1; 2; 3] [] [] (Some (2, 1, 2)) 12 in
  let r := r0 <| r_role := Leader |>
             <| r_remotes := [(1, new_remote 5 6); (2, new_remote 4 5); (3, new_remote 0 1)] |> in
  (snd (try_commit r), l_committed (r_log (fst (try_commit r)))) = (true, 4).
Proof. vm_compute. reflexivity. Qed.
