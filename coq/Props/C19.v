(* C19 — the raft core's view of its log always equals the logical log.
   Each theorem follows in a line or two from a lemma of Proofs/LogView.v: [run_init] (every
   well-formed run from a restart state ends in R) and what holds under R.

   Model/LogView.v is the faithful model (inMemory, entryLog, Peer.GetUpdate/Commit,
   raft.restore / handleReplicateMessage log parts, LogReader, abstract store);
   Model/LogSpec.v the logical log.  R (Proofs/LogView.v) is the invariant tying
   them together; [views_eq] is equality of ALL views: first/last index, term at
   every index, entries of every range with every size limit (including the error
   outcomes), entries to save, entries to apply, committed, processed.

   [ops : list op] ranges over EVERY constructor of the operation type: OAppend
   (leader/raw append), OReplicate (follower append with a conflict at any position),
   OCommitTo, OGetUpdate / OPersist / OCommit (Update/Commit cycle: savedLogTo,
   savedSnapshotTo, appliedLogTo, LogReader.ApplySnapshot/Append/SetRange, store
   save), ORestore (snapshot restore) and OCompact (LogReader.Compact + store
   removal, also beyond the in-memory marker).  [wf_init] is any restart state
   (marker, persisted entries, committed); [wf_ops] the negations of the panic
   guards stated on the logical log only (DESIGN Appendix C). *)
From Coq Require Import Lia.
From DB Require Import Base.Bytes Gen.GenC19 Model.LogSpec Model.LogView Proofs.LogView.
Open Scope N_scope.

(* For all well-formed operation sequences from every well-formed restart state the
   faithful model runs without error and ALL its views equal the logical log's. *)
Theorem logview_refines : forall skip rlon mi mt ents c limit ops,
  wf_init mi mt ents c = true ->
  wf_ops limit (sp_init mi mt ents c) ops = true ->
  exists w', run (w_init_opt skip rlon mi mt ents c limit) ops = Ok w' /\
             views_eq w' (sp_run limit (sp_init mi mt ents c) ops).
Proof.
  intros skip rlon mi mt ents c limit ops Hi Hwf.
  destruct (run_init skip rlon limit mi mt ents c ops Hi Hwf) as (w' & Hr & HR).
  exact (ex_intro _ w' (conj Hr (R_views _ _ HR))).
Qed.
Print Assumptions logview_refines.

(* None of the panics / error returns of inmemory.go, logentry.go, the log part of
   peer.go and logreader.go is reachable from well-formed operation sequences. *)
Theorem err_unreachable_under_wf : forall skip rlon mi mt ents c limit ops,
  wf_init mi mt ents c = true ->
  wf_ops limit (sp_init mi mt ents c) ops = true ->
  (forall t, run (w_init_opt skip rlon mi mt ents c limit) ops <> Panic t) /\
  (forall e, run (w_init_opt skip rlon mi mt ents c limit) ops <> Fail e).
Proof.
  intros skip rlon mi mt ents c limit ops Hi Hwf.
  destruct (run_init skip rlon limit mi mt ents c ops Hi Hwf) as (w' & -> & _). split; discriminate.
Qed.
Print Assumptions err_unreachable_under_wf.

(* Every index that counts as saved holds, in the persistent store, exactly the
   current entry of the logical log: an entry that was truncated and re-appended is
   persisted again before it is considered saved. *)
Theorem reappended_entry_saved_again : forall skip rlon mi mt ents c limit ops w',
  wf_init mi mt ents c = true ->
  wf_ops limit (sp_init mi mt ents c) ops = true ->
  run (w_init_opt skip rlon mi mt ents c limit) ops = Ok w' ->
  let sp' := sp_run limit (sp_init mi mt ents c) ops in
  forall i, sp_mi sp' < i -> i <= im_saved (el_im (w_el w')) ->
    exists e, st_get (w_st w') i = Some e /\ sp_get sp' i = Some e /\ e_index e = i.
Proof.
  intros skip rlon mi mt ents c limit ops w' Hi Hwf Hr sp' i.
  exact (R_saved_persisted w' sp' i (run_init_R skip rlon limit mi mt ents c ops w' Hi Hwf Hr)).
Qed.
Print Assumptions reappended_entry_saved_again.

(* In every reachable state GetUpdate succeeds (validateUpdate never fires), every
   entry it hands out for apply is the committed logical entry and is either already
   saved or handed out for persistence in the same update, and a FastApply update
   applies saved entries only. *)
Theorem apply_only_committed_and_handed_to_persist : forall skip rlon mi mt ents c limit ops w',
  wf_init mi mt ents c = true ->
  wf_ops limit (sp_init mi mt ents c) ops = true ->
  run (w_init_opt skip rlon mi mt ents c limit) ops = Ok w' ->
  let sp' := sp_run limit (sp_init mi mt ents c) ops in
  forall more la, exists ud, get_update w' more la = Ok ud /\
    (forall e, In e (ud_apply ud) ->
       e_index e <= el_committed (w_el w') /\ sp_get sp' (e_index e) = Some e /\
       (e_index e <= im_saved (el_im (w_el w')) \/ In e (ud_save ud))) /\
    (ud_fast ud = true -> forall e, In e (ud_apply ud) -> e_index e <= im_saved (el_im (w_el w'))).
Proof.
  intros skip rlon mi mt ents c limit ops w' Hi Hwf Hr sp'.
  exact (get_update_sound w' sp' (run_init_R skip rlon limit mi mt ents c ops w' Hi Hwf Hr)).
Qed.
Print Assumptions apply_only_committed_and_handed_to_persist.

(* With a real rate limiter under inMemory ([rlon]: MaxInMemLogSize set; the theorems
   above hold for both settings) what it has recorded is, in every reachable state,
   exactly pb.GetEntrySliceInMemSize of the in-memory entries. *)
Theorem rate_limiter_accounting_exact : forall skip rlon mi mt ents c limit ops w',
  wf_init mi mt ents c = true ->
  wf_ops limit (sp_init mi mt ents c) ops = true ->
  run (w_init_opt skip rlon mi mt ents c limit) ops = Ok w' ->
  forall n, im_rl (el_im (w_el w')) = Some n -> n = isize (im_ents (el_im (w_el w'))) mod 2 ^ 64.
Proof.
  intros skip rlon mi mt ents c limit ops w' Hi Hwf Hr.
  exact (r_rl _ _ (run_init_R skip rlon limit mi mt ents c ops w' Hi Hwf Hr)).
Qed.
Print Assumptions rate_limiter_accounting_exact.

(* Under the invariant R every view of the faithful model equals the logical
   log's; unconditional in the state. *)
Theorem logview_views_equal_under_invariant : forall w sp, R w sp -> views_eq w sp.
Proof. exact R_views. Qed.
Print Assumptions logview_views_equal_under_invariant.

(* In every state: merge() with a first new index at or below the last in-memory index
   leaves savedTo strictly below it. *)
Theorem merge_truncation_lowers_saved :
  forall im e0 rest im',
    im_merge im (e0 :: rest) = Ok im' ->
    e_index e0 <> 0 ->
    e_index e0 < im_marker im + nlen (im_ents im) ->
    im_saved im' < e_index e0.
Proof.
  intros im e0 rest im' H Hnz Hlt. rewrite (im_merge_saved _ _ _ _ H).
  destruct (e_index e0 =? _) eqn:E; [lia|]. destruct (e_index e0 <=? _); lia.
Qed.
Print Assumptions merge_truncation_lowers_saved.

(* In every state: savedLogTo only advances savedTo if index and term still match an
   in-memory entry. *)
Theorem saved_log_to_only_on_match :
  forall im i t im',
    im_saved_log_to im i t = Ok im' ->
    im' = im \/
    (exists e, nth_error (im_ents im) (N.to_nat (i - im_marker im)) = Some e /\ e_term e = t
               /\ im_marker im <= i /\ im' = im_with_saved im i).
Proof. exact saved_log_to_only_on_match_proved. Qed.
Print Assumptions saved_log_to_only_on_match.

(* The same three statements restricted to appends and commitTo ([core_op]): instances of the
   theorems above at skip = rlon = false. *)
Theorem logview_refines_partial : forall mi mt ents c limit ops,
  wf_init mi mt ents c = true -> forallb core_op ops = true ->
  wf_ops limit (sp_init mi mt ents c) ops = true ->
  exists w', run (w_init mi mt ents c limit) ops = Ok w' /\
             views_eq w' (sp_run limit (sp_init mi mt ents c) ops).
Proof. exact (fun mi mt ents c limit ops Hi _ => logview_refines false false mi mt ents c limit ops Hi). Qed.
Print Assumptions logview_refines_partial.

Theorem err_unreachable_under_wf_partial : forall mi mt ents c limit ops,
  wf_init mi mt ents c = true -> forallb core_op ops = true ->
  wf_ops limit (sp_init mi mt ents c) ops = true ->
  (forall t, run (w_init mi mt ents c limit) ops <> Panic t) /\
  (forall e, run (w_init mi mt ents c limit) ops <> Fail e).
Proof. exact (fun mi mt ents c limit ops Hi _ => err_unreachable_under_wf false false mi mt ents c limit ops Hi). Qed.
Print Assumptions err_unreachable_under_wf_partial.

Theorem reappended_entry_saved_again_partial : forall mi mt ents c limit ops w',
  wf_init mi mt ents c = true -> forallb core_op ops = true ->
  wf_ops limit (sp_init mi mt ents c) ops = true ->
  run (w_init mi mt ents c limit) ops = Ok w' ->
  let sp' := sp_run limit (sp_init mi mt ents c) ops in
  forall i, sp_mi sp' < i -> i <= im_saved (el_im (w_el w')) ->
    exists e, st_get (w_st w') i = Some e /\ sp_get sp' i = Some e /\ e_index e = i.
Proof. exact (fun mi mt ents c limit ops w' Hi _ => reappended_entry_saved_again false false mi mt ents c limit ops w' Hi). Qed.
Print Assumptions reappended_entry_saved_again_partial.

(* non-vacuity: a restart state with a marker and three persisted entries, then a
   sequence using EVERY constructor: a follower conflict above commit (index 8
   re-appended with term 3), two Update/Commit cycles with apply lag, a compaction
   beyond the in-memory marker (marker 8, compact to 10), a snapshot restore with
   its persistence, appends and commit advances.  It is well-formed and runs. *)
Example c19_witness_all_ops :
  let ents := [mkE 6 1 1 10; mkE 7 1 2 0; mkE 8 2 3 5] in
  let ops := [OReplicate 7 1 8 [mkE 8 3 4 0; mkE 9 3 5 1]; OGetUpdate true 5; OPersist; OCompact 5; OCommit;
              OAppend [mkE 10 3 6 0; mkE 11 3 7 0]; OCommitTo 11; OGetUpdate true 5; OPersist; OCommit; OCompact 10;
              OReplicate 11 3 11 [mkE 12 4 8 0]; OGetUpdate false 11; OPersist; OCommit;
              ORestore 20 4; OAppend [mkE 21 4 9 0]; OGetUpdate true 11; OPersist; OCompact 20; OCommit; OCommitTo 21] in
  wf_init 5 1 ents 6 = true /\ wf_ops 1000 (sp_init 5 1 ents 6) ops = true /\
  (match run (w_init 5 1 ents 6 1000) (firstn 11 ops) with
   | Ok w => im_marker (el_im (w_el w)) = 8 /\ lr_marker (w_lr w) = 10 /\ el_first (w_el w) (w_lr w) = 11
   | _ => False end) /\
  (match run (w_init 5 1 ents 6 1000) (firstn 1 ops) with
   | Ok w => el_to_save (w_el w) = [mkE 8 3 4 0; mkE 9 3 5 1] /\ im_saved (el_im (w_el w)) = 7
   | _ => False end) /\
  (match run (w_init 5 1 ents 6 1000) ops with
   | Ok w => el_last (w_el w) (w_lr w) = 21 /\ el_committed (w_el w) = 21 /\ el_to_save (w_el w) = []
   | _ => False end) /\
  (match run (w_init_rl true 5 1 ents 6 1000) (firstn 7 ops) with
   | Ok w => im_rl (el_im (w_el w)) = Some (4 * 80 + 1)
   | _ => False end).
Proof. vm_compute. repeat split; reflexivity. Qed.

Example merge_truncation_witness :
  exists im', im_merge (mkIM None [mkE 5 1 0 0; mkE 6 1 0 0; mkE 7 1 0 0] 7 5 0 0 None) [mkE 6 2 0 0] = Ok im'
              /\ im_saved im' = 5.
Proof. eexists. vm_compute. split; reflexivity. Qed.

(* Observation (necessity of the cycle hypothesis in wf_ops, replayed on the real code
   as corpus/C19/edge.txt case e2): if the log is truncated between GetUpdate and its
   Commit, twice, the stale acknowledgements are dropped (term mismatch) but
   appliedLogTo still moves markerIndex past savedTo+1; entriesToSave's unsigned
   idx-markerIndex then wraps and it returns NOTHING although entries 5 and 6 are
   not persisted.  Not reachable through the engine: GetUpdate..Commit of a node
   run inside one step-worker iteration with no raft.Handle in between. *)
Example lagging_commit_strands_unsaved_entries :
  let e i t k := mkE i t k 0 in
  let ops := [OAppend [e 1 1 1; e 2 1 2; e 3 1 3; e 4 1 4; e 5 1 5]; OCommitTo 3; OGetUpdate true 0;
              OReplicate 4 1 3 [e 5 2 6]; OPersist; OCommit; OGetUpdate true 3;
              OReplicate 4 1 3 [e 5 3 7]; OPersist; OCommit; OAppend [e 6 3 8]] in
  match run (w_init 0 0 [] 0 1000) ops with
  | Ok w => el_to_save (w_el w) = [] /\ im_saved (el_im (w_el w)) = 0 /\ el_last (w_el w) (w_lr w) = 6
            /\ wf_ops 1000 (sp_init 0 0 [] 0) ops = false
  | _ => False end.
Proof. vm_compute. repeat split; reflexivity. Qed.
