(* R17T - transport sub-check of C17: a message handed to Transport.Send and accepted is
   either delivered, or dropped together with a failed connection (each failure also counts
   one Unreachable report; no theorem ties the two counts), or still queued; it never sits in a
   registered queue that no worker drains. [sq_run unreg ops] ranges over all sequences of the
   model's four operations for one target: sends, worker deliveries, connection failures and
   idle time-outs of an empty queue that unregister in the same step. A send that falls between
   the worker's return (idle or shutdown) and its unregistration is not modelled. *)
From Coq Require Import NArith List Bool Permutation.
From DB Require Import Gen.GenR17T Model.SendQueue Proofs.SendQueue.
Import ListNotations.
Open Scope N_scope.

Theorem send_worker_unregisters_on_every_exit : send_worker_always_unregisters = true.
Proof. reflexivity. Qed.
Print Assumptions send_worker_unregisters_on_every_exit.

Theorem never_orphaned : forall ops, orphaned (sq_run send_worker_always_unregisters ops) = false.
Proof.
  rewrite send_worker_unregisters_on_every_exit. intros ops.
  destruct (sq_run_inv ops sq_init sq_init_inv) as [[Hw _] _]. unfold orphaned, sq_run. rewrite Hw. apply andb_negb_r.
Qed.
Print Assumptions never_orphaned.

Theorem queued_has_consumer : forall ops,
  sq_queue (sq_run send_worker_always_unregisters ops) <> [] -> sq_worker (sq_run send_worker_always_unregisters ops) = true.
Proof.
  rewrite send_worker_unregisters_on_every_exit. intros ops Hne.
  destruct (sq_run_inv ops sq_init sq_init_inv) as [[Hw Hq] _]. unfold sq_run in *. rewrite Hw.
  destruct (sq_registered _); [reflexivity|]. destruct (Hne (Hq eq_refl)).
Qed.
Print Assumptions queued_has_consumer.

Theorem accepted_accounted : forall ops,
  Permutation (sq_delivered (sq_run send_worker_always_unregisters ops) ++ sq_lost (sq_run send_worker_always_unregisters ops) ++
               sq_queue (sq_run send_worker_always_unregisters ops)) (sent ops).
Proof. rewrite send_worker_unregisters_on_every_exit. intros ops. exact (proj2 (sq_run_inv ops sq_init sq_init_inv)). Qed.
Print Assumptions accepted_accounted.

(* REFUTED: "unregistering on failed connections only is enough". A graceful (idle) exit then leaves
   an orphaned queue: later sends are accepted, never delivered, and nothing is reported *)
Theorem idle_exit_orphans_refuted :
  exists ops, orphaned (sq_run false ops) = true /\
    forall more, let s := fold_left (sq_step false) (map SSend more ++ [SDeliver; SDeliver]) (sq_run false ops) in
      sq_delivered s = sq_delivered (sq_run false ops) /\ sq_unreachable s = 0.
Proof. exact Proofs.SendQueue.idle_exit_orphans_refuted. Qed.
Print Assumptions idle_exit_orphans_refuted.
