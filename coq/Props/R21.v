(* R21 - role restrictions at the NodeHost API and event level (sub-check of C18 and C03).
   C18: whatever a witness host is asked through the NodeHost API, in every state of host and
   shard, the request is refused and enters no request table; config validation refuses a
   witness that could snapshot; what a witness persists carries no payload.
   C03: given election safety of the raft core (the hypothesis is named after C03's theorem
   Props/L2.v election_safety) and given that a replica follows l in term t only on a message
   that l sent as leader of term t (leader_messages_from_leaders, proved nowhere), no two
   listeners and no GetLeaderID are ever told two different leaders for one term. *)
From Coq Require Import List NArith Bool.
From DB Require Import Gen.GenR21 Model.RoleApi Model.LeaderReport Proofs.RoleApi Proofs.LeaderReport.
Import ListNotations.
Open Scope N_scope.

(* tie G: the guards stand where the model puts them *)
Theorem source_has_every_witness_guard :
  src_guards = mkGuards true true true true true true true true true true /\
  src_is_witness_is_config_flag = true /\ src_rsm_save_panics_on_witness = true.
Proof. repeat split; reflexivity. Qed.
Print Assumptions source_has_every_witness_guard.

Theorem source_validates_witness_config :
  src_validate_witness_no_snapshot = true /\ src_validate_witness_not_nonvoting = true /\ src_new_raft_validates = true.
Proof. repeat split; reflexivity. Qed.
Print Assumptions source_validates_witness_config.

Theorem source_report_path_copies_fields :
  src_set_leader_id_straight = true /\ src_event_fields_straight = true /\ src_listener_pump_straight = true /\
  src_process_leader_update_straight = true /\ src_get_leader_id_straight = true.
Proof. repeat split; reflexivity. Qed.
Print Assumptions source_report_path_copies_fields.

(* every request kind, every state of host and shard: a witness never gets its request accepted *)
Theorem witness_request_refused : forall st a, a <> Compaction -> api_verdict src_guards Witness st a <> Accepted.
Proof. exact witness_refused_proved. Qed.
Print Assumptions witness_request_refused.

(* ... and nothing enters a request table (RequestCompaction included) *)
Theorem witness_never_enqueues : forall st a, api_enqueues src_guards Witness st a = None.
Proof. exact witness_never_enqueues_proved. Qed.
Print Assumptions witness_never_enqueues.

(* ... and the API goroutine never reaches the user state machine *)
Theorem witness_never_reaches_lookup : forall st a, api_calls_lookup src_guards Witness st a = false.
Proof. exact witness_never_reaches_lookup_proved. Qed.
Print Assumptions witness_never_reaches_lookup.

(* the verdict a running witness gives: ErrInvalidOperation, except where an argument check
   comes first, and a panic for a registered session handed to Propose *)
Theorem witness_ready_verdict : forall a, api_verdict src_guards Witness HReady a = witness_expected a.
Proof. rewrite src_guards_all. intros a. all_cases; reflexivity. Qed.
Print Assumptions witness_ready_verdict.

(* in every state the refusal is ErrInvalidOperation, the panic, or the error any replica
   gets in that state (closed, not found, not ready, bad argument) *)
Theorem witness_refused_in_every_state : forall st a, a <> Compaction ->
  api_verdict src_guards Witness st a = ErrInvalidOperation \/ api_verdict src_guards Witness st a = Panics \/
  api_verdict src_guards Witness st a = api_verdict src_guards Voter st a.
Proof. rewrite src_guards_all. intros st a Ha. all_cases; cbv; auto; congruence. Qed.
Print Assumptions witness_refused_in_every_state.

Theorem nonvoting_as_voter : forall g st a, api_verdict g NonVoting st a = api_verdict g Voter st a.
Proof. intros g st a. destruct a, st; reflexivity. Qed.
Print Assumptions nonvoting_as_voter.

Theorem nonvoting_served : forall a, args_ok a = true -> a <> Compaction ->
  api_verdict src_guards NonVoting HReady a = Accepted /\ api_enqueues src_guards NonVoting HReady a = table_of a.
Proof. rewrite src_guards_all. intros a Hok Ha. all_cases; cbv in Hok |- *; try discriminate; try congruence; auto. Qed.
Print Assumptions nonvoting_served.

(* REFUTED: "a witness is refused whatever guards the source has". The guards are what refuses:
   without them every well-formed request of a witness is accepted *)
Theorem witness_accepted_without_guards_refuted : forall a, args_ok a = true -> a <> Compaction ->
  api_verdict no_guards Witness HReady a = Accepted.
Proof. intros a Hok Ha. all_cases; cbv in Hok |- *; try discriminate; try congruence; auto. Qed.
Print Assumptions witness_accepted_without_guards_refuted.

Theorem witness_config_refused : forall c, sc_witness c = true ->
  (0 < sc_snapshot_entries c \/ sc_nonvoting c = true) -> src_start_replica c = StartRefused.
Proof. intros c Hw H. rewrite witness_start by exact Hw. destruct H as [H|H]; [apply N.ltb_lt in H|]; rewrite H, ?orb_true_r; reflexivity. Qed.
Print Assumptions witness_config_refused.

Theorem running_witness_never_snapshots : forall c, sc_witness c = true ->
  src_start_replica c = Started -> auto_snapshot_possible c = false.
Proof. intros c Hw. rewrite witness_start by exact Hw. unfold auto_snapshot_possible. destruct (0 <? sc_snapshot_entries c); [discriminate|reflexivity]. Qed.
Print Assumptions running_witness_never_snapshots.

(* every input: whatever batches of entries leaders have for a witness, in any order and with
   any overlap, nothing the witness persists carries a payload *)
Theorem witness_persists_no_payload : forall batches,
  Forall (fun e => carries_payload e = false) (witness_store batches) /\ payload_entries (witness_store batches) = 0.
Proof. exact witness_persists_no_payload_proved. Qed.
Print Assumptions witness_persists_no_payload.

Theorem no_payload_is_metadata_or_membership_change : forall e, carries_payload e = false ->
  e_type e = et_ConfigChangeEntry \/
  (e_type e = et_MetadataEntry /\ e_cmd e = [] /\ e_key e = 0 /\ e_client e = 0 /\ e_series e = 0 /\ e_resp e = 0).
Proof. exact no_payload_means. Qed.
Print Assumptions no_payload_is_metadata_or_membership_change.

Theorem witness_snapshot_has_no_file : forall s,
  ss_has_file (make_witness_snapshot s) = false /\ ss_witness (make_witness_snapshot s) = true /\
  ss_dummy (make_witness_snapshot s) = false /\ ss_index (make_witness_snapshot s) = ss_index s /\
  ss_term (make_witness_snapshot s) = ss_term s.
Proof. intros []. repeat split. Qed.
Print Assumptions witness_snapshot_has_no_file.

Theorem at_most_one_reported_leader_per_term : forall tr
  (election_safety : forall i j t, In (i, RBecomeLeader t) tr -> In (j, RBecomeLeader t) tr -> i = j)
  (leader_messages_from_leaders : forall i t l, In (i, RFollow t l) tr -> In (l, RBecomeLeader t) tr)
  ids r1 r2,
  In r1 (all_reports ids tr) -> In r2 (all_reports ids tr) -> rp_term r1 = rp_term r2 ->
  rp_leader r1 <> 0 -> rp_leader r2 <> 0 -> rp_leader r1 = rp_leader r2.
Proof. exact at_most_one_reported_leader_per_term_proved. Qed.
Print Assumptions at_most_one_reported_leader_per_term.

(* the same as the boolean the harness's monitor computes *)
Theorem one_leader_named_per_term : forall tr
  (election_safety : forall i j t, In (i, RBecomeLeader t) tr -> In (j, RBecomeLeader t) tr -> i = j)
  (leader_messages_from_leaders : forall i t l, In (i, RFollow t l) tr -> In (l, RBecomeLeader t) tr)
  ids t, one_leader_named t (all_reports ids tr) = true.
Proof. exact one_leader_named_proved. Qed.
Print Assumptions one_leader_named_per_term.

Theorem get_leader_id_never_contradicts_reports : forall tr
  (election_safety : forall i j t, In (i, RBecomeLeader t) tr -> In (j, RBecomeLeader t) tr -> i = j)
  (leader_messages_from_leaders : forall i t l, In (i, RFollow t l) tr -> In (l, RBecomeLeader t) tr)
  ids i l t r,
  In i ids -> get_leader_id (replica_state tr i) = (l, t, true) ->
  In r (all_reports ids tr) -> rp_term r = t -> rp_leader r <> 0 -> rp_leader r = l.
Proof. exact get_leader_id_never_contradicts_reports_proved. Qed.
Print Assumptions get_leader_id_never_contradicts_reports.

(* one replica, no hypothesis: once the engine has taken its last update, GetLeaderID on its
   host returns what its listener was told last *)
Theorem get_leader_id_agrees_with_last_report : forall id evs r,
  last_report (rrun id (evs ++ [REngine])) = Some r -> rp_term r <> 0 ->
  get_leader_id (rrun id (evs ++ [REngine])) = (rp_leader r, rp_term r, negb (rp_leader r =? 0)).
Proof. exact get_leader_id_agrees_with_last_report_proved. Qed.
Print Assumptions get_leader_id_agrees_with_last_report.

(* with C18's only_voters_campaign_or_lead as hypothesis: a witness or non-voting member is
   never reported as leader *)
Theorem reported_leader_is_a_voter : forall tr
  (leader_messages_from_leaders : forall i t l, In (i, RFollow t l) tr -> In (l, RBecomeLeader t) tr)
  (is_voter : N -> bool)
  (only_voters_campaign_or_lead : forall i t, In (i, RBecomeLeader t) tr -> is_voter i = true)
  ids r, In r (all_reports ids tr) -> rp_leader r <> 0 -> is_voter (rp_leader r) = true.
Proof. intros tr Hm is_voter Hv ids r H Hl. exact (Hv _ _ (report_names_a_leader tr Hm ids r H Hl)). Qed.
Print Assumptions reported_leader_is_a_voter.

Theorem two_leaders_are_both_reported_refuted : exists tr, one_leader_named 5 (all_reports [1; 2] tr) = false.
Proof. exists [(1, RBecomeLeader 5); (2, RBecomeLeader 5)]. reflexivity. Qed.
Print Assumptions two_leaders_are_both_reported_refuted.

Example witness_table : map (api_verdict src_guards Witness HReady)
    [Propose true; Propose false; ProposeSession; ReadIndex; StaleRead; Snapshot true true false;
     Snapshot false false false; LeaderTransfer true; QueryLog true; QueryLog false; ConfigChange false false; Compaction] =
  [ErrInvalidOperation; Panics; ErrInvalidOperation; ErrInvalidOperation; ErrInvalidOperation; ErrInvalidOperation;
   ErrInvalidOption; ErrInvalidOperation; ErrInvalidOperation; ErrInvalidRange; ErrInvalidOperation; Free].
Proof. vm_compute. reflexivity. Qed.

Example nonvoting_table : map (api_verdict src_guards NonVoting HReady)
    [Propose false; ReadIndex; StaleRead; Snapshot true true false; LeaderTransfer false; ConfigChange false false] =
  [Accepted; Accepted; Accepted; ErrDirNotExist; ErrInvalidTarget; ErrInvalidAddress].
Proof. vm_compute. reflexivity. Qed.

Example one_guard_dropped :
  api_verdict (mkGuards false true true true true true true true true true) Witness HReady (Propose true) = Accepted /\
  api_enqueues (mkGuards false true true true true true true true true true) Witness HReady (Propose true) = Some TProposals.
Proof. vm_compute. auto. Qed.

Example witness_store_example :
  let app i := mkEnt 2 i et_ApplicationEntry 77 5 6 0 [1; 2; 3] in
  let cc i := mkEnt 2 i et_ConfigChangeEntry 9 0 0 0 [4] in
  witness_store [[app 1; app 2; cc 3]; [app 3; app 4]] =
  [mkEnt 2 1 et_MetadataEntry 0 0 0 0 []; mkEnt 2 2 et_MetadataEntry 0 0 0 0 [];
   mkEnt 2 3 et_MetadataEntry 0 0 0 0 []; mkEnt 2 4 et_MetadataEntry 0 0 0 0 []] /\
  payload_entries [app 1; cc 2] = 1.
Proof. vm_compute. auto. Qed.

(* an election, a deposed leader that hears of the new one, the engine cycles in between *)
Example report_example :
  let tr := [(1, RNoLeader 1); (1, RBecomeLeader 1); (2, RFollow 1 1); (2, REngine); (1, REngine);
             (2, RNoLeader 2); (2, RBecomeLeader 2); (2, REngine); (1, RFollow 2 2); (1, REngine)] in
  all_reports [1; 2] tr =
    [mkReport 1 1 0; mkReport 1 1 1; mkReport 1 2 2; mkReport 2 1 1; mkReport 2 2 0; mkReport 2 2 2] /\
  get_leader_id (replica_state tr 1) = (2, 2, true) /\ get_leader_id (replica_state tr 2) = (2, 2, true) /\
  one_leader_named 1 (all_reports [1; 2] tr) = true /\ one_leader_named 2 (all_reports [1; 2] tr) = true.
Proof. vm_compute. auto 10. Qed.
