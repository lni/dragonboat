(* C06 — ReadIndex never returns a stale index. LOCAL half on the faithful L1 model: what a
   leader records, what it takes to release a read, what reset (run at every role or term change) discards.
   The global statement (released index >= every commit index at request time) needs
   leader_completeness (Props/L2.v); the cluster monitor checks it on every simulated run. *)
From DB Require Import Model.RaftCore Proofs.RaftReadIndex.
Open Scope N_scope.

Theorem confirm_release_sound :
  forall r ctx from q r' ris, ri_confirm r ctx from q = (r', ris) -> ris <> [] ->
  exists before rs after,
    r_reads r = before ++ rs :: after /\ ctx_eqb (rs_ctx rs) ctx = true /\
    q <= nlen (if mem_n from (rs_confirmed rs) then rs_confirmed rs else from :: rs_confirmed rs) + 1 /\
    map rs_ctx ris = map rs_ctx (before ++ [rs]) /\
    Forall (fun v => rs_index v = rs_index rs) ris /\
    (r_panic r' = r_panic r -> Forall (fun v => rs_index v <= rs_index rs) before) /\
    r_reads r' = after.
Proof. exact confirm_release_sound_proved. Qed.
Print Assumptions confirm_release_sound.

Theorem read_refused_before_own_term_commit :
  forall r m, is_single_node_quorum r = false -> has_committed_entry_at_current_term r = false ->
    r_reads (handle_leader_read_index r m) = r_reads r /\
    r_ready (handle_leader_read_index r m) = r_ready r /\
    (forall x, In x (r_msgs (handle_leader_read_index r m)) -> In x (r_msgs r)).
Proof. exact read_refused_before_own_term_commit_proved. Qed.
Print Assumptions read_refused_before_own_term_commit.

Theorem read_recorded_with_commit_index :
  forall r m, is_leader r = true -> is_single_node_quorum r = false -> amem (m_from m) (r_witnesses r) = false ->
    r_term r <> 0 -> has_committed_entry_at_current_term r = true ->
    existsb (fun rs => ctx_eqb (rs_ctx rs) (m_hint m, m_hinthigh m)) (r_reads r) = false ->
    (match r_reads r with [] => True | _ => rs_index (last (r_reads r) (mkRS (0,0) 0 0 [])) <= l_committed (r_log r) end) ->
    exists r1, r1 = ri_add_request r (l_committed (r_log r)) (m_hint m, m_hinthigh m) (m_from m) /\
               r_reads r1 = r_reads r ++ [mkRS (m_hint m, m_hinthigh m) (l_committed (r_log r)) (m_from m) []] /\
               handle_leader_read_index r m = broadcast_heartbeat_hint r1 (m_hint m, m_hinthigh m).
Proof.
  intros r m Hl Hs Hw Ht Hc Hnew Hmono. eexists. split; [reflexivity|]. split; [exact (ri_add_request_reads _ _ _ _ Hnew Hmono)|].
  unfold handle_leader_read_index. rewrite Hl, Hw, Hs, Hc. destruct (N.eqb_spec (r_term r) 0); [contradiction|reflexivity].
Qed.
Print Assumptions read_recorded_with_commit_index.

Theorem reset_discards_pending_reads : forall r t b, r_reads (reset r t b) = [].
Proof. intros r t b. unfold reset. destruct (negb _); destruct b; reflexivity. Qed.
Print Assumptions reset_discards_pending_reads.

Theorem single_node_read_index :
  forall r m, is_leader r = true -> is_single_node_quorum r = true -> amem (m_from m) (r_witnesses r) = false ->
    exists rest, r_ready (handle_leader_read_index r m) = r_ready r ++ [(l_committed (r_log r), (m_hint m, m_hinthigh m))] /\
                 r_reads (handle_leader_read_index r m) = r_reads r /\ rest = tt.
Proof.
  intros r m Hl Hs Hw. exists tt. unfold handle_leader_read_index. rewrite Hl, Hw, Hs. cbn [negb].
  destruct (_ && _); rewrite ?(proj1 (send_ready_reads _ _)), ?(proj2 (send_ready_reads _ _)); repeat split; reflexivity.
Qed.
Print Assumptions single_node_read_index.

(* non-vacuity: a confirmation from one of two followers releases the queue of a 3-voter leader *)
Example confirm_example :
  let r0 := new_raft 1 Follower 10 1 false false (mkLog 0 0 [] 0 0 0 None empty_snapshot) [1; 2; 3] [] [] None 12 in
  let r := r0 <| r_reads := [mkRS (7, 1) 4 0 []; mkRS (8, 1) 6 2 []] |> in
  map rs_index (snd (ri_confirm r (8, 1) 3 2)) = [6; 6].
Proof. vm_compute. reflexivity. Qed.
