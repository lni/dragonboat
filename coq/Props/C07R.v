(* C07 — raft side (local) of "membership changes take effect one at a time": statements on the
   faithful L1 model. The global statements (election safety and agreement across every
   sequence of single-server changes, one unapplied change in a leader's log, no campaign with
   unapplied entries) are the stage-3 theorems of Props/L2.v, counted by the C07 check. *)
From DB Require Import Model.RaftCore Proofs.RaftConfigChange.
Open Scope N_scope.

Theorem propose_admits_one_cc :
  forall r ents,
    count_cc (snd (propose_scan r ents [])) <= (if r_pending_cc r then 0 else 1) /\
    r_pending_cc (fst (propose_scan r ents [])) = r_pending_cc r || existsb is_cc ents.
Proof.
  intros r ents. destruct (propose_scan_out ents r []) as [H1 H2]. rewrite H1, H2.
  split; [apply scan_out_count|reflexivity].
Qed.
Print Assumptions propose_admits_one_cc.

Theorem no_campaign_with_unapplied :
  forall r m, is_leader r = false -> r_applied r < l_committed (r_log r) -> handle_node_election r m = r.
Proof.
  intros r m Hl Ha. unfold handle_node_election, has_config_change_to_apply, gen_hasConfigChangeToApply.
  rewrite Hl. apply N.ltb_lt in Ha. rewrite Ha. reflexivity.
Qed.
Print Assumptions no_campaign_with_unapplied.

Theorem apply_clears_pending :
  forall r m, r_panic (handle_node_config_change r m) = false ->
    m_hinthigh m = cc_AddNonVoting \/ m_hinthigh m = cc_AddWitness \/ m_reject m = true ->
    r_pending_cc (handle_node_config_change r m) = false.
Proof. intros r m _ H. apply apply_clears_pending_proved. right. exact H. Qed.
Print Assumptions apply_clears_pending.

(* non-vacuity: a leader with a pending change replaces a second one by an empty entry *)
Example second_cc_replaced :
  let r0 := new_raft 1 Follower 10 1 false false (mkLog 0 0 [] 0 0 0 None empty_snapshot) [1] [] [] None 12 in
  let r := r0 <| r_pending_cc := true |> in
  map e_type (snd (propose_scan r [mkEnt 0 0 et_ConfigChangeEntry 9 0 0 0 [1]] [])) = [et_ApplicationEntry].
Proof. vm_compute. reflexivity. Qed.
