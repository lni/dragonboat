(* C05 — client sessions give at-most-once application of retried proposals.
   Statements; each theorem is closed by a lemma of Proofs/Session.v (or
   Proofs/ClientSession.v) or derived from one in a few lines. The user state machine is arbitrary: every statement is
   quantified over its state type S, its result type and its Update function. *)
From DB Require Import Base.Bytes Gen.GenC05 Model.Session Proofs.Session Model.ClientSession Proofs.ClientSession Proofs.SessionSource.
From Coq Require Import Sorted.
Open Scope N_scope.

(* in every reachable state every cached series id is above the acknowledged
   watermark; therefore Session.clearTo's `to == RespondedUpTo+1` shortcut
   (delete one key) equals the general rule (drop every key <= to) *)
Theorem history_above_watermark :
  forall (S result : Type) (sm_update : S -> bytes -> S * result) cap (s0 : S) es s,
  In s (t_list (st_tab (run_state sm_update (init_state cap s0) es))) ->
  (forall k r, In (k, r) (s_history s) -> s_responded s < k) /\
  (forall to, clear_to s to = clear_to_spec s to).
Proof.
  intros S result sm_update cap s0 es s H.
  destruct (run_inv sm_update es _ (init_inv cap s0)) as [_ HA].
  rewrite Forall_forall in HA. specialize (HA _ H). split; [|intros; now apply clear_to_exact].
  intros k r Hk. exact (proj1 (Forall_forall _ _) HA _ Hk).
Qed.
Print Assumptions history_above_watermark.

(* a proposal of a client without a session (never registered, unregistered or
   evicted) is Rejected and neither the user state machine nor the table changes *)
Theorem unknown_session_rejected_untouched :
  forall (S result : Type) (sm_update : S -> bytes -> S * result) (st : @state S result) e,
  classify e = KUpdate -> lookup (e_client e) st = None ->
  step sm_update st e = (st, ORejected).
Proof. exact @unknown_session_rejected_untouched_proved. Qed.
Print Assumptions unknown_session_rejected_untouched.

(* the user state machine is invoked exactly at OApplied outcomes (with the
   entry's command; the reported result is what it returned); every other
   outcome leaves its state untouched; session-managed entries never reach an
   internal assertion (panic) *)
Theorem sm_touched_only_when_applied :
  forall (S result : Type) (sm_update : S -> bytes -> S * result) (st : @state S result) e (st' : @state S result) o,
  step sm_update st e = (st', o) ->
  (st_sm st' = st_sm st /\ (forall r, o <> OApplied r) /\ (o = OPanic -> classify e = KBadUnmanaged)) \/
  (exists r, o = OApplied r /\ sm_update (st_sm st) (e_cmd e) = (st_sm st', r) /\
             (classify e = KUpdate \/ classify e = KNoopSession)).
Proof. exact @sm_touched_only_when_applied_proved. Qed.
Print Assumptions sm_touched_only_when_applied.

(* AT MOST ONCE, over ALL entry streams (any number of clients, more clients than
   the LRU capacity, every duplicate placement, special and boundary ids, any
   capacity, any user state machine): the invocations of the user state machine
   caused by session-managed proposals, tagged (client id, registration epoch of
   that client id, series id), contain no duplicate. [sm_calls_tagged] lists one
   tag per OApplied outcome of a KUpdate entry ([tagged_calls_complete]). *)
Theorem at_most_once :
  forall (S result : Type) (sm_update : S -> bytes -> S * result) cap (s0 : S) es,
  NoDup (sm_calls_tagged sm_update cap s0 es).
Proof.
  intros S result sm_update cap s0 es.
  unfold sm_calls_tagged. apply tagged_calls_fresh with (tr := []); [apply init_inv|].
  split; [intros ? ? ? []|intros ? _ ? []].
Qed.
Print Assumptions at_most_once.

Theorem tagged_calls_complete :
  forall (S result : Type) (sm_update : S -> bytes -> S * result) es (st : @state S result) ep,
  length (tagged_calls sm_update ep st es) =
  length (filter (fun p => match snd p, classify (fst p) with OApplied _, KUpdate => true | _, _ => false end)
                 (combine es (snd (run sm_update st es)))).
Proof. exact @tagged_calls_complete_proved. Qed.
Print Assumptions tagged_calls_complete.

(* a retry (same client, same series id, not yet acknowledged) of a proposal that
   was applied with result r is answered with r from the session cache, without
   invoking the user state machine — whatever other entries (es) were applied in
   between, as long as the session stayed registered *)
Theorem retry_returns_cached :
  forall (S result : Type) (sm_update : S -> bytes -> S * result) (st : @state S result) e r st1 es e',
  inv st -> classify e = KUpdate -> step sm_update st e = (st1, OApplied r) ->
  present_along sm_update (e_client e) st1 es ->
  Forall (fun x => classify x = KUpdate -> e_client x = e_client e -> e_responded x < e_series e) es ->
  classify e' = KUpdate -> e_client e' = e_client e -> e_series e' = e_series e ->
  e_responded e' < e_series e ->
  exists st', step sm_update (run_state sm_update st1 es) e' = (st', OCached r) /\
              st_sm st' = st_sm (run_state sm_update st1 es).
Proof. exact @retry_returns_cached_proved. Qed.
Print Assumptions retry_returns_cached.

(* [inv], the hypothesis of retry_returns_cached, acknowledged_duplicate_ignored and
   evicted_session_rejected, holds in every reachable state *)
Theorem inv_reachable :
  forall (S result : Type) (sm_update : S -> bytes -> S * result) cap (s0 : S) es,
  inv (run_state sm_update (init_state cap s0) es).
Proof. intros. apply run_inv, init_inv. Qed.
Print Assumptions inv_reachable.

(* every proposal of a registered client records its RespondedTo *)
Theorem acknowledgement_recorded :
  forall (S result : Type) (sm_update : S -> bytes -> S * result) (st : @state S result) e,
  inv st -> classify e = KUpdate -> lookup (e_client e) st <> None ->
  acked (e_client e) (e_responded e) (fst (step sm_update st e)).
Proof. intros S result sm_update st e _. apply acknowledgement_recorded_proved. Qed.
Print Assumptions acknowledgement_recorded.

(* once an acknowledgement >= k is recorded, a late duplicate with series id <= k
   is ignored (no result, user state machine untouched), whatever was applied in
   between, as long as the session stayed registered *)
Theorem acknowledged_duplicate_ignored :
  forall (S result : Type) (sm_update : S -> bytes -> S * result) (st : @state S result) c k es e,
  inv st -> acked c k st -> present_along sm_update c st es ->
  classify e = KUpdate -> e_client e = c -> e_series e <= k ->
  exists st', step sm_update (run_state sm_update st es) e = (st', OIgnored) /\
              st_sm st' = st_sm (run_state sm_update st es).
Proof. exact @acknowledged_duplicate_ignored_proved. Qed.
Print Assumptions acknowledged_duplicate_ignored.

(* eviction: registering a new client in a full table drops exactly the least
   recently used session; its later proposals are rejected and change nothing *)
Theorem evicted_session_rejected :
  forall (S result : Type) (sm_update : S -> bytes -> S * result) (st : @state S result) e l v,
  inv st -> t_list (st_tab st) = l ++ [v] ->
  N.of_nat (length (l ++ [v])) = t_cap (st_tab st) ->
  classify e = KRegister -> lookup (e_client e) st = None ->
  exists st1, step sm_update st e = (st1, ORegistered (e_client e)) /\
    t_list (st_tab st1) = new_session (e_client e) :: l /\
    lookup (s_client v) st1 = None /\
    forall e', classify e' = KUpdate -> e_client e' = s_client v -> step sm_update st1 e' = (st1, ORejected).
Proof. exact @evicted_session_rejected_proved. Qed.
Print Assumptions evicted_session_rejected.

(* the table invariants in every reachable state: one session per client id,
   never more sessions than the capacity *)
Theorem table_wf_reachable :
  forall (S result : Type) (sm_update : S -> bytes -> S * result) cap (s0 : S) es,
  let t := st_tab (run_state sm_update (init_state cap s0) es) in
  NoDup (ids (t_list t)) /\ N.of_nat (length (t_list t)) <= t_cap t /\ t_cap t = cap.
Proof.
  intros S result sm_update cap s0 es t.
  destruct (run_inv sm_update es _ (init_inv cap s0)) as [[ND LE] _]. repeat split; auto. apply run_cap.
Qed.
Print Assumptions table_wf_reachable.

(* lrusession.save walks the table with Get (which reorders) and still leaves the
   LRU order exactly as it was; it writes the sessions least recently used first *)
Theorem save_preserves_order :
  forall (result : Type) (t : @table result),
  NoDup (ids (t_list t)) -> save t = Some ((t_cap t, rev (t_list t)), t).
Proof. exact @save_preserves_order_proved. Qed.
Print Assumptions save_preserves_order.

(* load (save t) = t: same sessions, same LRU order, same capacity *)
Theorem load_save_id :
  forall (result : Type) (t : @table result) sv t',
  NoDup (ids (t_list t)) -> N.of_nat (length (t_list t)) <= t_cap t -> 0 < t_cap t ->
  save t = Some (sv, t') -> t' = t /\ load sv = Some t.
Proof.
  intros result t sv t' ND LE POS H. rewrite save_preserves_order_proved in H by exact ND.
  injection H as <- <-. split; [reflexivity|now apply load_rev].
Qed.
Print Assumptions load_save_id.

(* snapshot at any cut point, restart from it, apply the rest of the log: same
   results per entry, same final table (LRU order, hence eviction victims) and
   same user state as the uninterrupted run. Assumes only the user contract
   sm_recover (sm_save s) = Some s. *)
Theorem snapshot_cut_equiv_sessions :
  forall (S result : Type) (sm_update : S -> bytes -> S * result)
         (sm_save : S -> bytes) (sm_recover : bytes -> option S),
  (forall s, sm_recover (sm_save s) = Some s) ->
  forall cap (s0 : S) es1 es2, 0 < cap ->
  let st1 := run_state sm_update (init_state cap s0) es1 in
  exists sn, snapshot sm_save st1 = Some (sn, st1) /\
  exists st1', restore sm_recover sn = Some st1' /\
               run sm_update st1' es2 = run sm_update st1 es2 /\
               run sm_update (init_state cap s0) (es1 ++ es2) =
                 (fst (run sm_update st1' es2),
                  snd (run sm_update (init_state cap s0) es1) ++ snd (run sm_update st1' es2)).
Proof.
  intros S result sm_update sm_save sm_recover RT cap s0 es1 es2 POS st1.
  destruct (reached_restore sm_update sm_save sm_recover RT cap s0 es1 POS) as (sn & H1 & H2).
  exists sn. split; [exact H1|]. exists st1. repeat split; auto. apply run_app.
Qed.
Print Assumptions snapshot_cut_equiv_sessions.

(* a snapshot installed on a LIVE replica (lagging follower, non-empty table):
   lrusession.load's result does not depend on the table it is called on *)
Theorem load_replaces_table :
  forall (result : Type) (t1 t2 : @table result) sv,
  load_into t1 sv = load_into t2 sv /\ load_into t1 sv = load sv.
Proof. intros. split; reflexivity. Qed.
Print Assumptions load_replaces_table.

(* whatever state the live replica was in, after installing the image of st1 it
   is exactly st1 (no session of the old table survives; order and capacity are
   the image's) *)
Theorem install_replaces_state :
  forall (S result : Type) (sm_save : S -> bytes) (sm_recover : bytes -> option S),
  (forall s, sm_recover (sm_save s) = Some s) ->
  forall (st_old st1 : @state S result),
  inv st1 -> 0 < t_cap (st_tab st1) ->
  exists sn, snapshot sm_save st1 = Some (sn, st1) /\ install sm_recover st_old sn = Some st1.
Proof.
  intros S result sm_save sm_recover RT st_old st1 I POS.
  destruct (snapshot_restore_id sm_save sm_recover RT st1 I POS) as (sn & H1 & H2). now exists sn.
Qed.
Print Assumptions install_replaces_state.

Theorem lagging_replica_catches_up :
  forall (S result : Type) (sm_update : S -> bytes -> S * result)
         (sm_save : S -> bytes) (sm_recover : bytes -> option S),
  (forall s, sm_recover (sm_save s) = Some s) ->
  forall cap (s0 : S) es0 es1 es2, 0 < cap ->
  let lag := run_state sm_update (init_state cap s0) es0 in
  let lead := run_state sm_update (init_state cap s0) (es0 ++ es1) in
  exists sn, snapshot sm_save lead = Some (sn, lead) /\
  exists st', install sm_recover lag sn = Some st' /\ st' = lead /\
              fst (run sm_update st' es2) = run_state sm_update (init_state cap s0) ((es0 ++ es1) ++ es2) /\
              snd (run sm_update st' es2) = snd (run sm_update lead es2).
Proof.
  intros S result sm_update sm_save sm_recover RT cap s0 es0 es1 es2 POS lag lead.
  destruct (reached_restore sm_update sm_save sm_recover RT cap s0 (es0 ++ es1) POS) as (sn & H1 & H2).
  exists sn. split; [exact H1|]. exists lead. split; [exact H2|]. repeat split.
  unfold run_state at 1. rewrite run_app. reflexivity.
Qed.
Print Assumptions lagging_replica_catches_up.

(* non-vacuity: the lagging replica still holds client 5 (unregistered on the
   leader) and lacks client 7; after the install it has exactly the leader's table *)
Example c05_install_witness :
  let reg c := mkEntry c series_id_for_register 0 [] in
  let lag := run_state acc_update (acc_init 3) [reg 5; reg 6; mkEntry 5 1 0 [1]] in
  let lead := run_state acc_update lag [mkEntry 5 series_id_for_unregister 0 []; reg 7; mkEntry 6 1 0 [2]] in
  map s_client (t_list (st_tab lag)) = [5; 6] /\
  match acc_snapshot lead with
  | Some (sn, _) => match acc_install lag sn with
                    | Some st' => st' = lead /\ map s_client (t_list (st_tab st')) = [6; 7] /\
                                  snd (acc_step st' (mkEntry 5 1 0 [1])) = ORejected
                    | None => False end
  | None => False
  end.
Proof. vm_compute. repeat split; reflexivity. Qed.

(* replicas that snapshot + restart at different points of the same log are
   indistinguishable from one that never restarted (and so from each other):
   same result for every entry, same session table, same user state *)
Theorem replicas_agree :
  forall (S result : Type) (sm_update : S -> bytes -> S * result)
         (sm_save : S -> bytes) (sm_recover : bytes -> option S),
  (forall s, sm_recover (sm_save s) = Some s) ->
  forall cap (s0 : S) es1 es2 es1' es2',
  0 < cap -> es1 ++ es2 = es1' ++ es2' ->
  restart_run sm_update sm_save sm_recover cap s0 es1 es2
    = Some (run sm_update (init_state cap s0) (es1 ++ es2)) /\
  restart_run sm_update sm_save sm_recover cap s0 es1 es2
    = restart_run sm_update sm_save sm_recover cap s0 es1' es2'.
Proof. exact @replicas_agree_proved. Qed.
Print Assumptions replicas_agree.

(* tie G: the facts regenerated from the source that model and proofs rely on *)
Theorem source_tie :
  src_has_responded_le = true /\ src_clear_to_guard_le = true /\ src_clear_to_shortcut_eq = true /\
  src_clear_to_loop_le = true /\ src_evict_when_gt = true /\
  src_concurrent_save_steps = true /\ src_sessions_saved_in_meta = true /\
  not_session_managed_client_id = 0 /\ noop_series_id = 0 /\ series_id_first_proposal = 1 /\
  series_id_for_register = 2 ^ 64 - 2 /\ series_id_for_unregister = 2 ^ 64 - 1 /\
  0 < lru_max_session_count.
Proof. repeat split; reflexivity. Qed.
Print Assumptions source_tie.

(* tie G: the session table is a function of the applied entries because the
   order-refreshing lookups of the LRU are called from the apply path (and the
   order-preserving save walk) only; the caller lists are regenerated from
   internal/rsm on every run (see Proofs/SessionSource.v for the expected lists) *)
Theorem lru_refresh_only_on_apply_path :
  (src_lru_get_callers, src_get_session_callers, src_session_lookup_callers, src_session_save_callers)
  = expected_refresh_callers.
Proof. reflexivity. Qed.
Print Assumptions lru_refresh_only_on_apply_path.

(* client side (client.Session): after PrepareForPropose, any interleaving of
   proposing/retrying and ProposalCompleted never panics and emits entries with
   the client's id, RespondedTo = SeriesID - 1, never a reserved series id,
   non-decreasing series ids, and identical ids for equal series ids (a retry
   re-uses exactly the same triple).
   The bound excludes only the 2^64 wrap-around of the counter. *)
Theorem client_discipline :
  forall cid ops s0 out s',
  cid <> 0 -> N.of_nat (length ops) < series_id_for_register - 1 ->
  c_prepare_for_propose (c_new cid) = Some s0 ->
  c_run s0 ops <> None /\
  (c_run s0 ops = Some (out, s') ->
   Forall (fun t => fst (fst t) = cid /\ 1 <= snd (fst t) /\ snd t + 1 = snd (fst t) /\
                    snd (fst t) <> series_id_for_register /\ snd (fst t) <> series_id_for_unregister) out /\
   Sorted (fun a b => snd (fst a) <= snd (fst b)) out /\
   (forall a b, In a out -> In b out -> snd (fst a) = snd (fst b) -> a = b)).
Proof. exact client_discipline_proved. Qed.
Print Assumptions client_discipline.

Example c05_client_witness :
  option_map fst (match c_prepare_for_propose (c_new 9) with Some s => c_run s [CPropose; CPropose; CCompleted; CPropose; CCompleted; CPropose] | None => None end)
  = Some [(9, 1, 0); (9, 1, 0); (9, 2, 1); (9, 3, 2)].
Proof. vm_compute. reflexivity. Qed.

(* non-vacuity: a concrete stream reaches a state with cached responses above a
   non-zero watermark, and an unknown client is rejected there *)
Example c05_witness :
  let reg c := mkEntry c series_id_for_register 0 [] in
  let st := run_state acc_update (acc_init 2)
              [reg 5; mkEntry 5 1 0 [1]; mkEntry 5 2 1 [2]; mkEntry 5 3 1 [3]; reg 6] in
  map (fun s => (s_client s, s_responded s, map fst (s_history s))) (t_list (st_tab st))
    = [(6, 0, []); (5, 1, [3; 2])]
  /\ snd (acc_step st (mkEntry 9 1 0 [7])) = ORejected.
Proof. vm_compute. split; reflexivity. Qed.

(* non-vacuity of retry_returns_cached / acknowledged_duplicate_ignored /
   evicted_session_rejected: concrete data meeting their hypotheses, with other
   clients' traffic in between *)
Example c05_retry_witness :
  let reg c := mkEntry c series_id_for_register 0 [] in
  let st := run_state acc_update (acc_init 2) [reg 5] in
  let e := mkEntry 5 1 0 [1] in
  let es := [reg 6; mkEntry 6 1 0 [9]; mkEntry 5 2 0 [3]; mkEntry 5 1 0 [1]] in
  let st1 := fst (acc_step st e) in
  classify e = KUpdate /\ (exists r, snd (acc_step st e) = OApplied r) /\
  present_along acc_update 5 st1 es /\
  Forall (fun x => classify x = KUpdate -> e_client x = 5 -> e_responded x < 1) es /\
  snd (acc_step (run_state acc_update st1 es) e) = OCached (1801, [1]) /\
  snd (acc_step st e) = OApplied (1801, [1]).
Proof.
  cbv zeta. split; [reflexivity|]. split; [eexists; vm_compute; reflexivity|].
  split; [cbn [present_along]; repeat split; vm_compute; discriminate|].
  split; [repeat constructor; vm_compute; intros; reflexivity|].
  split; vm_compute; reflexivity.
Qed.

Example c05_ack_evict_witness :
  let reg c := mkEntry c series_id_for_register 0 [] in
  let st := run_state acc_update (acc_init 2) [reg 5; mkEntry 5 1 0 [1]; mkEntry 5 2 1 [2]] in
  acked 5 1 st /\ present_along acc_update 5 st [reg 6; mkEntry 6 1 0 [4]] /\
  snd (acc_step (run_state acc_update st [reg 6; mkEntry 6 1 0 [4]]) (mkEntry 5 1 0 [1])) = OIgnored /\
  (* full table [6; 5]: registering 7 evicts 5, whose retry is then rejected *)
  let st2 := run_state acc_update st [reg 6; mkEntry 6 1 0 [4]; reg 7] in
  map s_client (t_list (st_tab st2)) = [7; 6] /\
  snd (acc_step st2 (mkEntry 5 2 1 [2])) = ORejected.
Proof.
  cbv zeta. split; [eexists; split; [vm_compute; reflexivity|vm_compute; discriminate]|].
  split; [cbn [present_along]; repeat split; vm_compute; discriminate|].
  repeat split; vm_compute; reflexivity.
Qed.

(* non-vacuity of at_most_once: the tagged trace of a stream with retries,
   re-registration after eviction and a NoOP-session proposal *)
Example c05_tags_witness :
  let reg c := mkEntry c series_id_for_register 0 [] in
  sm_calls_tagged acc_update 1 0
    [reg 5; mkEntry 5 1 0 [1]; mkEntry 5 1 0 [1]; reg 6; mkEntry 5 1 0 [1]; reg 5; mkEntry 5 1 0 [1];
     mkEntry 5 0 0 [8]; mkEntry 5 1 0 [1]]
  = [(5, 1%nat, 1); (5, 2%nat, 1)].
Proof. vm_compute. reflexivity. Qed.

(* non-vacuity of save/load: a 3-session table in a non-sorted LRU order *)
Example c05_save_load_witness :
  let reg c := mkEntry c series_id_for_register 0 [] in
  let t := st_tab (run_state acc_update (acc_init 3) [reg 7; reg 3; reg 9; mkEntry 3 1 0 [1]; mkEntry 7 4 2 [2]]) in
  map s_client (t_list t) = [7; 3; 9] /\
  match save t with
  | Some (sv, t') => map s_client (snd sv) = [9; 3; 7] /\ t' = t /\ load sv = Some t
  | None => False
  end.
Proof. vm_compute. repeat split; reflexivity. Qed.

(* the theorems above quantify over every sm_update and every result type, so
   they make no assumption that a result is non-empty. Concretely, with the
   harness state machine returning the ZERO result (command byte 0xE0): the
   application is recorded in the history, the retry is answered from the cache
   (user state machine untouched), the tagged trace has one tag, and this
   survives snapshot + restart *)
Example c05_empty_result_witness :
  let reg c := mkEntry c series_id_for_register 0 [] in
  let e := mkEntry 5 1 0 [224; 9] in
  let st := run_state acc_update (acc_init 2) [reg 5] in
  snd (acc_step st e) = OApplied (0, []) /\
  let st1 := fst (acc_step st e) in
  map (fun s => (s_client s, s_history s)) (t_list (st_tab st1)) = [(5, [(1, (0, []))])] /\
  acc_step st1 e = (st1, OCached (0, [])) /\
  sm_calls_tagged acc_update 2 0 [reg 5; e; e; mkEntry 0 0 0 []; e] = [(5, 1%nat, 1)] /\
  match acc_snapshot st1 with
  | Some (sn, _) => match acc_restore sn with
                    | Some st2 => acc_step st2 e = (st2, OCached (0, []))
                    | None => False end
  | None => False
  end.
Proof. vm_compute. repeat split; reflexivity. Qed.
