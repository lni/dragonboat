(* C10 — the recovered plain-format store against the logical log (uses the C09 refinement
   relation R of Proofs/LogDBPlain.v). *)
From Coq Require Import List NArith Bool.
From DB Require Import Base.Bytes Gen.GenC09 Gen.GenC10 Model.LogStoreSpec Model.KV
  Model.LogDBPlain Model.LogDBBatched Model.LogDBFaulty Proofs.LogStoreSpec Proofs.LogDBKV
  Proofs.LogDBPlain Proofs.LogDBFaulty.
Import ListNotations.
Open Scope N_scope.

Lemma fold_R : forall ops p s, R p s -> wf_ops s ops = true ->
  forall k, exists p', ref_fold false (Some p) (firstn k ops) = Some p' /\
                  R p' (spec_run s (firstn k ops)) /\
                  (forall o, nth_error ops k = Some o -> spec_wf_op (spec_run s (firstn k ops)) o = true).
Proof.
  induction ops as [|o t IH]; intros p s HR Hwf k.
  - destruct k; cbn; exists p; (split; [reflexivity|]); (split; [exact HR|]); intros; discriminate.
  - cbn [wf_ops] in Hwf. apply andb_true_iff in Hwf. destruct Hwf as [W1 W2].
    destruct k as [|k].
    + cbn. exists p. split; [reflexivity|]. split; [exact HR|]. intros o' E. inversion E; subst. exact W1.
    + destruct (plain_step_R p s o HR W1) as (p1 & E1 & R1).
      destruct (IH p1 (spec_step s o) R1 W2 k) as (p' & EF & RF & WF).
      exists p'. cbn [firstn nth_error]. unfold ref_fold, spec_run in *. cbn [fold_left ref_step].
      rewrite E1. auto.
Qed.

Definition log_ok (d : pdb) (s : sstate) : Prop :=
  (forall q, spec_wf_query s q = true -> plain_observe d q = spec_answer s q) /\
  forall n, contig (n_marker (s n) + 1) (n_ents (s n)) /\
            (forall e, In e (n_ents (s n)) -> kv_get (p_kv d) (KEntry n (e_index e)) = Some (VEntry e)) /\
            (get_max_index d n = Some (Some (n_last (s n))) \/
             (get_max_index d n = Some None /\ n_last (s n) = 0)) /\
            get_state (p_kv d) n = Some (n_st (s n)).

Lemma R_log_ok : forall d s, R d s -> log_ok d s.
Proof.
  intros d s HR. split.
  - intros q Hq. now apply (plain_query_R d s q HR).
  - intros n. pose proof HR as (HS & HW & HN). pose proof (HN n) as Rn.
    destruct Rn as [RC RE _ _ _ _ _ _ _ _ _]. split; [exact RC|]. split; [exact RE|].
    split; [now apply get_max_index_R|].
    now apply get_state_R.
Qed.

(* recovery sees only the durable map: if it is the one of a store that refines s, the recovered
   store refines s as well *)
Lemma recovered_log_ok : forall d' p s, R p s -> d_kv d' = p_kv p -> log_ok (recovered d') s.
Proof.
  intros d' p s HR M. apply R_log_ok. replace (recovered d') with (p_reopen p); [now apply reopen_R|].
  unfold recovered, p_reopen. now rewrite M.
Qed.

Theorem recovered_log_proved : forall ft ops k r d',
  wf_ops spec_init ops = true ->
  f_run false all_fixed (fdb_init ft) ops = (k, r, d') ->
  (forall n, nth_error ops k <> Some (ORemNode n)) ->
  exists s, (s = spec_run spec_init (firstn k ops) \/
             (r <> FOk /\ s = spec_run spec_init (firstn (S k) ops))) /\
            log_ok (recovered d') s.
Proof.
  intros ft ops k r d' Hwf H NR.
  apply crash_atomic_kv_proved in H. destruct H as (p & EP & C).
  destruct (fold_R ops pdb_init spec_init R_init Hwf k) as (p0 & E0 & R0 & W0).
  assert (p0 = p).
  { rewrite ref_run_fold, E0 in EP. now injection EP. }
  subst p0.
  destruct C as [(RO & K & RC)|(RN & K & CS)].
  - exists (spec_run spec_init (firstn k ops)). split; [now left|].
    apply (recovered_log_ok d' p _ R0). now injection RC.
  - destruct CS as [M|o p' EO ES M|n l EO _ _].
    + exists (spec_run spec_init (firstn k ops)). split; [now left|].
      exact (recovered_log_ok d' p _ R0 M).
    + exists (spec_run spec_init (firstn (S k) ops)). split; [right; split; auto|].
      destruct (plain_step_R p _ o R0 (W0 o EO)) as (p1 & E1 & R1).
      cbn [ref_step] in ES. rewrite ES in E1. inversion E1; subst p1.
      rewrite (firstn_S_snoc ops k o EO). unfold spec_run in *. rewrite fold_left_app. cbn [fold_left].
      exact (recovered_log_ok d' p' _ R1 M).
    + exfalso. exact (NR n EO).
Qed.
