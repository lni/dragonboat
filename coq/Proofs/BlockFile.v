From DB Require Import Base.Bytes Base.CRC32 Gen.GenC14 Model.SnapshotHeader Model.BlockFile
  Proofs.Bytes Proofs.CRC32.
From Coq Require Import ZifyN ZifyNat ZifyBool.
Open Scope N_scope.

Lemma csz_eq : csz = 4%nat. Proof. reflexivity. Qed.
Lemma tsz_eq : tsz = 16%nat. Proof. reflexivity. Qed.
Lemma hsz_eq : hsz = 1024%nat. Proof. reflexivity. Qed.
Lemma checksum_size_eq : checksum_size = 4. Proof. reflexivity. Qed.
Lemma tail_size_eq : tail_size = 16. Proof. reflexivity. Qed.
Lemma magic_length : length block_magic = 8%nat. Proof. reflexivity. Qed.
Lemma magic_wf : wf_bytes block_magic.
Proof. unfold block_magic. repeat constructor. Qed.

Lemma crc_bytes_length l : length (crc_bytes l) = 4%nat.
Proof. apply be_length. Qed.
Lemma crc_bytes_wf l : wf_bytes (crc_bytes l).
Proof. apply be_wf. Qed.

Lemma bytes_eqb_eq a : forall b, bytes_eqb a b = true <-> a = b.
Proof.
  induction a as [|x a IH]; intros [|y b]; cbn [bytes_eqb]; split; intros H; try discriminate; auto.
  - apply andb_true_iff in H as [H1 H2]. apply N.eqb_eq in H1. apply IH in H2. subst. reflexivity.
  - injection H as -> ->. rewrite N.eqb_refl. apply IH. reflexivity.
Qed.
Lemma bytes_eqb_refl a : bytes_eqb a a = true.
Proof. apply bytes_eqb_eq. reflexivity. Qed.

Lemma enc_block_length b : length (enc_block b) = (length b + 4)%nat.
Proof. unfold enc_block. rewrite app_length, crc_bytes_length. reflexivity. Qed.

Lemma enc_blocks_app F G : enc_blocks (F ++ G) = enc_blocks F ++ enc_blocks G.
Proof. unfold enc_blocks. rewrite map_app. apply concat_app. Qed.
Lemma enc_blocks_cons b F : enc_blocks (b :: F) = enc_block b ++ enc_blocks F.
Proof. reflexivity. Qed.
Lemma enc_blocks_one b : enc_blocks [b] = enc_block b.
Proof. apply app_nil_r. Qed.

Lemma chunks_fuel n : (0 < n)%nat -> forall f1 f2 l,
  (length l <= f1)%nat -> (length l <= f2)%nat -> chunks f1 n l = chunks f2 n l.
Proof.
  intros Hn. induction f1 as [|f1 IH]; intros [|f2] [|x l] H1 H2; try reflexivity; try solve [inversion H1|inversion H2].
  cbn [chunks]. f_equal. apply IH; rewrite skipn_length; cbn [length] in *; lia.
Qed.

Lemma blocks_nil bs : blocks bs [] = [].
Proof. reflexivity. Qed.

Lemma blocks_cons bs b q : (0 < bs)%nat -> length b = bs ->
  blocks bs (b ++ q) = b :: blocks bs q.
Proof.
  intros Hbs Hb. unfold blocks. rewrite app_length, Hb.
  destruct bs as [|n]; [inversion Hbs|]. cbn [Nat.add chunks].
  destruct (b ++ q) eqn:E; [destruct b; discriminate|]. rewrite <- E.
  rewrite firstn_app_exact, skipn_app_exact by (symmetry; exact Hb). f_equal.
  apply chunks_fuel; lia.
Qed.

Lemma blocks_last bs r : (0 < length r <= bs)%nat -> blocks bs r = [r].
Proof.
  intros Hr. unfold blocks. destruct r as [|x r]; [cbn in Hr; lia|].
  cbn [length chunks] in *. rewrite firstn_all2, skipn_all2 by (cbn [length]; lia). destruct (length r); reflexivity.
Qed.

(* A payload is a run F of full blocks followed by a shorter remainder r, which makes
   the last block when it is not empty. *)
Definition full (bs : nat) (F : list bytes) : Prop := Forall (fun b => length b = bs) F.
Definition last_block (r : bytes) : list bytes := match r with [] => [] | _ => [r] end.

Lemma blocks_spec bs F : (0 < bs)%nat -> full bs F ->
  forall r, (length r < bs)%nat -> blocks bs (concat F ++ r) = F ++ last_block r.
Proof.
  intros Hbs HF. induction HF as [|b F Hb HF IH]; intros r Hr.
  - cbn [concat app]. destruct r as [|x r]; [reflexivity|]. apply blocks_last. cbn [length] in *. lia.
  - cbn [concat]. rewrite <- app_assoc, blocks_cons, IH by assumption. reflexivity.
Qed.

Lemma blocks_split bs p : (0 < bs)%nat ->
  exists F r, full bs F /\ (length r < bs)%nat /\ p = concat F ++ r /\ blocks bs p = F ++ last_block r.
Proof.
  intros Hbs.
  enough (H : forall n p, (length p <= n)%nat ->
            exists F r, full bs F /\ (length r < bs)%nat /\ concat F ++ r = p).
  { destruct (H _ p (le_n _)) as (F & r & HF & Hr & <-).
    exists F, r. repeat split; trivial. apply blocks_spec; assumption. }
  induction n as [|n IH]; intros q Hq.
  - exists [], q. repeat split; [constructor|lia].
  - destruct (Nat.lt_ge_cases (length q) bs) as [Hlt|Hge]; [exists [], q; repeat split; [constructor|exact Hlt]|].
    destruct (IH (skipn bs q)) as (F & r & HF & Hr & Hc); [rewrite skipn_length; lia|].
    exists (firstn bs q :: F), r. repeat split; [constructor; [rewrite firstn_length; lia|exact HF]|exact Hr|].
    cbn [concat]. rewrite <- app_assoc, Hc. apply firstn_skipn.
Qed.

Lemma enc_blocks_length_full bs F : full bs F -> length (enc_blocks F) = ((bs + 4) * length F)%nat.
Proof.
  induction 1 as [|b F Hb HF IH]; [cbn; lia|].
  rewrite enc_blocks_cons, app_length, enc_block_length, IH. cbn [length]. lia.
Qed.

Lemma concat_length_full bs (F : list bytes) : full bs F -> length (concat F) = (bs * length F)%nat.
Proof.
  induction 1 as [|b F Hb HF IH]; [cbn; lia|]. cbn [concat length]. rewrite app_length, IH. lia.
Qed.

Definition outs (F : list bytes) : list (bytes * bytes) := map (fun b => (b, crc_bytes b)) F.
Definition crcs (F : list bytes) : bytes := concat (map crc_bytes F).

(* w bytes taken so far; the next stop is where the pending r will be full *)
Definition bw_after (bs : nat) (F : list bytes) (r : bytes) (fl : bool) (w : nat) : bw :=
  mkBW r w (w + (bs - length r)) (nlen (enc_blocks F)) (crcs F) (outs F) fl.

Lemma crcs_app F G : crcs (F ++ G) = crcs F ++ crcs G.
Proof. unfold crcs. rewrite map_app. apply concat_app. Qed.
Lemma outs_app F G : outs (F ++ G) = outs F ++ outs G.
Proof. apply map_app. Qed.
Lemma out_bytes_outs F : out_bytes (outs F) = enc_blocks F.
Proof. unfold out_bytes, outs, enc_blocks. rewrite map_map. reflexivity. Qed.
Lemma out_bytes_app a b : out_bytes (a ++ b) = out_bytes a ++ out_bytes b.
Proof. unfold out_bytes. rewrite map_app. apply concat_app. Qed.

(* one round of the loop: l more bytes are taken, and either they fill the pending block *)
Lemma write_step_after fuel bs F r fl w D : D <> [] -> full bs F -> (length r < bs)%nat ->
  exists l F' r' w', (0 < l <= length D)%nat /\
    bw_write_loop (S fuel) bs (bw_after bs F r fl w) D =
    bw_write_loop fuel bs (bw_after bs F' r' fl w') (skipn l D) /\
    full bs F' /\ (length r' < bs)%nat /\ concat F' ++ r' = (concat F ++ r) ++ firstn l D.
Proof.
  intros HD HF Hr. destruct D as [|x D0]; [contradiction|]. cbn [bw_write_loop]. set (D := x :: D0).
  assert (HD0 : (0 < length D)%nat) by (cbn; lia). clearbody D.
  unfold bw_after. cbn [bw_next bw_written bw_block bw_total bw_fh bw_out bw_flushed].
  rewrite (Nat.add_comm w (bs - length r)), Nat.add_sub.
  cbv zeta. set (l := Nat.min (bs - length r) (length D)). exists l.
  assert (Hfl : length (firstn l D) = l) by (rewrite firstn_length; lia).
  destruct (Nat.eqb_spec (length r + l) bs) as [Heq|Hne].
  - exists (F ++ [r ++ firstn l D]), [], (w + l)%nat.
    replace (w + l =? bs - length r + w)%nat with true by (symmetry; apply Nat.eqb_eq; lia).
    repeat split; try (cbn [length]; lia).
    + f_equal. unfold bw_emit. cbn [bw_written bw_fh bw_out length].
      rewrite enc_blocks_app, enc_blocks_one, crcs_app, outs_app, nlen_app.
      unfold crcs at 3, enc_block. cbn [map concat]. rewrite app_nil_r, nlen_app, N.add_assoc. f_equal; lia.
    + apply Forall_app; split; [exact HF|constructor; [rewrite app_length; lia|constructor]].
    + rewrite concat_app. cbn [concat]. rewrite !app_nil_r, app_assoc. reflexivity.
  - exists F, (r ++ firstn l D), (w + l)%nat.
    replace (w + l =? bs - length r + w)%nat with false by (symmetry; apply Nat.eqb_neq; lia).
    rewrite app_length, Hfl. repeat split; try lia; [|exact HF|apply app_assoc].
    f_equal. f_equal. lia.
Qed.

Lemma write_loop_after bs : (0 < bs)%nat -> forall fuel d F r fl w,
  (length d < fuel)%nat -> full bs F -> (length r < bs)%nat ->
  exists F' r' w', bw_write_loop fuel bs (bw_after bs F r fl w) d = bw_after bs F' r' fl w' /\
    full bs F' /\ (length r' < bs)%nat /\ concat F' ++ r' = (concat F ++ r) ++ d.
Proof.
  intros Hbs. induction fuel as [|fuel IH]; intros d F r fl w Hf HF Hr; [inversion Hf|].
  destruct (list_eq_dec N.eq_dec d []) as [->|Hd]; [exists F, r, w; rewrite app_nil_r; auto|].
  destruct (write_step_after fuel bs F r fl w d Hd HF Hr) as (l & F1 & r1 & w1 & Hl & E & HF1 & Hr1 & Hc1).
  destruct (IH (skipn l d) F1 r1 fl w1) as (F' & r' & w' & E' & HF' & Hr' & Hc'); trivial;
    [rewrite skipn_length; lia|].
  exists F', r', w'. rewrite E, E', Hc', Hc1, <- app_assoc, firstn_skipn. auto.
Qed.

Definition wfold (bs : nat) (segs : list bytes) (o : option bw) : option bw :=
  fold_left (fun o s => match o with Some st => bw_write bs st s | None => None end) segs o.

Lemma write_all_after bs : (0 < bs)%nat -> forall segs F r w,
  full bs F -> (length r < bs)%nat ->
  exists F' r' w',
    wfold bs segs (Some (bw_after bs F r false w)) = Some (bw_after bs F' r' false w') /\
    full bs F' /\ (length r' < bs)%nat /\ concat F' ++ r' = (concat F ++ r) ++ concat segs.
Proof.
  intros Hbs. induction segs as [|s segs IH]; intros F r w HF Hr.
  - exists F, r, w. rewrite app_nil_r. auto.
  - destruct (write_loop_after bs Hbs (S (length s)) s F r false w) as (F1 & r1 & w1 & E & HF1 & Hr1 & Hc1); auto.
    destruct (IH F1 r1 w1 HF1 Hr1) as (F' & r' & w' & E' & HF' & Hr' & Hc').
    exists F', r', w'. repeat split; trivial.
    + unfold wfold. cbn [fold_left]. unfold bw_write at 2. cbn [bw_after bw_flushed].
      fold (bw_after bs F r false w). rewrite E. exact E'.
    + rewrite Hc', Hc1. cbn [concat]. rewrite <- !app_assoc. reflexivity.
Qed.

Lemma bw_init_after bs : bw_init bs = bw_after bs [] [] false 0.
Proof. unfold bw_init, bw_after. cbn [length Nat.add]. rewrite Nat.sub_0_r. reflexivity. Qed.

Theorem v2_body_closed_form bs segs : (0 < bs)%nat ->
  v2_body_of bs segs = Some (file_body bs (concat segs), payload_checksum bs (concat segs)).
Proof.
  intros Hbs. unfold v2_body_of.
  change (bw_write_all bs segs) with (wfold bs segs (Some (bw_init bs))). rewrite bw_init_after.
  destruct (write_all_after bs Hbs segs [] [] 0%nat) as (F & r & w & -> & HF & Hr & Hc); [constructor|exact Hbs|].
  cbn [concat app] in Hc. unfold file_body, payload_checksum.
  rewrite <- Hc, blocks_spec by assumption. fold (crcs (F ++ last_block r)).
  unfold bw_close, bw_after, bw_emit, bw_payload_checksum.
  destruct r as [|x r]; cbn [last_block bw_flushed bw_block bw_total bw_next bw_written bw_fh bw_out];
    rewrite !out_bytes_app, out_bytes_outs; unfold out_bytes; cbn [map concat fst snd];
    rewrite ?app_nil_r, <- ?app_assoc.
  - reflexivity.
  - rewrite enc_blocks_app, enc_blocks_one, crcs_app, nlen_app. unfold enc_block, crcs at 3, file_tail.
    cbn [map concat]. rewrite nlen_app, app_nil_r, <- !app_assoc, N.add_assoc. reflexivity.
Qed.

Lemma validate_block_enc b : (0 < length b)%nat -> validate_block (enc_block b) = true.
Proof.
  intros Hb. unfold validate_block. rewrite enc_block_length, csz_eq.
  destruct (Nat.leb_spec (length b + 4) 4); [lia|]. unfold enc_block.
  rewrite skipn_app_exact, firstn_app_exact by lia. apply bytes_eqb_refl.
Qed.

(* [rep bs rest av bad]: the unread part [rest] of the block region consists of valid
   blocks carrying the bytes [av] (all of size bs, except that the last may be shorter),
   followed by EOF (bad = false) or by a block that does not validate (bad = true) *)
Inductive rep (bs : nat) : bytes -> bytes -> bool -> Prop :=
| rep_end : rep bs [] [] false
| rep_bad tl : tl <> [] -> validate_block (firstn (csz + bs) tl) = false -> rep bs tl [] true
| rep_cons b rest av bad : (0 < length b <= bs)%nat -> rest = [] \/ length b = bs ->
    rep bs rest av bad -> rep bs (enc_block b ++ rest) (b ++ av) bad.

Definition ct0 := checksum_crc32ieee.

Lemma read_block_ok bs b rest : (0 < length b <= bs)%nat -> rest = [] \/ length b = bs ->
  read_block bs ct0 (enc_block b ++ rest) = BlkOk (mkBR rest b).
Proof.
  intros Hb Hl. unfold read_block.
  destruct (enc_block b ++ rest) eqn:E.
  { apply (f_equal (@length N)) in E. rewrite app_length, enc_block_length in E. cbn in E. lia. }
  rewrite <- E. unfold ct0. rewrite N.eqb_refl. cbn [negb].
  assert (Hf : firstn (csz + bs) (enc_block b ++ rest) = enc_block b /\
               skipn (csz + bs) (enc_block b ++ rest) = rest).
  { destruct Hl as [->|Hl].
    - rewrite app_nil_r, firstn_all2, skipn_all2 by (rewrite enc_block_length, csz_eq; lia). auto.
    - rewrite firstn_app_exact, skipn_app_exact by (rewrite enc_block_length, csz_eq; lia). auto. }
  destruct Hf as [-> ->]. rewrite validate_block_enc by lia.
  rewrite enc_block_length, csz_eq. unfold enc_block. rewrite firstn_app_exact by lia. reflexivity.
Qed.

Lemma read_block_bad bs tl : tl <> [] -> validate_block (firstn (csz + bs) tl) = false ->
  read_block bs ct0 tl = BlkPanic.
Proof.
  intros Hne Hv. unfold read_block. destruct tl; [congruence|].
  unfold ct0. rewrite N.eqb_refl. cbn [negb]. rewrite Hv. reflexivity.
Qed.

(* what one Read does to the part beyond the current block: enough bytes left, ... *)
Lemma br_read_loop_data bs rest av bad : rep bs rest av bad ->
  forall fuel acc want, (0 < want <= fuel)%nat -> (want <= length av)%nat ->
  exists st', br_read_loop fuel bs ct0 rest acc want = (st', RData (acc ++ firstn want av)) /\
    exists av', rep bs (br_rest st') av' bad /\ br_block st' ++ av' = skipn want av.
Proof.
  induction 1 as [|tl Hne Hv|b rest av bad Hb Hl Hrep IH]; intros fuel acc want Hw Hle;
    (destruct want as [|want']; [inversion Hw; lia|]); [inversion Hle..|].
  destruct fuel as [|fuel]; [lia|]. cbn [br_read_loop]. rewrite read_block_ok by assumption. cbn [br_block br_rest].
  rewrite app_length in Hle. destruct (Nat.le_gt_cases (S want') (length b)) as [Hwb|Hwb].
  - rewrite Nat.min_l, Nat.sub_diag by exact Hwb.
    eexists. split; [rewrite firstn_app_le by exact Hwb; reflexivity|].
    exists av. split; [exact Hrep|symmetry; apply skipn_app_le, Hwb].
  - rewrite Nat.min_r by lia. destruct (S want' - length b)%nat as [|w'] eqn:Ew; [lia|].
    destruct (IH fuel (acc ++ b) (S w')) as (st' & E & Hst); [lia..|].
    exists st'. rewrite E, <- app_assoc, firstn_app_ge, skipn_app_ge, Ew by lia. auto.
Qed.

(* ... or too few: the bytes that are there, with EOF; or a panic at the bad block *)
Lemma br_read_loop_short bs rest av bad : rep bs rest av bad ->
  forall fuel acc want, (0 < want <= fuel)%nat -> (length av < want)%nat ->
  if bad then snd (br_read_loop fuel bs ct0 rest acc want) = RPanic
  else br_read_loop fuel bs ct0 rest acc want = (mkBR [] [], REof (acc ++ av)).
Proof.
  induction 1 as [|tl Hne Hv|b rest av bad Hb Hl Hrep IH]; intros fuel acc want Hw Hlt;
    (destruct want as [|want']; [lia|]); (destruct fuel as [|fuel]; [lia|]); cbn [br_read_loop].
  - rewrite app_nil_r. reflexivity.
  - rewrite read_block_bad by assumption. reflexivity.
  - rewrite read_block_ok by assumption. cbn [br_block br_rest]. rewrite app_length in Hlt.
    rewrite Nat.min_r by lia. destruct (S want' - length b)%nat as [|w'] eqn:Ew; [lia|].
    specialize (IH fuel (acc ++ b) (S w')). rewrite <- app_assoc in IH. apply IH; lia.
Qed.

Definition srep (bs : nat) (st : br) (avail : bytes) (bad : bool) : Prop :=
  exists av, rep bs (br_rest st) av bad /\ avail = br_block st ++ av.

Lemma br_read_spec bs st avail bad want : srep bs st avail bad ->
  exists st' res, br_read bs ct0 st want = (st', res) /\
    (if (want <=? length avail)%nat
     then res = RData (firstn want avail) /\ srep bs st' (skipn want avail) bad
     else if bad then res = RPanic
     else res = REof avail /\ srep bs st' [] false).
Proof.
  intros (av & Hrep & ->). unfold br_read. rewrite app_length.
  destruct (Nat.leb_spec want (length (br_block st))) as [Hle|Hgt].
  - eexists _, _. split; [reflexivity|].
    destruct (Nat.leb_spec want (length (br_block st) + length av)); [|lia].
    rewrite firstn_app_le, skipn_app_le by exact Hle. split; [reflexivity|]. exists av. auto.
  - destruct (Nat.leb_spec want (length (br_block st) + length av)) as [Hle2|Hgt2].
    + destruct (br_read_loop_data bs _ _ _ Hrep (S want) (br_block st) (want - length (br_block st)))
        as (st' & E & av' & Hrep' & Hav'); [lia..|].
      exists st', (RData (br_block st ++ firstn (want - length (br_block st)) av)). split; [exact E|].
      rewrite firstn_app_ge, skipn_app_ge by lia. split; [reflexivity|]. exists av'. auto.
    + pose proof (br_read_loop_short bs _ _ _ Hrep (S want) (br_block st) (want - length (br_block st))) as E.
      specialize (E ltac:(lia) ltac:(lia)). destruct bad.
      * eexists _, _. split; [apply surjective_pairing|exact E].
      * rewrite E. eexists _, _. split; [reflexivity|]. split; [reflexivity|].
        exists []. split; [constructor|reflexivity].
Qed.

Definition v2sr (b : br) : sreader := mkSR ss_v2 checksum_crc32ieee None b [].

Lemma sr_read_v2 bs st n :
  sr_read bs (v2sr st) n = let '(b, res) := br_read bs ct0 st n in (v2sr b, res).
Proof. reflexivity. Qed.

Lemma sr_reads_spec bs reads : forall st avail bad, srep bs st avail bad ->
  fst (sr_reads bs (v2sr st) reads) = spec_reads avail bad reads.
Proof.
  induction reads as [|n reads IH]; intros st avail bad Hs; [reflexivity|].
  cbn [sr_reads spec_reads]. rewrite sr_read_v2.
  destruct (br_read_spec bs st avail bad n Hs) as (st' & res & -> & Hres).
  destruct (Nat.leb_spec n (length avail)) as [Hle|Hgt]; [|destruct bad; [subst res; reflexivity|]];
    destruct Hres as [-> Hs']; specialize (IH st' _ _ Hs');
    destruct (sr_reads bs (v2sr st') reads) as [o fin]; cbn [fst] in *; rewrite IH; reflexivity.
Qed.

Lemma rep_blocks bs F : (0 < bs)%nat -> full bs F ->
  forall r, (length r < bs)%nat -> rep bs (enc_blocks (F ++ last_block r)) (concat F ++ r) false.
Proof.
  intros Hbs HF. induction HF as [|b F Hb HF IH]; intros r Hr; cbn [app concat].
  - destruct r as [|x r]; [constructor|].
    pose proof (rep_cons bs (x :: r) [] [] false) as R. rewrite !app_nil_r in R.
    cbn [last_block]. rewrite enc_blocks_one. apply R; [cbn [length] in *; lia|left; reflexivity|constructor].
  - rewrite enc_blocks_cons, <- app_assoc. constructor; [lia|auto|apply IH, Hr].
Qed.

Lemma rep_file_blocks bs p : (0 < bs)%nat -> rep bs (enc_blocks (blocks bs p)) p false.
Proof.
  intros Hbs. destruct (blocks_split bs p Hbs) as (F & r & HF & Hr & -> & ->). apply rep_blocks; assumption.
Qed.

Lemma file_tail_length t : length (file_tail t) = 16%nat.
Proof. unfold file_tail. rewrite app_length, le_length. reflexivity. Qed.

Lemma v2_reader_tail E tail : length tail = 16%nat -> v2_reader (E ++ tail) = v2sr (mkBR E []).
Proof.
  intros H. unfold v2_reader, v2sr. rewrite firstn_app_exact; [reflexivity|].
  rewrite app_length, H, tsz_eq. lia.
Qed.

Theorem read_write_roundtrip_proved bs p reads : (0 < bs)%nat ->
  fst (sr_reads bs (v2_reader (file_body bs p)) reads) = spec_reads p false reads.
Proof.
  intros Hbs. unfold file_body. rewrite v2_reader_tail by apply file_tail_length.
  apply sr_reads_spec. exists p. split; [apply rep_file_blocks, Hbs|reflexivity].
Qed.

Lemma flip_bit_inside l i : (i / 8 < length l)%nat ->
  exists pre x post, l = pre ++ x :: post /\
    flip_bit l i = pre ++ N.lxor x (2 ^ N.of_nat (i mod 8)) :: post.
Proof.
  intros H. unfold flip_bit. destruct (skipn (i / 8) l) as [|x r] eqn:E.
  - apply (f_equal (@length N)) in E. rewrite skipn_length in E. cbn [length] in E. lia.
  - exists (firstn (i / 8) l), x, r. split; [|reflexivity].
    rewrite <- E. symmetry. apply firstn_skipn.
Qed.

Lemma flip_bit_length l i : length (flip_bit l i) = length l.
Proof.
  destruct (Nat.lt_ge_cases (i / 8) (length l)) as [H|H].
  - destruct (flip_bit_inside l i H) as (pre & x & post & -> & ->). rewrite !app_length. reflexivity.
  - unfold flip_bit. rewrite skipn_all2, firstn_all2, app_nil_r by exact H. reflexivity.
Qed.

Lemma flip_bit_app_l a b i : (i / 8 < length a)%nat -> flip_bit (a ++ b) i = flip_bit a i ++ b.
Proof.
  intros H. unfold flip_bit. rewrite firstn_app_le, skipn_app_le by lia.
  destruct (skipn (i / 8) a) as [|x r] eqn:E.
  - apply (f_equal (@length N)) in E. rewrite skipn_length in E. cbn [length] in E. lia.
  - rewrite <- app_assoc. reflexivity.
Qed.

Lemma flip_bit_app_r a b i : (length a <= i / 8)%nat ->
  flip_bit (a ++ b) i = a ++ flip_bit b (i - 8 * length a).
Proof.
  intros H. unfold flip_bit. rewrite firstn_app_ge, skipn_app_ge, <- app_assoc by exact H.
  replace ((i - 8 * length a) / 8)%nat with (i / 8 - length a)%nat by lia.
  replace ((i - 8 * length a) mod 8)%nat with (i mod 8)%nat by lia. reflexivity.
Qed.

Lemma crc_bytes_inj a b : wf_bytes a -> wf_bytes b -> crc_bytes a = crc_bytes b -> crc32 a = crc32 b.
Proof.
  intros Ha Hb H. unfold crc_bytes in H.
  rewrite <- (be_dec_be 4 (crc32 a)), <- (be_dec_be 4 (crc32 b)), H; [reflexivity| |];
    change (256 ^ N.of_nat 4) with (2 ^ 32); apply crc32_lt; assumption.
Qed.

Lemma validate_block_flip b i : wf_bytes b -> (i / 8 < length (enc_block b))%nat ->
  validate_block (flip_bit (enc_block b) i) = false.
Proof.
  intros Hw Hi. unfold validate_block. rewrite flip_bit_length, enc_block_length, csz_eq.
  destruct (Nat.leb_spec (length b + 4) 4) as [|Hb]; [reflexivity|].
  rewrite enc_block_length in Hi. unfold enc_block.
  apply not_true_is_false. intros Heq. apply bytes_eqb_eq in Heq.
  destruct (Nat.lt_ge_cases (i / 8) (length b)) as [Hin|Hout].
  - destruct (flip_bit_inside b i Hin) as (pre & x & post & -> & Ef).
    rewrite flip_bit_app_l in Heq by exact Hin.
    rewrite skipn_app_exact, firstn_app_exact, Ef in Heq by (rewrite flip_bit_length; lia).
    apply Forall_app in Hw as [Hpre Hw]. inversion Hw as [|? ? Hx Hpost]; subst.
    pose proof (lxor_pow2_byte x (N.of_nat (i mod 8)) Hx ltac:(lia)) as Hx'.
    apply crc_bytes_inj in Heq; [|apply Forall_app; split; [exact Hpre|constructor; assumption]..].
    revert Heq. apply crc32_single_byte_detected; auto.
    intros E. symmetry in E. exact (lxor_pow2_neq _ _ E).
  - rewrite flip_bit_app_r in Heq by exact Hout.
    rewrite skipn_app_exact, firstn_app_exact in Heq by lia.
    destruct (flip_bit_inside (crc_bytes b) (i - 8 * length b)) as (pre & x & post & Eb & Ef);
      [rewrite crc_bytes_length; lia|].
    rewrite Ef in Heq. rewrite Eb in Heq.
    apply app_inv_head in Heq. injection Heq as E. exact (lxor_pow2_neq _ _ E).
Qed.

Lemma rep_flip bs rest av bad : rep bs rest av bad -> bad = false -> wf_bytes av ->
  forall i, (i / 8 < length rest)%nat ->
  exists av1 av2, av = av1 ++ av2 /\ rep bs (flip_bit rest i) av1 true.
Proof.
  induction 1 as [|tl Hne Hv|b rest av bad Hb Hl Hrep IH]; intros Hf Hw i Hi; [inversion Hi|discriminate|].
  apply Forall_app in Hw as [Hwb Hwav]. rewrite app_length in Hi.
  destruct (Nat.lt_ge_cases (i / 8) (length (enc_block b))) as [Hin|Hout].
  - (* the flipped bit lies in this block: it no longer validates *)
    exists [], (b ++ av). split; [reflexivity|]. rewrite flip_bit_app_l by exact Hin. apply rep_bad.
    + intros E. apply (f_equal (@length N)) in E.
      rewrite app_length, flip_bit_length, enc_block_length in E. cbn in E. lia.
    + replace (firstn (csz + bs) (flip_bit (enc_block b) i ++ rest)) with (flip_bit (enc_block b) i);
        [apply validate_block_flip; assumption|].
      destruct Hl as [->|Hl].
      * rewrite app_nil_r, firstn_all2 by (rewrite flip_bit_length, enc_block_length, csz_eq; lia). reflexivity.
      * rewrite firstn_app_exact by (rewrite flip_bit_length, enc_block_length, csz_eq; lia). reflexivity.
  - rewrite flip_bit_app_r by exact Hout.
    destruct (IH Hf Hwav (i - 8 * length (enc_block b))%nat) as (av1 & av2 & Eav & Hrep'); [lia|].
    exists (b ++ av1), av2. split; [rewrite Eav; apply app_assoc|].
    apply rep_cons; trivial. right. destruct Hl as [->|Hl]; [cbn [length] in Hi; lia|exact Hl].
Qed.

Lemma agree_cons x t' t : agree_until_panic t' t -> agree_until_panic (x :: t') (x :: t).
Proof.
  intros [->|(k & ->)]; [left; reflexivity|]. right. exists (S k). reflexivity.
Qed.

Lemma spec_reads_agree reads : forall av1 av2,
  agree_until_panic (spec_reads av1 true reads) (spec_reads (av1 ++ av2) false reads).
Proof.
  induction reads as [|n reads IH]; intros av1 av2; [left; reflexivity|].
  cbn [spec_reads]. rewrite app_length.
  destruct (Nat.leb_spec n (length av1)) as [Hle|Hgt].
  - destruct (Nat.leb_spec n (length av1 + length av2)); [|lia].
    rewrite firstn_app_le, skipn_app_le by exact Hle. apply agree_cons, IH.
  - right. exists 0%nat. reflexivity.
Qed.

Theorem single_bit_flip_body_proved bs p reads i : (0 < bs)%nat -> wf_bytes p ->
  agree_until_panic
    (fst (sr_reads bs (v2_reader (flip_bit (file_body bs p) i)) reads))
    (fst (sr_reads bs (v2_reader (file_body bs p)) reads)).
Proof.
  intros Hbs Hw. rewrite (read_write_roundtrip_proved bs p reads Hbs).
  pose proof (rep_file_blocks bs p Hbs) as Hrep.
  unfold file_body. set (E := enc_blocks (blocks bs p)) in *.
  destruct (Nat.lt_ge_cases (i / 8) (length E)) as [Hin|Hout].
  - rewrite flip_bit_app_l, v2_reader_tail by (trivial; apply file_tail_length).
    destruct (rep_flip bs E p false Hrep eq_refl Hw i Hin) as (av1 & av2 & Ep & Hrep').
    rewrite (sr_reads_spec bs reads _ av1 true) by (exists av1; auto).
    rewrite Ep. apply spec_reads_agree.
  - left. rewrite flip_bit_app_r, v2_reader_tail by (trivial; rewrite flip_bit_length; apply file_tail_length).
    apply sr_reads_spec. exists p. auto.
Qed.

Theorem recorded_size_proved bs p : (0 < bs)%nat ->
  nlen (file_body bs p) = v2_payload_size (N.of_nat bs) (nlen p).
Proof.
  intros Hbs. destruct (blocks_split bs p Hbs) as (F & r & HF & Hr & -> & HB).
  unfold file_body, v2_payload_size. rewrite HB, nlen_app, enc_blocks_app. unfold nlen.
  rewrite file_tail_length, tail_size_eq, checksum_size_eq.
  rewrite !app_length, (enc_blocks_length_full bs F HF), (concat_length_full bs F HF).
  set (k := length F). set (m := (bs * k)%nat).
  destruct r as [|x r]; cbn [last_block].
  - replace ((N.of_nat (m + length []) + N.of_nat bs - 1) / N.of_nat bs) with (N.of_nat k);
      [cbn [enc_blocks map concat length]; lia|].
    apply N.div_unique with (N.of_nat bs - 1); cbn [length]; lia.
  - rewrite enc_blocks_one, enc_block_length.
    replace ((N.of_nat (m + length (x :: r)) + N.of_nat bs - 1) / N.of_nat bs) with (N.of_nat k + 1); [lia|].
    apply N.div_unique with (N.of_nat (length (x :: r)) - 1); cbn [length] in *; lia.
Qed.

Lemma vv_check_fuel bs : forall f1 f2 l, (length l < f1)%nat -> (length l < f2)%nat ->
  vv_check f1 bs l = vv_check f2 bs l.
Proof.
  induction f1 as [|f1 IH]; intros [|f2] l H1 H2; try solve [inversion H1|inversion H2].
  cbn [vv_check].
  destruct (Nat.ltb_spec (csz + bs) (length l)) as [Hlt|Hge]; [|reflexivity].
  f_equal. apply IH; rewrite skipn_length; rewrite csz_eq in *; lia.
Qed.

Lemma vv_check_cons bs B rest f : length B = (csz + bs)%nat -> (length rest < f)%nat ->
  vv_check (S f) bs (B ++ rest) = validate_block B && vv_check f bs rest.
Proof.
  intros HB Hf. cbn [vv_check]. rewrite app_length, HB.
  destruct rest as [|x rest].
  - rewrite Nat.add_0_r, Nat.ltb_irrefl, app_nil_r. rewrite csz_eq in *.
    destruct f as [|f]; [inversion Hf|]. cbn. symmetry. apply andb_true_r.
  - destruct (Nat.ltb_spec (csz + bs) (csz + bs + length (x :: rest))) as [_|H]; [|cbn [length] in H; lia].
    rewrite firstn_app_exact, skipn_app_exact by (symmetry; exact HB). reflexivity.
Qed.

(* Validate: the 16 byte tail (total, magic) is right, and the bytes before it are a
   chain of valid blocks *)
Definition tail_ok (tail : bytes) (T : N) : bool :=
  bytes_eqb (skipn 8 tail) block_magic && (le_dec (firstn 8 tail) =? (T + 2 ^ 64 - tail_size) mod 2 ^ 64).

Lemma vv_validate_split bs body tail T : length tail = 16%nat ->
  vv_validate bs (mkV2V (body ++ tail) T) = tail_ok tail T && vv_check (S (length body)) bs body.
Proof.
  intros Ht. unfold vv_validate, tail_ok. cbn [vv_block vv_total]. rewrite app_length, Ht, tsz_eq, Nat.add_sub.
  replace (length body + 16 <? 16)%nat with false by (symmetry; apply Nat.ltb_ge, Nat.le_add_l).
  rewrite skipn_app_exact, firstn_app_exact by reflexivity.
  destruct (bytes_eqb _ _); [|reflexivity]. destruct (_ =? _); reflexivity.
Qed.

(* one step of AddChunk's loop does not change what Validate will say later *)
Lemma vv_validate_drain_step bs B R Z T : (12 <= bs)%nat ->
  length B = (csz + bs)%nat -> (csz + bs <= length R)%nat ->
  vv_validate bs (mkV2V (B ++ R ++ Z) T) = validate_block B && vv_validate bs (mkV2V (R ++ Z) T).
Proof.
  intros Hbs HB HR. set (X := R ++ Z).
  assert (HX : (16 <= length X)%nat) by (unfold X; rewrite app_length; rewrite csz_eq in HR; lia).
  rewrite <- (firstn_skipn (length X - 16) X).
  assert (H1 : length (firstn (length X - 16) X) = (length X - 16)%nat) by (rewrite firstn_length; lia).
  assert (Ht : length (skipn (length X - 16) X) = 16%nat) by (rewrite skipn_length; lia).
  rewrite app_assoc, !vv_validate_split, app_length, vv_check_cons by (trivial; lia).
  rewrite (vv_check_fuel bs _ (S (length (firstn (length X - 16) X)))) by lia.
  destruct (tail_ok _ T), (validate_block B); reflexivity.
Qed.

Lemma vv_drain_spec bs : (12 <= bs)%nat -> forall fuel blk Z T,
  let '(blk', ok) := vv_drain fuel bs blk in
  if ok then vv_validate bs (mkV2V (blk' ++ Z) T) = vv_validate bs (mkV2V (blk ++ Z) T)
  else vv_validate bs (mkV2V (blk ++ Z) T) = false.
Proof.
  intros Hbs. induction fuel as [|fuel IH]; intros blk Z T; [reflexivity|].
  cbn [vv_drain].
  destruct (Nat.leb_spec (csz + bs) (length (skipn (csz + bs) blk))) as [Hle|Hgt]; [|reflexivity].
  assert (HB : length (firstn (csz + bs) blk) = (csz + bs)%nat)
    by (rewrite skipn_length in Hle; rewrite firstn_length; lia).
  pose proof (vv_validate_drain_step bs _ _ Z T Hbs HB Hle) as Hstep.
  rewrite app_assoc, firstn_skipn in Hstep. rewrite Hstep.
  destruct (validate_block (firstn (csz + bs) blk)); [|reflexivity].
  specialize (IH (skipn (csz + bs) blk) Z T).
  destruct (vv_drain fuel bs (skipn (csz + bs) blk)) as [blk' ok]. exact IH.
Qed.

Theorem vv_run_chunking_independent bs chunks : (12 <= bs)%nat -> forall Y T,
  vv_run bs (mkV2V Y T) chunks =
  vv_validate bs (mkV2V (Y ++ concat chunks) (T + nlen (concat chunks))).
Proof.
  intros Hbs. induction chunks as [|c chunks IH]; intros Y T.
  - cbn [vv_run concat]. rewrite app_nil_r, N.add_0_r. reflexivity.
  - cbn [vv_run concat]. unfold vv_add. cbn [vv_block vv_total].
    pose proof (vv_drain_spec bs Hbs (length (Y ++ c)) (Y ++ c) (concat chunks)
                  (T + nlen c + nlen (concat chunks))) as Hd.
    destruct (vv_drain (length (Y ++ c)) bs (Y ++ c)) as [blk' ok].
    rewrite nlen_app, N.add_assoc, app_assoc.
    destruct ok; [rewrite IH|symmetry]; exact Hd.
Qed.

Lemma vv_check_enc_blocks bs F : full bs F -> (0 < bs)%nat ->
  forall r, (length r < bs)%nat -> forall f, (length (enc_blocks (F ++ last_block r)) < f)%nat ->
  vv_check f bs (enc_blocks (F ++ last_block r)) = true.
Proof.
  intros HF Hbs. induction HF as [|b F Hb HF IH]; intros r Hr [|f] Hf; try solve [inversion Hf].
  - destruct r as [|x r]; [reflexivity|].
    cbn [app last_block] in *. rewrite enc_blocks_one in *. cbn [vv_check].
    rewrite enc_block_length, csz_eq in *.
    destruct (Nat.ltb_spec (4 + bs) (length (x :: r) + 4)) as [H|_]; [cbn [length] in *; lia|].
    rewrite validate_block_enc by (cbn [length]; lia). apply orb_true_r.
  - cbn [app] in *. rewrite enc_blocks_cons, app_length, enc_block_length in *.
    rewrite vv_check_cons, validate_block_enc, IH by (rewrite ?enc_block_length, ?csz_eq; lia).
    reflexivity.
Qed.

Lemma vv_validate_file_body bs p : (0 < bs)%nat -> nlen (file_body bs p) < 2 ^ 64 ->
  vv_validate bs (mkV2V (file_body bs p) (nlen (file_body bs p))) = true.
Proof.
  intros Hbs Hlt. destruct (blocks_split bs p Hbs) as (F & r & HF & Hr & _ & HB).
  unfold file_body in *. rewrite HB in *. set (E := enc_blocks (F ++ last_block r)) in *.
  assert (HN : nlen (E ++ file_tail (nlen E)) = nlen E + 16)
    by (rewrite nlen_app; unfold nlen at 2; rewrite file_tail_length; reflexivity).
  rewrite HN in *. rewrite vv_validate_split by apply file_tail_length.
  replace (vv_check (S (length E)) bs E) with true by (symmetry; apply vv_check_enc_blocks; auto).
  unfold tail_ok, file_tail.
  rewrite skipn_app_exact, firstn_app_exact, bytes_eqb_refl by (rewrite le_length; reflexivity).
  assert (HE : nlen E < 2 ^ 64) by (eapply N.le_lt_trans; [apply N.le_add_r|exact Hlt]).
  rewrite le_dec_le, tail_size_eq by exact HE.
  rewrite <- N.add_assoc, (N.add_comm 16), N.add_assoc, N.add_sub.
  change (nlen E + 2 ^ 64) with (nlen E + 1 * 2 ^ 64).
  rewrite N.mod_add, N.mod_small, N.eqb_refl by (trivial; discriminate). reflexivity.
Qed.

Theorem sv_run_v2_proved bs chunks : forall s id, id <> 0 ->
  sv_run bs (V2 s) id chunks = if vv_run bs s chunks then Accept else Reject.
Proof.
  induction chunks as [|c chunks IH]; intros s id Hid.
  - reflexivity.
  - cbn [sv_run vv_run]. unfold sv_add. destruct (N.eqb_spec id 0) as [|_]; [contradiction|].
    destruct (vv_add bs s c) as [s' ok]. destruct ok; [|reflexivity].
    apply IH. lia.
Qed.

Definition pv_exact (f : pv_file) : Prop :=
  let '(haspath, recorded, actual) := f in
  haspath = true /\ recorded <> 0 /\ actual = Some recorded.

Theorem snapshot_validate_exact_proved l : panic_on_size_mismatch = true ->
  snapshot_validate l = PvTrue -> l <> [] /\ Forall pv_exact l.
Proof.
  intros Hp H. destruct l as [|f0 l0]; [discriminate|]. split; [discriminate|].
  unfold snapshot_validate in H. remember (f0 :: l0) as l eqn:E. clear E f0 l0.
  induction l as [|[[hp rc] act] l IH]; [constructor|].
  cbn [pv_validate pv_check] in H.
  destruct hp; cbn [negb orb] in H; [|discriminate].
  destruct (N.eqb_spec rc 0) as [|Hrc]; [discriminate|].
  destruct act as [a|]; [|discriminate].
  destruct (N.eqb_spec rc a) as [->|Hne].
  - constructor; [cbn; auto|apply IH; exact H].
  - rewrite Hp in H. discriminate.
Qed.
