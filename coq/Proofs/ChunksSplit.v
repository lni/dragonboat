(* C15: sender-side splitting (snapshot.go splitBySnapshotFile / getChunks, the BlockWriter
   blocks of stream mode) and what the sender's chunks write at the receiver. *)
From Coq Require Import List NArith Bool Lia.
From DB Require Import Base.Bytes Proofs.ListFacts Model.Chunks Proofs.Chunks.
Import ListNotations.
Open Scope N_scope.
Definition nsum (l : list N) : N := fold_right N.add 0 l.

Lemma nseq_succ : forall n, nseq (n + 1) = nseq n ++ [n].
Proof.
  intro n. unfold nseq. replace (N.to_nat (n + 1)) with (S (N.to_nat n)) by lia.
  rewrite seq_S, map_app. simpl. rewrite N2Nat.id. reflexivity.
Qed.
Lemma In_nseq : forall n i, In i (nseq n) -> i < n.
Proof. intros n i H. apply in_map_iff in H as [x [<- Hi]]. apply in_seq in Hi. lia. Qed.
Lemma nlen_nseq : forall n, nlen (nseq n) = n.
Proof. intro n. unfold nlen, nseq. rewrite map_length, seq_length. apply N2Nat.id. Qed.
Lemma nlen_map : forall (A B : Type) (f : A -> B) l, nlen (map f l) = nlen l.
Proof. intros. unfold nlen. rewrite map_length. reflexivity. Qed.

(* the byte range (offset, size) a chunk covers in its file: loadChunkData reads
   ChunkSize bytes at FileChunkId * chunk size *)
Definition range (cs : N) (m : cmeta) : N * N := (c_fcid m * cs, c_size m).

Fixpoint covers (off : N) (rs : list (N * N)) (total : N) : Prop :=
  match rs with
  | [] => off = total
  | (o, s) :: r => o = off /\ 0 < s /\ covers (off + s) r total
  end.

Lemma covers_app : forall r1 r2 a b c, covers a r1 b -> covers b r2 c -> covers a (r1 ++ r2) c.
Proof.
  induction r1 as [|[o s] r1 IH]; simpl; intros r2 a b c H1 H2.
  - subst. exact H2.
  - destruct H1 as [Ho [Hs H1]]. eauto.
Qed.
Lemma covers_nsum : forall rs off total, covers off rs total -> off + nsum (map snd rs) = total.
Proof.
  induction rs as [|[o s] rs IH]; simpl; intros off total H.
  - lia.
  - destruct H as [_ [_ H]]. apply IH in H. lia.
Qed.

Fixpoint mids_from (i : N) (l : list cmeta) : Prop :=
  match l with
  | [] => True
  | m :: r => c_id m = i /\ mids_from (i + 1) r
  end.

Lemma mids_from_app : forall l1 l2 i, mids_from i l1 -> mids_from (i + nlen l1) l2 -> mids_from i (l1 ++ l2).
Proof.
  induction l1 as [|m l1 IH]; intros l2 i H1 H2; simpl.
  - rewrite N.add_0_r in H2. exact H2.
  - destruct H1 as [A B]. split; auto. apply IH; auto.
    replace (i + 1 + nlen l1) with (i + nlen (m :: l1)); auto.
    unfold nlen. simpl length. lia.
Qed.
Lemma mids_from_map : forall (f : cmeta -> cmeta), (forall m, c_id (f m) = c_id m) ->
                                                   forall l i, mids_from i l -> mids_from i (map f l).
Proof. intros f Hf. induction l as [|m l IH]; intros i H; simpl; auto. destruct H. rewrite Hf. auto. Qed.
Lemma mids_from_nseq : forall (g : N -> cmeta) start, (forall i, c_id (g i) = start + i) ->
                                                      forall k, mids_from start (map g (nseq k)).
Proof.
  intros g start Hg. induction k as [|k IH] using N.peano_ind; [exact I|].
  rewrite <- N.add_1_r, nseq_succ, map_app. apply mids_from_app; [exact IH|].
  rewrite nlen_map, nlen_nseq. simpl. auto.
Qed.

(* [0, n) cut into pieces of cs bytes and a rest: splitBySnapshotFile (per file) and the
   BlockWriter (per payload) make the same cut *)
Definition cut (cs n : N) : list (N * N) :=
  map (fun i => (i * cs, if i =? chunk_count cs n - 1 then n - (chunk_count cs n - 1) * cs else cs))
      (nseq (chunk_count cs n)).

Section Cut.
  Variable cs : N.
  Hypothesis cs_pos : 0 < cs.

  (* chunk_count is the ceiling of n / cs; every use of the division goes through this *)
  Lemma chunk_count_bounds : forall n, 0 < n ->
      1 <= chunk_count cs n /\ (chunk_count cs n - 1) * cs < n <= (chunk_count cs n - 1) * cs + cs.
  Proof.
    intros n Hn. unfold chunk_count. rewrite N.add_sub.
    pose proof (N.mul_div_le (n - 1) cs). pose proof (N.mul_succ_div_gt (n - 1) cs).
    generalize dependent ((n - 1) / cs). lia.
  Qed.

  Lemma covers_full : forall k, covers 0 (map (fun i => (i * cs, cs)) (nseq k)) (k * cs).
  Proof.
    induction k as [|k IH] using N.peano_ind; [reflexivity|].
    rewrite <- N.add_1_r, nseq_succ, map_app. apply (covers_app _ _ _ _ _ IH).
    simpl. repeat split; auto. lia.
  Qed.

  Lemma cut_covers : forall n, 0 < n -> covers 0 (cut cs n) n.
  Proof.
    intros n Hn. pose proof (chunk_count_bounds n Hn) as B. unfold cut, chunk_count in *.
    rewrite N.add_sub in *. generalize dependent ((n - 1) / cs). intros p [_ B].
    rewrite nseq_succ, map_app. apply covers_app with (b := p * cs).
    - rewrite map_ext_in with (g := fun i => (i * cs, cs)); [apply covers_full|].
      intros i Hi. apply In_nseq in Hi. replace (i =? p) with false; [reflexivity|].
      symmetry. apply N.eqb_neq. lia.
    - simpl. rewrite N.eqb_refl. repeat split; lia.
  Qed.

  Lemma cut_sizes : forall n, 0 < n -> Forall (fun r => 1 <= snd r <= cs) (cut cs n).
  Proof.
    intros n Hn. pose proof (chunk_count_bounds n Hn) as B.
    apply Forall_map, Forall_forall. intros i _. simpl. destruct (i =? _); lia.
  Qed.

  Lemma cut_exact : forall n, 0 < n -> n mod cs = 0 -> Forall (fun r => snd r = cs) (cut cs n).
  Proof.
    intros n Hn Hm. pose proof (chunk_count_bounds n Hn) as [_ B].
    apply Forall_map, Forall_forall. intros i _. simpl. destruct (i =? _); [|reflexivity].
    (* n = k * cs lies in (c * cs, c * cs + cs]: k = c + 1 *)
    generalize dependent (chunk_count cs n - 1). intros c [B1 B2].
    pose proof (N.div_mod n cs ltac:(lia)) as E. rewrite Hm, N.add_0_r, N.mul_comm in E.
    generalize dependent (n / cs). intros k E. rewrite E in *.
    apply N.mul_lt_mono_pos_r in B1; [|exact cs_pos].
    rewrite <- N.mul_succ_l in B2. apply N.mul_le_mono_pos_r in B2; [|exact cs_pos].
    replace k with (c + 1) by lia. lia.
  Qed.

  Lemma split_file_ranges : forall msg path fsize start sf,
      map (range cs) (split_file cs msg path fsize start sf) = cut cs fsize.
  Proof. intros. unfold split_file. rewrite map_map. reflexivity. Qed.

  Lemma split_file_ids : forall msg path fsize start sf,
      mids_from start (split_file cs msg path fsize start sf).
  Proof. intros. apply mids_from_nseq. reflexivity. Qed.

  Lemma split_file_covers :
    forall msg path fsize start sf, 0 < fsize ->
      let l := split_file cs msg path fsize start sf in
      let cc := chunk_count cs fsize in
      nsum (map c_size l) = fsize /\
      map c_fcid l = nseq cc /\
      map c_id l = map (N.add start) (nseq cc) /\
      nlen l = cc /\
      Forall (fun m => 1 <= c_size m <= cs /\ c_fccount m = cc /\ c_fsize m = fsize /\
                       c_path m = path /\ c_size m = (if c_fcid m =? cc - 1 then fsize - (cc - 1) * cs else cs) /\
                       c_hasfi m = (match sf with Some _ => true | None => false end)) l.
  Proof.
    intros msg path fsize start sf Hf l cc. split; [|split; [|split; [|split]]].
    - replace (map c_size l) with (map snd (map (range cs) l)) by (rewrite map_map; reflexivity).
      unfold l. rewrite split_file_ranges. apply (covers_nsum _ 0). apply cut_covers. exact Hf.
    - unfold l, split_file. rewrite map_map. apply map_id.
    - unfold l, split_file. rewrite map_map. reflexivity.
    - unfold l, split_file. rewrite nlen_map. apply nlen_nseq.
    - pose proof (chunk_count_bounds fsize Hf) as B.
      apply Forall_map, Forall_forall. intros i _. simpl. fold cc in B |- *.
      repeat split; try reflexivity; destruct sf, (i =? cc - 1); try reflexivity; lia.
  Qed.

End Cut.

Lemma get_chunks_count : forall cs msg l, get_chunks cs msg = Some l ->
    Forall (fun m => c_count m = nlen l) l /\
    (0 < m_fsize msg /\ Forall (fun f => 0 < sf_size f) (m_files msg)).
Proof.
  intros cs msg l H. unfold get_chunks in H.
  destruct (_ || _) eqn:E; [discriminate|]. injection H as <-.
  apply orb_false_iff in E as [E1 E2]. split; [|split].
  - rewrite nlen_map. apply Forall_map, Forall_forall. reflexivity.
  - apply N.neq_0_lt_0, N.eqb_neq, E1.
  - apply Forall_forall. intros f Hf. apply N.neq_0_lt_0. intro Z.
    rewrite (proj2 (existsb_exists _ _)) in E2; [discriminate|].
    exists f. split; [exact Hf|]. apply N.eqb_eq. exact Z.
Qed.

Section SplitFull.
  Variable cs : N.
  Hypothesis cs_pos : 0 < cs.

  Fixpoint split_segs (msg : ssmsg) (files : list sfile) (start : N) : list (list cmeta) :=
    match files with
    | [] => []
    | f :: r =>
      let l := split_file cs msg (sf_path f) (sf_size f) start (Some f) in
      l :: split_segs msg r (start + nlen l)
    end.

  Lemma split_files_concat : forall msg files start,
      split_files cs msg files start = concat (split_segs msg files start).
  Proof. induction files as [|f r IH]; intro start; simpl; auto. rewrite IH. reflexivity. Qed.

  Definition seg_ok (path : bytes) (fsize : N) (sf : option sfile) (seg : list cmeta) : Prop :=
    covers 0 (map (range cs) seg) fsize /\
    map c_fcid seg = nseq (nlen seg) /\
    nlen seg = chunk_count cs fsize /\
    Forall (fun m => c_path m = path /\ c_fsize m = fsize /\ c_fccount m = nlen seg /\ 1 <= c_size m <= cs /\
                     c_hasfi m = (match sf with Some _ => true | None => false end) /\
                     c_fi m = (match sf with Some f => f | None => sfile0 end)) seg.

  (* the total count is stamped on afterwards and is no part of [seg_ok] *)
  Lemma seg_ok_set_count : forall path fsize sf seg n,
      seg_ok path fsize sf seg -> seg_ok path fsize sf (map (set_count n) seg).
  Proof.
    intros path fsize sf seg n [A [B [C E]]]. unfold seg_ok.
    rewrite nlen_map, !map_map. repeat split; auto.
    apply Forall_map. exact E.
  Qed.

  Lemma split_file_seg_ok : forall msg path fsize start sf, 0 < fsize ->
      seg_ok path fsize sf (split_file cs msg path fsize start sf).
  Proof.
    intros msg path fsize start sf Hf.
    pose proof (chunk_count_bounds cs cs_pos fsize Hf) as B.
    unfold seg_ok. rewrite split_file_ranges. unfold split_file. rewrite nlen_map, nlen_nseq, map_map.
    repeat split; [apply cut_covers; assumption|apply map_id|].
    apply Forall_map, Forall_forall. intros i _. simpl.
    repeat split; try reflexivity; destruct (i =? _); lia.
  Qed.

  Lemma split_segs_ok : forall msg files start,
      Forall (fun f => 0 < sf_size f) files ->
      Forall2 (fun seg f => seg_ok (sf_path f) (sf_size f) (Some f) seg) (split_segs msg files start) files /\
      mids_from start (concat (split_segs msg files start)).
  Proof.
    induction files as [|f r IH]; intros start Hp; simpl.
    - split; constructor.
    - inversion Hp; subst. destruct (IH (start + nlen (split_file cs msg (sf_path f) (sf_size f) start (Some f))) H2) as [A B].
      split.
      + constructor; auto. apply split_file_seg_ok. assumption.
      + apply mids_from_app; auto. apply split_file_ids.
  Qed.

  Lemma get_chunks_segments :
    forall msg,
      (get_chunks cs msg = None <-> m_fsize msg = 0 \/ exists f, In f (m_files msg) /\ sf_size f = 0) /\
      (forall l, get_chunks cs msg = Some l ->
         exists seg0 segs,
           l = seg0 ++ concat segs /\
           seg_ok (m_path msg) (m_fsize msg) None (map (set_count 0) seg0) /\
           Forall2 (fun seg f => seg_ok (sf_path f) (sf_size f) (Some f) (map (set_count 0) seg)) segs (m_files msg) /\
           mids_from 0 l /\ Forall (fun m => c_count m = nlen l) l).
  Proof.
    intro msg. split.
    - unfold get_chunks. destruct (_ || _) eqn:E; split; intro H; try discriminate; auto.
      + apply orb_true_iff in E. destruct E as [E|E]; [left; apply N.eqb_eq; exact E|right].
        apply existsb_exists in E. destruct E as [f [A B]]. exists f. split; auto. apply N.eqb_eq. exact B.
      + exfalso. apply orb_false_iff in E as [E1 E2]. destruct H as [H|[f [A B]]].
        * apply N.eqb_neq in E1. contradiction.
        * rewrite (proj2 (existsb_exists _ _)) in E2; [discriminate|].
          exists f. split; auto. apply N.eqb_eq. exact B.
    - intros l H.
      destruct (get_chunks_count cs msg l H) as [Hc [Hm Hfs]].
      unfold get_chunks in H. destruct (_ || _); [discriminate|]. injection H as H.
      set (main := split_file cs msg (m_path msg) (m_fsize msg) 0 None) in *.
      rewrite split_files_concat in H.
      set (segs := split_segs msg (m_files msg) (nlen main)) in *.
      set (n := nlen (main ++ concat segs)) in *.
      exists (map (set_count n) main), (map (map (set_count n)) segs).
      destruct (split_segs_ok msg (m_files msg) (nlen main) Hfs) as [S M]. fold segs in S, M.
      split. { rewrite <- H. rewrite map_app, concat_map. reflexivity. }
      split. { do 2 apply seg_ok_set_count. apply split_file_seg_ok. exact Hm. }
      split. { clearbody n. clear -S. induction S; simpl; constructor; auto. do 2 apply seg_ok_set_count. assumption. }
      split. { rewrite <- H. apply mids_from_map; [reflexivity|].
               apply mids_from_app; [apply split_file_ids|]. exact M. }
      exact Hc.
  Qed.
End SplitFull.

Section StreamSplit.
  Variable bs : N.
  Hypothesis bs_pos : 0 < bs.

  Lemma block_ranges_0 : block_ranges bs 0 = [].
  Proof.
    unfold block_ranges, block_count. rewrite N.add_0_l, N.div_small by lia. reflexivity.
  Qed.

  Lemma block_ranges_cut : forall n, 0 < n -> block_ranges bs n = cut bs n.
  Proof.
    intros n Hn. unfold block_ranges, cut.
    replace (block_count bs n) with (chunk_count bs n).
    - apply map_ext. intro i. destruct (N.eqb_spec i (chunk_count bs n - 1)) as [->|]; reflexivity.
    - unfold block_count, chunk_count.
      replace (n + bs - 1) with ((n - 1) + 1 * bs) by lia. rewrite N.div_add by lia. reflexivity.
  Qed.

  Lemma block_ranges_partition : forall n,
      covers 0 (block_ranges bs n) n /\
      nlen (block_ranges bs n) = block_count bs n /\
      Forall (fun r => 1 <= snd r <= bs) (block_ranges bs n) /\
      (n mod bs = 0 -> Forall (fun r => snd r = bs) (block_ranges bs n)).
  Proof.
    intro n. split; [|split].
    - destruct (N.eq_0_gt_0_cases n) as [->|Hn]; [rewrite block_ranges_0; reflexivity|].
      rewrite block_ranges_cut by exact Hn. apply cut_covers; assumption.
    - unfold block_ranges. rewrite nlen_map. apply nlen_nseq.
    - destruct (N.eq_0_gt_0_cases n) as [->|Hn]; [rewrite block_ranges_0; split; constructor|].
      rewrite block_ranges_cut by exact Hn. split; [apply cut_sizes|apply cut_exact]; assumption.
  Qed.
End StreamSplit.

Section StreamShape.
  Variable D : Type.
  Variable dempty : D.
  Variable dapp : D -> D -> D.
  Variable dlen : D -> N.
  Variable msg : ssmsg.
  Variable did : N.
  Notation chunk := (chunk D).
  Notation sfrom := (stream_chunks_from D dempty dlen msg did).
  Let m0 := stream_meta msg did 0 0 0.

  Lemma stream_same : forall datas i, same_stream D did m0 (sfrom i datas).
  Proof.
    induction datas as [|d r IH]; intro i; simpl; constructor; try apply IH; try constructor;
      simpl; repeat split; reflexivity.
  Qed.

  Lemma stream_ids : forall datas i, ids_from D i (sfrom i datas).
  Proof. induction datas as [|d r IH]; intro i; simpl; split; auto. Qed.

  Lemma stream_last_only : forall datas i, last_only D (sfrom i datas).
  Proof.
    induction datas as [|d r IH]; intro i.
    - reflexivity.
    - change (sfrom i (d :: r)) with ((stream_meta msg did i 0 (dlen d), d) :: sfrom (i + 1) r).
      specialize (IH (i + 1)).
      destruct (sfrom (i + 1) r) eqn:E; [destruct IH|].
      split; [|exact IH]. unfold is_last. simpl.
      replace (0 =? last_chunk_count) with false by reflexivity.
      destruct (0 =? i + 1) eqn:E1; auto. apply N.eqb_eq in E1. lia.
  Qed.

  Lemma stream_data : forall datas i, map snd (sfrom i datas) = datas ++ [dempty].
  Proof. induction datas as [|d r IH]; intro i; simpl; [|rewrite IH]; reflexivity. Qed.

  Lemma stream_replay_from : forall datas i files old,
      i <> 0 -> bad_name (path_base (m_path msg)) = false ->
      alookup bytes_eqb (path_base (m_path msg)) files = Some old ->
      replay D dapp files (sfrom i datas) =
      Some (fset (path_base (m_path msg)) (fold_left dapp (datas ++ [dempty]) old) files).
  Proof.
    induction datas as [|d r IH]; intros i files old Hi Hb Hl.
    - simpl. rewrite Hb. apply N.eqb_neq in Hi. rewrite Hi. rewrite Hl. reflexivity.
    - change (sfrom i (d :: r)) with ((stream_meta msg did i 0 (dlen d), d) :: sfrom (i + 1) r).
      simpl replay. rewrite Hb. apply N.eqb_neq in Hi. rewrite Hi. rewrite Hl.
      rewrite (IH (i + 1) _ (dapp old d)).
      + unfold fset. rewrite aset_aset by exact bytes_eqb_eq. reflexivity.
      + lia.
      + exact Hb.
      + unfold fset. apply alookup_aset_same. exact bytes_eqb_eq.
  Qed.

  Lemma stream_replay : forall d0 r,
      bad_name (path_base (m_path msg)) = false ->
      replay D dapp [] (stream_chunks D dempty dlen msg did (d0 :: r)) =
      Some [(path_base (m_path msg), fold_left dapp (r ++ [dempty]) d0)].
  Proof.
    intros d0 r Hb. unfold stream_chunks.
    change (sfrom 0 (d0 :: r)) with ((stream_meta msg did 0 0 (dlen d0), d0) :: sfrom (0 + 1) r).
    simpl replay. rewrite Hb.
    rewrite (stream_replay_from r (0 + 1) _ d0).
    - unfold fset. simpl. rewrite bytes_eqb_refl. reflexivity.
    - lia.
    - exact Hb.
    - unfold fset. simpl. rewrite bytes_eqb_refl. reflexivity.
  Qed.
End StreamShape.

Section FileBytes.
  Variable D : Type.
  Variable dapp : D -> D -> D.
  Variable dlen : D -> N.
  Variable dsub : D -> N -> N -> D.
  (* the one law of byte strings the statement needs *)
  Hypothesis dsub_app : forall f a n m, a + n + m <= dlen f -> dapp (dsub f a n) (dsub f (a + n) m) = dsub f a (n + m).
  Variable cs : N.
  Hypothesis cs_pos : 0 < cs.
  Notation chunk := (chunk D).

  Lemma load_all_app : forall src did l1 l2 chunks,
      load_all D dlen dsub cs src did (l1 ++ l2) = Some chunks ->
      exists c1 c2, chunks = c1 ++ c2 /\ load_all D dlen dsub cs src did l1 = Some c1 /\
                    load_all D dlen dsub cs src did l2 = Some c2.
  Proof.
    induction l1 as [|m l1 IH]; intros l2 chunks H; simpl in *.
    - exists [], chunks. auto.
    - destruct (load_chunk D dlen dsub cs src m) as [d|]; [|discriminate].
      destruct (load_all D dlen dsub cs src did (l1 ++ l2)) as [r|] eqn:E; [|discriminate].
      injection H as H; subst chunks. destruct (IH l2 r E) as [c1 [c2 [A [B C]]]].
      exists ((set_did did m, d) :: c1), c2. rewrite B. subst r. auto.
  Qed.

  (* Chunks of one file [f] whose ranges cover [off, total) in order, loaded and replayed
     onto a directory that holds the first [off] bytes of [f], leave its first [total] bytes
     there. Only consecutiveness matters, not how the cut was made: the chunk at offset 0
     creates the file (FileChunkId 0), every other one appends where the file ends. *)
  Lemma load_replay_cover : forall src did path f total,
      alookup bytes_eqb path src = Some f -> total <= dlen f -> 0 < total ->
      bad_name (path_base path) = false ->
      forall l off files chunks,
        Forall (fun m => c_path m = path) l ->
        covers off (map (range cs) l) total ->
        off = 0 \/ alookup bytes_eqb (path_base path) files = Some (dsub f 0 off) ->
        load_all D dlen dsub cs src did l = Some chunks ->
        replay D dapp files chunks = Some (fset (path_base path) (dsub f 0 total) files).
  Proof.
    intros src did path f total Hsrc Hle Hpos Hb.
    induction l as [|m l IH]; intros off files chunks Hp Hc Hold H; simpl in H, Hc.
    - injection H as <-. subst off. destruct Hold as [->|Hold]; [lia|].
      simpl. unfold fset. rewrite aset_same_id; auto. exact bytes_eqb_eq.
    - inversion Hp as [|? ? Hpm Hp']; subst. destruct Hc as [Ho [Hs Hc]].
      pose proof (covers_nsum _ _ _ Hc) as Hend.
      unfold load_chunk in H. rewrite Hsrc in H.
      destruct (_ <=? dlen f); [|discriminate].
      destruct (load_all D dlen dsub cs src did l) as [r|]; [|discriminate].
      injection H as <-. simpl. rewrite Hb, Ho.
      assert (Next : forall x, x = dsub f 0 (off + c_size m) ->
                 replay D dapp (fset (path_base (c_path m)) x files) r =
                 Some (fset (path_base (c_path m)) (dsub f 0 total) files)).
      { intros x ->. rewrite (IH (off + c_size m) _ r Hp' Hc); auto.
        - unfold fset. rewrite aset_aset by exact bytes_eqb_eq. reflexivity.
        - right. apply alookup_aset_same. exact bytes_eqb_eq. }
      destruct (N.eqb_spec (c_fcid m) 0) as [Z|Z].
      + apply Next. rewrite Z in Ho. simpl in Ho. subst off. reflexivity.
      + destruct Hold as [->|Hold]; [lia|]. rewrite Hold. apply Next.
        apply (dsub_app f 0). lia.
  Qed.

  (* the files of a message as the receiver will hold them *)
  Fixpoint written (files : list (sfile * D)) (acc : dir D) : dir D :=
    match files with
    | [] => acc
    | (sf, f) :: r => written r (fset (path_base (sf_path sf)) (dsub f 0 (sf_size sf)) acc)
    end.

  Lemma load_split_file : forall src did msg path f fsize start sf n chunks files,
      alookup bytes_eqb path src = Some f -> 0 < fsize -> fsize <= dlen f ->
      bad_name (path_base path) = false ->
      load_all D dlen dsub cs src did (map (set_count n) (split_file cs msg path fsize start sf)) = Some chunks ->
      replay D dapp files chunks = Some (fset (path_base path) (dsub f 0 fsize) files).
  Proof.
    intros src did msg path f fsize start sf n chunks files Hl Hp Hle Hb H.
    destruct (seg_ok_set_count cs _ _ _ _ n (split_file_seg_ok cs cs_pos msg path fsize start sf Hp))
      as [C [_ [_ P]]].
    eapply (load_replay_cover src did path f fsize Hl Hle Hp Hb _ 0 files chunks);
      [|exact C|left; reflexivity|exact H].
    eapply Forall_impl; [|exact P]. intros m Hm. apply Hm.
  Qed.

  Lemma load_ext_files : forall src did msg n (files : list sfile) (fs : list D) start chunks acc,
      Forall2 (fun sf f => alookup bytes_eqb (sf_path sf) src = Some f /\ 0 < sf_size sf /\ sf_size sf <= dlen f /\
                           bad_name (path_base (sf_path sf)) = false) files fs ->
      load_all D dlen dsub cs src did (map (set_count n) (split_files cs msg files start)) = Some chunks ->
      replay D dapp acc chunks = Some (written (combine files fs) acc).
  Proof.
    intros src did msg n files fs. revert fs.
    induction files as [|sf files IH]; intros fs start chunks acc F H.
    - inversion F; subst. simpl in H. injection H as H; subst. reflexivity.
    - inversion F as [|? f ? fs' [Hl [Hp [Hle Hb]]] F']; subst. simpl split_files in H. rewrite map_app in H.
      destruct (load_all_app _ _ _ _ _ H) as [c1 [c2 [E [L1 L2]]]]. subst chunks.
      rewrite replay_app, (load_split_file _ _ _ _ _ _ _ _ _ _ _ Hl Hp Hle Hb L1).
      simpl combine. simpl written. eapply IH; eauto.
  Qed.

  Lemma sender_replay : forall src did msg chunks fm (fs : list D),
      send_snapshot D dlen dsub cs did src msg = Some chunks ->
      alookup bytes_eqb (m_path msg) src = Some fm -> m_fsize msg <= dlen fm ->
      bad_name (path_base (m_path msg)) = false ->
      Forall2 (fun sf f => alookup bytes_eqb (sf_path sf) src = Some f /\ 0 < sf_size sf /\ sf_size sf <= dlen f /\
                           bad_name (path_base (sf_path sf)) = false) (m_files msg) fs ->
      replay D dapp [] chunks =
      Some (written (combine (m_files msg) fs) [(path_base (m_path msg), dsub fm 0 (m_fsize msg))]).
  Proof.
    intros src did msg chunks fm fs H Hl Hle Hb F.
    unfold send_snapshot in H. destruct (get_chunks cs msg) as [metas|] eqn:G; [|discriminate].
    destruct (get_chunks_count cs msg metas G) as [_ [Hm _]].
    unfold get_chunks in G. destruct (_ || _); [discriminate|]. injection G as G. subst metas.
    rewrite map_app in H. destruct (load_all_app _ _ _ _ _ H) as [c1 [c2 [E [L1 L2]]]]. subst chunks.
    rewrite replay_app, (load_split_file _ _ _ _ _ _ _ _ _ _ [] Hl Hm Hle Hb L1).
    eapply load_ext_files; eauto.
  Qed.
End FileBytes.

Definition bytes_sub (l : bytes) (off n : N) : bytes := firstn (N.to_nat n) (skipn (N.to_nat off) l).

Lemma bytes_sub_app : forall (f : bytes) a n m, a + n + m <= nlen f ->
    bytes_sub f a n ++ bytes_sub f (a + n) m = bytes_sub f a (n + m).
Proof.
  intros f a n m _. unfold bytes_sub. rewrite !N2Nat.inj_add.
  rewrite <- skipn_skipn. symmetry. apply firstn_add.
Qed.
Lemma bytes_sub_all : forall f : bytes, bytes_sub f 0 (nlen f) = f.
Proof. intro f. unfold bytes_sub, nlen. rewrite Nat2N.id. simpl. apply firstn_all. Qed.
