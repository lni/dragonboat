(* C18, local half: a non-voting member or a witness never becomes (pre)candidate or
   leader in a step of raft.Handle; the only role change is the promotion of a non-voting
   member to follower by an applied AddNode / restored membership. Then: what is sent to a
   witness, and to whom ReadIndex hints go. *)
From DB Require Import Model.RaftCore Proofs.RaftTable Proofs.RaftStep.
Open Scope N_scope.

Definition rk (r r' : raft) : Prop := r_role r' = r_role r.
Lemma tvr_rk r r' : tvr r' = tvr r -> rk r r'.
Proof. intros E. exact (f_equal snd E). Qed.
Lemma broadcast_replicate_rk r : rk r (broadcast_replicate r).
Proof. apply tvr_rk, broadcast_replicate_tvr. Qed.

Lemma reset_leader_role r t b l : r_role (set_leader_id (reset r t b) l) = r_role r.
Proof.
  change (snd (tvr (set_leader_id (reset r t b) l)) = r_role r).
  rewrite set_leader_id_tvr, reset_tvr. destruct (_ =? _); reflexivity.
Qed.
Lemma become_nonvoting_rk r t l : rk r (become_nonvoting r t l).
Proof. unfold become_nonvoting. destruct (negb _); [reflexivity|apply reset_leader_role]. Qed.
Lemma become_witness_rk r t l : rk r (become_witness r t l).
Proof. unfold become_witness. destruct (negb _); [reflexivity|apply reset_leader_role]. Qed.
Lemma handle_node_request_vote_rk r m : rk r (handle_node_request_vote r m).
Proof.
  unfold handle_node_request_vote. cbv zeta.
  destruct (_ && _); (eapply eq_trans; [apply (tvr_rk _ _ (send_tvr _ _))|reflexivity]).
Qed.

(* the promotion relation: unchanged, or non-voting -> follower *)
Definition promo (r r' : raft) : Prop :=
  r_role r' = r_role r \/ (r_role r = NonVoting /\ r_role r' = Follower).
Lemma rk_promo r r' : rk r r' -> promo r r'. Proof. left; assumption. Qed.
Lemma promo_rk_trans a b c : promo a b -> rk b c -> promo a c.
Proof. unfold promo, rk. intros [H|[H1 H2]] Hc; [left; congruence|right; split; congruence]. Qed.
Lemma rk_promo_trans a b c : rk a b -> promo b c -> promo a c.
Proof. unfold promo, rk. intros Hc [H|[H1 H2]]; [left; congruence|right; split; congruence]. Qed.

Definition nonvoting_or_witness (r : raft) : Prop := r_role r = NonVoting \/ r_role r = Witness.
Lemma nw_rk r r' : rk r r' -> nonvoting_or_witness r -> nonvoting_or_witness r'.
Proof. unfold rk, nonvoting_or_witness. intros ->. exact (fun H => H). Qed.
Lemma nw_not_leader r : nonvoting_or_witness r -> is_leader r = false.
Proof. intros [H|H]; unfold is_leader; rewrite H; reflexivity. Qed.
Lemma nonvoting_or_witness_b r : nonvoting_or_witness r -> is_nonvoting r || is_witness r = true.
Proof. intros [H|H]; unfold is_nonvoting, is_witness; rewrite H; reflexivity. Qed.

Lemma to_follower_role r t l rt : is_witness r = false -> r_role (to_follower_state r t l rt) = Follower.
Proof. intros H. unfold to_follower_state. rewrite H. exact (reset_leader_role (r <| r_role := Follower |>) t rt l). Qed.

Lemma become_follower_promo r0 r t l : rk r0 r -> nonvoting_or_witness r0 -> promo r0 (become_follower r t l).
Proof.
  intros E Hnw. apply (rk_promo_trans _ _ _ E). apply (nw_rk _ _ E) in Hnw. clear E.
  destruct Hnw as [H|H]; unfold become_follower.
  - right. split; [exact H|]. apply to_follower_role. unfold is_witness. rewrite H. reflexivity.
  - left. unfold to_follower_state, is_witness. rewrite H. exact H.
Qed.

Lemma add_node_promo r id : nonvoting_or_witness r -> promo r (add_node r id).
Proof.
  intros Hnw. unfold add_node. cbv zeta.
  destruct (_ && _); [left; reflexivity|].
  destruct (amem id (r_remotes _)); [left; reflexivity|].
  destruct (alookup id (r_nonvotings _)).
  - destruct (id =? _); [|left; reflexivity]. apply become_follower_promo; [reflexivity|exact Hnw].
  - destruct (amem id (r_witnesses _)); left; reflexivity.
Qed.

(* a replica that does not lead is not demoted by its own removal *)
Lemma remove_node_rk r id : is_leader r = false -> rk r (remove_node r id).
Proof.
  intros Hl. unfold remove_node. cbv zeta.
  set (r0 := r <| r_remotes := _ |> <| r_nonvotings := _ |> <| r_witnesses := _ |> <| r_pending_cc := false |>).
  assert (Hl0 : is_leader r0 = false) by exact Hl.
  rewrite Hl0, andb_false_r. unfold leader_transfering, gen_leaderTransfering. rewrite Hl0, andb_false_r.
  cbn [andb]. rewrite Hl0. reflexivity.
Qed.

Lemma handle_node_config_change_promo r m : nonvoting_or_witness r -> promo r (handle_node_config_change r m).
Proof.
  intros Hnw. unfold handle_node_config_change. destruct (m_reject m); [left; reflexivity|]. cbv zeta.
  destruct (_ =? cc_AddNode); [apply add_node_promo; exact Hnw|].
  destruct (_ =? cc_RemoveNode); [apply rk_promo, remove_node_rk, nw_not_leader, Hnw|].
  destruct (_ =? cc_AddNonVoting); [apply rk_promo, tvr_rk, add_nonvoting_tvr|].
  destruct (_ =? cc_AddWitness); [apply rk_promo, tvr_rk, add_witness_tvr|left; reflexivity].
Qed.

(* restoreRemotes: a non-voting member listed as a voter becomes a follower, and is then a plain
   follower for the rest of the scan *)
Lemma rr_step_addr_promo r0 r id : nonvoting_or_witness r0 -> promo r0 r -> promo r0 (rr_step_addr r id).
Proof.
  intros Hnw Hp. unfold rr_step_addr. cbv zeta.
  destruct ((id =? r_id r) && is_nonvoting r) eqn:E.
  - apply andb_prop in E. destruct E as [_ E]. unfold is_nonvoting in E.
    assert (Hr : r_role r = NonVoting) by (destruct (r_role r); discriminate || reflexivity).
    assert (Hb : r_role (become_follower r (r_term r) (r_leader r)) = Follower)
      by (apply to_follower_role; unfold is_witness; rewrite Hr; reflexivity).
    destruct Hp as [Hp|[_ Hp]]; [|congruence].
    destruct (amem _ _); right; (split; [congruence|exact Hb]).
  - destruct (amem _ _); exact Hp.
Qed.

Lemma rr_step_addrs_promo r0 l : nonvoting_or_witness r0 -> forall x, promo r0 x -> promo r0 (fold_left rr_step_addr l x).
Proof.
  intros Hnw. induction l as [|a l IH]; intros x Hx; [exact Hx|]. apply IH, rr_step_addr_promo; assumption.
Qed.
Lemma restore_remotes_promo r s : nonvoting_or_witness r -> promo r (restore_remotes r s).
Proof.
  intros Hnw. unfold restore_remotes. cbv zeta.
  eapply promo_rk_trans; [|apply tvr_rk, (fold_left_keeps tvr); reflexivity].
  eapply promo_rk_trans; [|apply tvr_rk, witnesses_upd_tvr].
  eapply promo_rk_trans; [|apply tvr_rk, (fold_left_keeps tvr); reflexivity].
  eapply promo_rk_trans; [|apply tvr_rk, nonvotings_upd_tvr].
  assert (HX : promo r (r <| r_remotes := [] |>)) by (left; reflexivity).
  apply (rr_step_addrs_promo r (ss_addrs s) Hnw) in HX.
  unfold rr_step_down. replace (is_leader _) with false; [rewrite andb_false_r; exact HX|].
  unfold is_leader. destruct HX as [H|[_ H]]; rewrite H; destruct Hnw as [E|E]; rewrite ?E; reflexivity.
Qed.

Lemma on_message_term_not_matched_rk r m : nonvoting_or_witness r -> rk r (fst (on_message_term_not_matched r m)).
Proof.
  intros Hnw. unfold on_message_term_not_matched. destruct (_ || _); [reflexivity|].
  pose proof (tvr_rk _ _ (drop_request_vote_tvr r m)) as H0.
  destruct (drop_request_vote_from_high_term r m) as [r0 []]; cbn [fst] in *; [exact H0|].
  apply (nw_rk _ _ H0) in Hnw. unfold rk in *. rewrite <- H0. clear H0.
  destruct (_ <? _).
  - destruct (gen_isPreVoteMessageWithExpectedHigherTerm _ _); [reflexivity|]. cbv zeta.
    destruct Hnw as [E|E].
    + replace (is_nonvoting r0) with true by (unfold is_nonvoting; now rewrite E). apply become_nonvoting_rk.
    + replace (is_nonvoting r0) with false by (unfold is_nonvoting; now rewrite E).
      replace (is_witness r0) with true by (unfold is_witness; now rewrite E). apply become_witness_rk.
  - destruct (_ || _); [apply (f_equal snd (send_tvr _ _))|reflexivity].
Qed.

Lemma tick_nw_rk f r : nonvoting_or_witness r -> rk r (tick f r).
Proof.
  intros Hnw. destruct f as [|f]; [reflexivity|]. rewrite tick_S. unfold tick_body.
  set (r0 := r <| r_quiesce := false |> <| r_tick_count := r_tick_count r + 1 |>).
  assert (Hl : is_leader r0 = false) by exact (nw_not_leader r Hnw). rewrite Hl.
  unfold non_leader_tick.
  set (r1 := r0 <| r_election_tick := r_election_tick r0 + 1 |>).
  assert (E : is_nonvoting r1 || is_witness r1 = true) by exact (nonvoting_or_witness_b r Hnw).
  rewrite E. reflexivity.
Qed.

(* the handlers registered for the nonVoting and witness states *)
Definition nw_handler (h : handler) : bool :=
  match h with
  | H_none | H_handleNonVotingHeartbeat | H_handleNonVotingReplicate | H_handleNonVotingSnapshot
  | H_handleNodeRequestVote | H_handleNodeRequestPreVote | H_handleNonVotingPropose
  | H_handleNonVotingReadIndex | H_handleNonVotingReadIndexResp | H_handleNodeConfigChange
  | H_handleLocalTick | H_handleRestoreRemote | H_handleLogQuery
  | H_handleWitnessHeartbeat | H_handleWitnessReplicate | H_handleWitnessSnapshot => true
  | _ => false
  end.

Lemma nw_handlers r t : nonvoting_or_witness r -> nw_handler (handler_of (role_num (r_role r)) t) = true.
Proof.
  pose proof (handler_of_sweep
    (fun s _ h => if (s =? st_nonVoting) || (s =? st_witness) then nw_handler h else true) eq_refl) as F.
  intros [H|H]; rewrite H; [exact (F st_nonVoting t eq_refl)|exact (F st_witness t eq_refl)].
Qed.

Lemma run_handler_nw_promo h r m : nonvoting_or_witness r -> nw_handler h = true -> promo r (run_handler h r m).
Proof.
  intros Hnw Hh. destruct h; try discriminate Hh; unfold run_handler; cbv zeta; try (left; reflexivity);
    auto using handle_node_config_change_promo, restore_remotes_promo, rk_promo, handle_node_request_vote_rk;
    apply rk_promo, tvr_rk;
    rewrite ?handle_heartbeat_message_tvr, ?handle_replicate_message_tvr, ?handle_install_snapshot_message_tvr;
    auto with tvh.
Qed.

(* the term check keeps the role, the table leaves only the handlers above, a tick of such a replica
   returns at once, and these handlers promote at most *)
Lemma handle_nw_promo f r m :
  nonvoting_or_witness r -> promo r (handle f r m).
Proof.
  intros Hnw. destruct f as [|f]; [left; reflexivity|]. rewrite handle_S. unfold handle_body.
  destruct (r_panic r); [left; reflexivity|].
  destruct (_ && _); [left; reflexivity|].
  pose proof (on_message_term_not_matched_rk r m Hnw) as H1.
  destruct (on_message_term_not_matched r m) as [r1 ignore]. cbn [fst] in H1.
  destruct (_ || _); [left; exact H1|].
  destruct (_ && _); [left; exact H1|].
  cbv zeta. apply (nw_rk _ _ H1) in Hnw. apply (rk_promo_trans _ _ _ H1).
  pose proof (nw_handlers r1 (m_type m) Hnw) as Hin.
  destruct (handler_of _ _); try discriminate Hin; try (apply run_handler_nw_promo; [exact Hnw|reflexivity]).
  destruct (m_reject m); [left; reflexivity|apply rk_promo, tick_nw_rk, Hnw].
Qed.

Definition witness_safe (e : entry) : Prop :=
  e_type e = et_ConfigChangeEntry \/ (e_type e = et_MetadataEntry /\ e_cmd e = [] /\ e_key e = 0 /\
                                      e_client e = 0 /\ e_series e = 0 /\ e_resp e = 0).

Lemma make_metadata_entries_safe ents : Forall witness_safe (make_metadata_entries ents).
Proof.
  unfold make_metadata_entries. apply Forall_forall. intros x Hx. apply in_map_iff in Hx.
  destruct Hx as (e & E & _). destruct (N.eqb_spec (e_type e) et_ConfigChangeEntry) as [Ec|Ec]; subst x.
  - left. exact Ec.
  - right. repeat split; reflexivity.
Qed.

Lemma make_metadata_entries_index ents :
  map e_index (make_metadata_entries ents) = map e_index ents /\
  map e_term (make_metadata_entries ents) = map e_term ents.
Proof.
  unfold make_metadata_entries. rewrite !map_map. split; apply map_ext; intros e;
    destruct (e_type e =? et_ConfigChangeEntry); reflexivity.
Qed.

(* send appends at most the message, with the sender and possibly the term filled in *)
Lemma send_msgs_in r m x : In x (r_msgs (send r m)) ->
  In x (r_msgs r) \/ x = m <| m_from := r_id r |> \/ x = m <| m_from := r_id r |> <| m_term := r_term r |>.
Proof.
  unfold send. destruct (finalize_term r (m <| m_from := r_id r |>)) as [m'|] eqn:E; [|left; assumption].
  intros Hin. change (In x (r_msgs r ++ [m'])) in Hin. apply in_app_or in Hin.
  destruct Hin as [Hin|[<-|[]]]; [left; exact Hin|right]. unfold finalize_term in E.
  destruct (_ && _); [discriminate|]. destruct (_ && _); [discriminate|].
  destruct (_ && _); injection E as <-; [right|left]; reflexivity.
Qed.

(* what a message to a witness may carry *)
Definition for_witness (to : N) (x : msg) : Prop :=
  m_to x = to /\ Forall witness_safe (m_entries x) /\
  (m_type x = mt_InstallSnapshot -> ss_witness (m_snapshot x) = true /\ ss_has_file (m_snapshot x) = false).

Lemma send_for_witness r0 r m to x :
  r_msgs r = r_msgs r0 -> for_witness to m -> In x (r_msgs (send r m)) -> In x (r_msgs r0) \/ for_witness to x.
Proof.
  intros <- Hm Hin. apply send_msgs_in in Hin. destruct Hin as [Hin|[->| ->]]; [left; exact Hin|right; exact Hm..].
Qed.

Lemma witness_gets_metadata_only_proved r to rp x :
  find_peer r to = Some (KWitness, rp) ->
  In x (r_msgs (send_replicate r to)) ->
  In x (r_msgs r) \/ for_witness to x.
Proof.
  intros Hf. unfold send_replicate. rewrite Hf.
  destruct (rm_is_paused rp); [left; assumption|].
  destruct (log_entries_from _ _) as [ents0|].
  - assert (Hm : forall m, m_to m = to -> m_entries m = make_metadata_entries ents0 -> m_type m = mt_Replicate ->
                           for_witness to m).
    { intros m Ht He Hty. split; [exact Ht|]. split; [rewrite He; apply make_metadata_entries_safe|].
      rewrite Hty. discriminate. }
    destruct ents0 as [|e0 es]; [|destruct (rm_progress _ _); [|left; assumption]];
      (apply (send_for_witness r); [reflexivity|apply Hm; reflexivity]).
  - destruct (negb (rm_active rp)); [left; assumption|].
    destruct (is_empty_snapshot _); [left; assumption|].
    apply (send_for_witness r); [reflexivity|]. split; [reflexivity|]. split; [constructor|]. split; reflexivity.
Qed.

Lemma fold_msgs_hint (ids : list N) (f : raft -> N -> raft) (P : msg -> Prop) :
  (forall r' id x, In id ids -> In x (r_msgs (f r' id)) -> In x (r_msgs r') \/ P x) ->
  forall r x, In x (r_msgs (fold_left f ids r)) -> In x (r_msgs r) \/ P x.
Proof.
  induction ids as [|id ids IH]; intros Hf r x Hin; simpl in Hin; [left; exact Hin|].
  apply IH in Hin; [|intros r' id' x' Hi; apply Hf; right; exact Hi].
  destruct Hin as [Hin|Hin]; [|right; exact Hin]. apply Hf in Hin; [exact Hin|left; reflexivity].
Qed.

Lemma send_heartbeat_to r to c mt x : In x (r_msgs (send_heartbeat r to c mt)) -> In x (r_msgs r) \/ m_to x = to.
Proof.
  unfold send_heartbeat. intros Hin. apply send_msgs_in in Hin.
  destruct Hin as [Hin|[->| ->]]; [left; exact Hin|right; reflexivity..].
Qed.

(* ReadIndex confirmation hints are addressed to members of voting_ids only *)
Lemma readindex_hint_only_to_voters_proved r ctx x :
  negb ((fst ctx =? 0) && (snd ctx =? 0)) = true ->
  In x (r_msgs (broadcast_heartbeat_hint r ctx)) ->
  In x (r_msgs r) \/ In (m_to x) (voting_ids r).
Proof.
  intros Hctx. unfold broadcast_heartbeat_hint. cbv zeta.
  apply negb_true_iff in Hctx. rewrite Hctx.
  apply (fold_msgs_hint (voting_ids r) _ (fun x => In (m_to x) (voting_ids r))).
  intros r' id y Hid Hin. destruct (id =? r_id r); [left; exact Hin|].
  apply send_heartbeat_to in Hin. destruct Hin as [Hin| ->]; [left; exact Hin|right; exact Hid].
Qed.
