(* Proofs/Session.v — C05, the session table. Every step is first rewritten with
   the cache operations carried out ([step_eq]); a hit is a permutation of the
   list that changes no other client's lookup ([lru_find_hit]). *)
From DB Require Import Base.Bytes Gen.GenC05 Model.Session.
From Coq Require Import Permutation.
From Coq Require Import ZifyN ZifyNat ZifyBool.
(* ZifyBool's own hook case-splits every boolean atom of the context before lia runs; lia does not need it *)
Ltac Zify.zify_post_hook ::= idtac.
Open Scope N_scope.

Section SessionProofs.
Context {S result : Type}.
Variable sm_update : S -> bytes -> S * result.

Notation session := (@session result).
Notation table := (@table result).
Notation state := (@state S result).
Notation outcome := (@outcome result).
Notation step := (step sm_update).
Notation run := (run sm_update).
Notation run_state := (run_state sm_update).
Notation init_state := (@Session.init_state S result).

Definition ids (l : list session) : list N := map s_client l.

(* the session a client id maps to (first match = the store lookup) *)
Definition find_session (c : N) (l : list session) : option session :=
  match lru_find c l with Some (s, _) => Some s | None => None end.

Definition lookup (c : N) (st : state) : option session :=
  find_session c (t_list (st_tab st)).

Definition hist_above (s : session) : Prop :=
  Forall (fun p => s_responded s < fst p) (s_history s).

Definition wf_table (t : table) : Prop :=
  NoDup (ids (t_list t)) /\ N.of_nat (length (t_list t)) <= t_cap t.

Definition inv (st : state) : Prop :=
  wf_table (st_tab st) /\ Forall hist_above (t_list (st_tab st)).

(* [inv] does not look at the user state: it is this predicate of the table *)
Definition tab_inv (t : table) : Prop := wf_table t /\ Forall hist_above (t_list t).

Lemma lru_find_none : forall c (l : list session),
  lru_find c l = None <-> ~ In c (ids l).
Proof.
  induction l as [|s r IH]; cbn.
  - split; auto.
  - destruct (s_client s =? c) eqn:E.
    + apply N.eqb_eq in E. split; [discriminate|]. intros H. exfalso. apply H. now left.
    + apply N.eqb_neq in E. destruct (lru_find c r) as [[x r']|] eqn:F.
      * split; [discriminate|]. intros H. exfalso.
        destruct IH as [_ IH2]. assert (G : Some (x, r') = None) by (apply IH2; intros HI; apply H; now right).
        discriminate.
      * split; auto. intros _ [H|H]; [congruence|]. now apply IH.
Qed.

Lemma lru_find_split : forall c (l1 l2 : list session) s,
  s_client s = c -> ~ In c (ids l1) ->
  lru_find c (l1 ++ s :: l2) = Some (s, l1 ++ l2).
Proof.
  induction l1 as [|x t IH]; cbn; intros l2 s Hc Hn.
  - apply N.eqb_eq in Hc. now rewrite Hc.
  - destruct (s_client x =? c) eqn:E.
    + apply N.eqb_eq in E. exfalso. apply Hn. now left.
    + rewrite IH; auto.
Qed.

Lemma find_session_none : forall c l, find_session c l = None <-> ~ In c (ids l).
Proof.
  intros. unfold find_session. rewrite <- lru_find_none.
  destruct (lru_find c l) as [[? ?]|]; split; congruence.
Qed.

Lemma find_session_cons : forall c (x : session) l,
  find_session c (x :: l) = if s_client x =? c then Some x else find_session c l.
Proof.
  intros. unfold find_session. cbn. destruct (s_client x =? c); auto.
  destruct (lru_find c l) as [[? ?]|]; auto.
Qed.

Lemma lru_find_hit : forall c (l : list session) s rest,
  lru_find c l = Some (s, rest) ->
  s_client s = c /\ Permutation l (s :: rest) /\
  forall d, find_session d l = if c =? d then Some s else find_session d rest.
Proof.
  induction l as [|x t IH]; cbn; intros s rest H; [discriminate|].
  destruct (s_client x =? c) eqn:E.
  - apply N.eqb_eq in E. injection H as <- <-. repeat split; auto.
    intros d. now rewrite find_session_cons, E.
  - destruct (lru_find c t) as [[y r']|]; [|discriminate]. injection H as <- <-.
    destruct (IH _ _ eq_refl) as (Hc & P & Hd). repeat split; auto.
    + rewrite P. apply perm_swap.
    + intros d. rewrite !find_session_cons, Hd.
      destruct (s_client x =? d) eqn:Q; [|reflexivity]. destruct (c =? d) eqn:Q2; [lia|reflexivity].
Qed.

Lemma find_session_client : forall c l s, find_session c l = Some s -> s_client s = c.
Proof.
  unfold find_session. intros c l s H. destruct (lru_find c l) as [[x r]|] eqn:F; [|discriminate].
  injection H as ->. now apply lru_find_hit in F.
Qed.

Lemma find_session_in : forall c l s, find_session c l = Some s -> In s l.
Proof.
  unfold find_session. intros c l s H. destruct (lru_find c l) as [[x r]|] eqn:F; [|discriminate].
  injection H as ->. apply lru_find_hit in F as (_ & P & _).
  apply (Permutation_in _ (Permutation_sym P)). now left.
Qed.

Lemma find_session_app_in : forall c l1 l2 s,
  find_session c l1 = Some s -> find_session c (l1 ++ l2) = Some s.
Proof.
  induction l1 as [|x t IH]; cbn; intros l2 s H; [discriminate|].
  rewrite find_session_cons in *. destruct (s_client x =? c); auto.
Qed.

Lemma ids_app : forall l1 l2 : list session, ids (l1 ++ l2) = ids l1 ++ ids l2.
Proof. intros. unfold ids. apply map_app. Qed.

Lemma nodup_remove_mid : forall (l1 l2 : list session) s,
  NoDup (ids (l1 ++ s :: l2)) -> NoDup (ids (l1 ++ l2)) /\ ~ In (s_client s) (ids (l1 ++ l2)).
Proof. intros l1 l2 s H. rewrite !ids_app in *. now apply NoDup_remove in H. Qed.

Lemma takeN_length : forall {A} (l : list A) n, N.of_nat (length (takeN n l)) <= n.
Proof.
  induction l as [|x r IH]; cbn; intros n; [lia|].
  destruct (n =? 0) eqn:E; cbn; [lia|].
  apply N.eqb_neq in E. specialize (IH (N.pred n)). lia.
Qed.

Lemma takeN_all : forall {A} (l : list A) n, N.of_nat (length l) <= n -> takeN n l = l.
Proof.
  induction l as [|x r IH]; cbn; intros n H; auto.
  destruct (n =? 0) eqn:E.
  - apply N.eqb_eq in E. lia.
  - f_equal. apply IH. lia.
Qed.

Lemma takeN_prefix : forall {A} (l : list A) n, exists t, l = takeN n l ++ t.
Proof.
  induction l as [|x r IH]; cbn; intros n.
  - exists []. auto.
  - destruct (n =? 0).
    + exists (x :: r). auto.
    + destruct (IH (N.pred n)) as [t Ht]. exists t. cbn. now rewrite <- Ht.
Qed.

Lemma nodup_app_l : forall {A} (a b : list A), NoDup (a ++ b) -> NoDup a.
Proof.
  induction a as [|x r IH]; cbn; intros b H; [constructor|].
  inversion H; subst. constructor.
  - intros G. apply H2. apply in_or_app. now left.
  - eapply IH; eauto.
Qed.

Lemma takeN_nodup_ids : forall (l : list session) n, NoDup (ids l) -> NoDup (ids (takeN n l)).
Proof.
  intros l n H. destruct (takeN_prefix l n) as [t Ht]. rewrite Ht in H.
  rewrite ids_app in H. eapply nodup_app_l; eauto.
Qed.

Lemma takeN_forall : forall {A} (P : A -> Prop) (l : list A) n, Forall P l -> Forall P (takeN n l).
Proof.
  intros A P l n H. destruct (takeN_prefix l n) as [t Ht]. rewrite Ht in H.
  apply Forall_app in H. tauto.
Qed.

Lemma find_session_takeN : forall c (l : list session) n s,
  find_session c (takeN n l) = Some s -> find_session c l = Some s.
Proof.
  intros c l n s H. destruct (takeN_prefix l n) as [t Ht]. rewrite Ht.
  now apply find_session_app_in.
Qed.

Lemma hist_get_in : forall k (h : list (N * result)) r, hist_get k h = Some r -> In (k, r) h.
Proof.
  induction h as [|[k' r'] t IH]; cbn; intros r H; [discriminate|].
  destruct (k' =? k) eqn:E.
  - apply N.eqb_eq in E. inversion H; subst. now left.
  - right. auto.
Qed.

Lemma hist_get_filter : forall k (f : N * result -> bool) (h : list (N * result)),
  (forall r, f (k, r) = true) -> hist_get k (filter f h) = hist_get k h.
Proof.
  induction h as [|[k' r'] t IH]; cbn; intros Hf; auto.
  destruct (f (k', r')) eqn:F; cbn.
  - destruct (k' =? k); auto.
  - destruct (k' =? k) eqn:E; auto. apply N.eqb_eq in E. subst. rewrite Hf in F. discriminate.
Qed.

Lemma hist_get_filter_none : forall k (f : N * result -> bool) (h : list (N * result)),
  hist_get k h = None -> hist_get k (filter f h) = None.
Proof.
  induction h as [|[k' r'] t IH]; cbn; intros H; auto.
  destruct (k' =? k) eqn:E; [discriminate|].
  destruct (f (k', r')); cbn; auto. rewrite E. auto.
Qed.

(* the canonical meaning of clearTo: watermark := max, drop everything <= to *)
Definition clear_to_spec (s : session) (to : N) : session :=
  if to <=? s_responded s then s
  else mkSession (s_client s) to (hist_clear to (s_history s)).

Lemma hist_del_clear_above : forall to w (h : list (N * result)),
  Forall (fun p => w < fst p) h -> to = w + 1 -> hist_del to h = hist_clear to h.
Proof.
  intros to w h H ->. unfold hist_del, hist_clear. induction H as [|[k r] t Hk Ht IH]; cbn; auto.
  cbn in Hk. rewrite IH.
  destruct (k =? w + 1) eqn:E1; destruct (w + 1 <? k) eqn:E2; cbn; auto; lia.
Qed.

Lemma clear_to_exact : forall (s : session) to, hist_above s -> clear_to s to = clear_to_spec s to.
Proof.
  intros s to H. unfold clear_to, clear_to_spec.
  destruct (to <=? s_responded s); auto.
  destruct (to =? s_responded s + 1) eqn:E; auto.
  apply N.eqb_eq in E. f_equal. eapply hist_del_clear_above; eauto.
Qed.

Lemma clear_to_client : forall (s : session) to, s_client (clear_to s to) = s_client s.
Proof.
  intros. unfold clear_to. destruct (to <=? s_responded s); auto.
  destruct (to =? s_responded s + 1); auto.
Qed.

Lemma clear_to_responded : forall (s : session) to,
  s_responded (clear_to s to) = N.max (s_responded s) to.
Proof.
  intros. unfold clear_to. destruct (to <=? s_responded s) eqn:E; [lia|].
  destruct (to =? s_responded s + 1); cbn; lia.
Qed.

Lemma clear_to_above : forall (s : session) to, hist_above s -> hist_above (clear_to s to).
Proof.
  intros s to H. rewrite clear_to_exact by auto. unfold clear_to_spec.
  destruct (to <=? s_responded s); auto.
  unfold hist_above, hist_clear. cbn. apply Forall_forall. intros p Hp.
  apply filter_In in Hp. destruct Hp as [_ Hp]. lia.
Qed.

Lemma clear_to_keeps : forall (s : session) to k r,
  hist_get k (s_history s) = Some r -> to < k ->
  hist_get k (s_history (clear_to s to)) = Some r.
Proof.
  intros s to k r H Hk. unfold clear_to.
  destruct (to <=? s_responded s); auto.
  destruct (to =? s_responded s + 1); cbn.
  - unfold hist_del. rewrite hist_get_filter; auto. intros. cbn. lia.
  - unfold hist_clear. rewrite hist_get_filter; auto. intros. cbn. lia.
Qed.

Definition covered (s : session) (k : N) : Prop :=
  k <= s_responded s \/ hist_get k (s_history s) <> None.

Lemma clear_to_covered : forall (s : session) to k, covered s k -> covered (clear_to s to) k.
Proof.
  intros s to k [H|H].
  - left. rewrite clear_to_responded. lia.
  - destruct (k <=? N.max (s_responded s) to) eqn:E.
    + left. rewrite clear_to_responded. lia.
    + right. destruct (hist_get k (s_history s)) as [r|] eqn:G; [|congruence].
      rewrite (clear_to_keeps s to k r G) by lia. discriminate.
Qed.

Lemma clear_to_none : forall (s : session) to k,
  hist_get k (s_history s) = None -> hist_get k (s_history (clear_to s to)) = None.
Proof.
  intros s to k H. unfold clear_to.
  destruct (to <=? s_responded s); auto.
  destruct (to =? s_responded s + 1); cbn; now apply hist_get_filter_none.
Qed.

Lemma inv_perm : forall cap (l l' : list session),
  Permutation l l' -> tab_inv (mkTable cap l) -> tab_inv (mkTable cap l').
Proof.
  intros cap l l' P [[ND LE] HA]. cbn in *. repeat split; cbn.
  - eapply Permutation_NoDup; [|exact ND]. now apply Permutation_map.
  - now rewrite <- (Permutation_length P).
  - eapply Permutation_Forall; eauto.
Qed.

Lemma inv_front : forall cap (s s' : session) rest,
  tab_inv (mkTable cap (s :: rest)) -> s_client s' = s_client s -> hist_above s' ->
  tab_inv (mkTable cap (s' :: rest)).
Proof.
  intros cap s s' rest [[ND LE] HA] Hc Ha. cbn in *. rewrite <- Hc in ND.
  apply Forall_cons_iff in HA as [_ HA]. repeat split; auto. now constructor.
Qed.

Lemma inv_tail : forall cap (s : session) rest,
  tab_inv (mkTable cap (s :: rest)) -> tab_inv (mkTable cap rest).
Proof.
  intros cap s rest [[ND LE] HA]. cbn [t_list t_cap length ids map] in *.
  apply NoDup_cons_iff in ND as [_ ND].
  apply Forall_cons_iff in HA as [_ HA]. repeat split; auto. cbn. lia.
Qed.

Lemma inv_push : forall cap c (l : list session),
  tab_inv (mkTable cap l) -> lru_find c l = None ->
  tab_inv (mkTable cap (takeN cap (new_session c :: l))).
Proof.
  intros cap c l [[ND LE] HA] F. cbn [t_list t_cap] in *. repeat split; cbn [t_list t_cap].
  - apply takeN_nodup_ids. cbn. constructor; auto. now apply lru_find_none.
  - apply takeN_length.
  - apply takeN_forall. constructor; auto. constructor.
Qed.

(* what Session.addResponse makes of a session that has no response for [k]
   (the Some branch of add_response) *)
Definition push_response (s : session) (k : N) (r : result) : session :=
  mkSession (s_client s) (s_responded s) ((k, r) :: s_history s).

(* StateMachine.update on the session found for the entry's client: the session
   as it goes back to the front of the cache, the user state, the outcome *)
Definition update_flat (sm : S) (s0 : session) (e : entry) : session * S * outcome :=
  let s1 := clear_to s0 (e_responded e) in
  if has_responded s1 (e_series e) then (s1, sm, OIgnored)
  else match hist_get (e_series e) (s_history s1) with
       | Some r => (s1, sm, OCached r)
       | None => let (sm', r) := sm_update sm (e_cmd e) in
                 (push_response s1 (e_series e) r, sm', OApplied r)
       end.

Lemma update_flat_session : forall sm s0 e s' sm' o,
  update_flat sm s0 e = (s', sm', o) ->
  s_client s' = s_client s0 /\ e_responded e <= s_responded s' /\ (hist_above s0 -> hist_above s').
Proof.
  intros sm s0 e s' sm' o. unfold update_flat.
  pose proof (clear_to_client s0 (e_responded e)) as Hc.
  pose proof (clear_to_responded s0 (e_responded e)) as Hr.
  pose proof (clear_to_above s0 (e_responded e)) as Ha.
  destruct (has_responded _ _) eqn:HR; [intros H; injection H as <- _ _; repeat split; auto; lia|].
  destruct (hist_get _ _); [intros H; injection H as <- _ _; repeat split; auto; lia|].
  destruct (sm_update sm (e_cmd e)) as [sm1 r]. intros H; injection H as <- _ _. cbn.
  repeat split; auto; [lia|]. intros A. constructor; [|now apply Ha]. unfold has_responded in HR. cbn. lia.
Qed.

Lemma step_eq : forall (st : state) e,
  let cap := t_cap (st_tab st) in
  let l := t_list (st_tab st) in
  let c := e_client e in
  step st e =
  match classify e with
  | KNoop => (st, ONoop)
  | KBadUnmanaged => (st, OPanic)
  | KRegister =>
    match lru_find c l with
    | Some (s, rest) => (mkState (mkTable cap (s :: rest)) (st_sm st), ORegisterRejected)
    | None => (mkState (mkTable cap (takeN cap (new_session c :: l))) (st_sm st), ORegistered c)
    end
  | KUnregister =>
    match lru_find c l with
    | Some (s, rest) => (mkState (mkTable cap rest) (st_sm st), OUnregistered c)
    | None => (st, OUnregisterRejected)
    end
  | KNoopSession => let (sm', r) := sm_update (st_sm st) (e_cmd e) in (mkState (st_tab st) sm', OApplied r)
  | KUpdate =>
    match lru_find c l with
    | None => (st, ORejected)
    | Some (s0, rest) =>
      let '(s', sm', o) := update_flat (st_sm st) s0 e in (mkState (mkTable cap (s' :: rest)) sm', o)
    end
  end.
Proof.
  intros [t sm] e. cbn [st_tab st_sm]. unfold Session.step. cbn [st_tab st_sm].
  destruct (classify e); try reflexivity.
  - unfold register, lru_get, lru_add. cbn [s_client new_session].
    now destruct (lru_find (e_client e) (t_list t)) as [[s rest]|].
  - unfold unregister, lru_get, lru_del.
    destruct (lru_find (e_client e) (t_list t)) as [[s rest]|] eqn:F; [|reflexivity].
    apply lru_find_hit in F as (<- & _). cbn [t_list t_cap lru_find]. now rewrite N.eqb_refl.
  - unfold update_session, lru_get, update_flat. cbn [st_tab st_sm].
    destruct (lru_find (e_client e) (t_list t)) as [[s0 rest]|]; [|reflexivity].
    destruct (has_responded _ _); [reflexivity|]. unfold add_response.
    destruct (hist_get _ _); [reflexivity|]. now destruct (sm_update sm (e_cmd e)).
Qed.

Lemma step_inv : forall st e, inv st -> inv (fst (step st e)).
Proof.
  intros [[cap l] sm] e I. rewrite step_eq. cbn [st_tab st_sm t_cap t_list].
  destruct (classify e); cbn [fst]; auto.
  - destruct (lru_find _ l) as [[s rest]|] eqn:F; cbn [fst]; [|exact (inv_push _ _ _ I F)].
    apply lru_find_hit in F as (_ & P & _). exact (inv_perm _ _ _ P I).
  - destruct (lru_find _ l) as [[s rest]|] eqn:F; cbn [fst]; [|exact I].
    apply lru_find_hit in F as (_ & P & _). exact (inv_tail _ _ _ (inv_perm _ _ _ P I)).
  - now destruct (sm_update sm (e_cmd e)).
  - destruct (lru_find _ l) as [[s0 rest]|] eqn:F; cbn [fst]; [|exact I].
    apply lru_find_hit in F as (_ & P & _). apply (inv_perm _ _ _ P) in I.
    destruct (update_flat sm s0 e) as [[s' sm'] o] eqn:U. cbn [fst].
    apply update_flat_session in U as (Hc & _ & Ha). apply (inv_front _ _ _ _ I Hc), Ha.
    destruct I as [_ HA]. now apply Forall_cons_iff in HA.
Qed.

Lemma step_cap : forall st e, t_cap (st_tab (fst (step st e))) = t_cap (st_tab st).
Proof.
  intros st e. rewrite step_eq. destruct (classify e); try reflexivity.
  1, 2: now destruct (lru_find _ _) as [[]|].
  - now destruct (sm_update _ _).
  - destruct (lru_find _ _) as [[s0 rest]|]; [|reflexivity]. now destruct (update_flat _ s0 e) as [[] ?].
Qed.

Lemma run_state_cons : forall st e es, run_state st (e :: es) = run_state (fst (step st e)) es.
Proof.
  intros. unfold Session.run_state. cbn. destruct (step st e) as [st1 o]. cbn.
  destruct (run st1 es). reflexivity.
Qed.

Lemma run_state_nil : forall st, run_state st [] = st.
Proof. reflexivity. Qed.

Lemma run_inv : forall es st, inv st -> inv (run_state st es).
Proof.
  induction es as [|e r IH]; intros st H; [exact H|].
  rewrite run_state_cons. apply IH. now apply step_inv.
Qed.

Lemma run_cap : forall es st, t_cap (st_tab (run_state st es)) = t_cap (st_tab st).
Proof.
  induction es as [|e r IH]; intros st; auto. now rewrite run_state_cons, IH, step_cap.
Qed.

Lemma init_inv : forall cap (s0 : S), inv (init_state cap s0).
Proof.
  intros. split; [split|]; cbn; [constructor|apply N.le_0_l|constructor].
Qed.

Lemma unknown_session_rejected_untouched_proved : forall st e,
  classify e = KUpdate -> lookup (e_client e) st = None ->
  step st e = (st, ORejected).
Proof.
  intros st e K H. rewrite step_eq, K. unfold lookup, find_session in H.
  now destruct (lru_find _ _) as [[]|].
Qed.

(* a step either leaves the user state machine alone, or is its Update on the
   entry's command, reported as OApplied *)
Definition touched_spec (st : state) (e : entry) (st' : state) (o : outcome) : Prop :=
  (st_sm st' = st_sm st /\ (forall r, o <> OApplied r) /\ (o = OPanic -> classify e = KBadUnmanaged)) \/
  (exists r, o = OApplied r /\ sm_update (st_sm st) (e_cmd e) = (st_sm st', r) /\ (classify e = KUpdate \/ classify e = KNoopSession)).

Lemma untouched : forall (st : state) e t o,
  (forall r, o <> OApplied r) -> (o = OPanic -> classify e = KBadUnmanaged) ->
  touched_spec st e (mkState t (st_sm st)) o.
Proof. intros. left. auto. Qed.

Lemma sm_touched_only_when_applied_proved : forall st e st' o,
  step st e = (st', o) -> touched_spec st e st' o.
Proof.
  intros st e st' o H. rewrite step_eq in H.
  destruct (classify e) eqn:K.
  - injection H as <- <-. destruct st. now apply untouched.
  - injection H as <- <-. destruct st. now apply untouched.
  - destruct (lru_find _ _) as [[]|]; injection H as <- <-; now apply untouched.
  - destruct (lru_find _ _) as [[]|]; injection H as <- <-; [|destruct st]; now apply untouched.
  - destruct (sm_update _ _) as [sm' r] eqn:U. injection H as <- <-. right. eauto.
  - destruct (lru_find _ _) as [[s0 rest]|]; [|injection H as <- <-; destruct st; now apply untouched].
    unfold update_flat in H.
    destruct (has_responded _ _); [injection H as <- <-; now apply untouched|].
    destruct (hist_get _ _); [injection H as <- <-; now apply untouched|].
    destruct (sm_update _ _) as [sm' r] eqn:U. injection H as <- <-. right. eauto.
Qed.

Lemma nodup_ids_rotate : forall (a b : list session) x,
  NoDup (ids ((a ++ [x]) ++ b)) -> NoDup (ids (a ++ x :: b)).
Proof. intros a b x H. now rewrite <- app_assoc in H. Qed.

Lemma save_walk_gen : forall (a b out : list session),
  NoDup (ids (a ++ b)) ->
  save_walk (map s_client (rev a)) (b ++ a) out = Some (out ++ rev a, a ++ b).
Proof.
  induction a as [|x a' IH] using rev_ind; intros b out ND.
  - cbn. now rewrite !app_nil_r.
  - rewrite rev_app_distr. cbn [rev app map save_walk].
    rewrite <- app_assoc in ND. cbn [app] in ND.
    assert (F : lru_find (s_client x) (b ++ a' ++ [x]) = Some (x, b ++ a')).
    { rewrite app_assoc. replace (b ++ a') with ((b ++ a') ++ []) at 2 by apply app_nil_r.
      apply lru_find_split; auto.
      apply nodup_remove_mid in ND. destruct ND as [_ Hn]. rewrite ids_app in *.
      intros G. apply Hn. apply in_app_or in G. apply in_or_app. tauto. }
    rewrite F. specialize (IH (x :: b) (out ++ [x])). cbn [app] in IH. rewrite IH; auto.
    now rewrite <- !app_assoc.
Qed.

Lemma save_preserves_order_proved : forall (t : table),
  NoDup (ids (t_list t)) ->
  save t = Some ((t_cap t, rev (t_list t)), t).
Proof.
  intros [cap l] ND. unfold save. cbn [t_list t_cap] in *.
  pose proof (save_walk_gen l [] [] ) as H. cbn [app] in H. rewrite app_nil_r in H.
  rewrite H; auto.
Qed.

Lemma load_gen : forall cap (a b : list session),
  NoDup (ids (a ++ b)) -> N.of_nat (length (a ++ b)) <= cap ->
  fold_left (fun t s => lru_add s t) (rev a) (mkTable cap b) = mkTable cap (a ++ b).
Proof.
  induction a as [|x a' IH] using rev_ind; intros b ND LE; [reflexivity|].
  rewrite rev_app_distr. cbn [rev app fold_left].
  rewrite <- app_assoc in ND, LE. cbn [app] in ND, LE.
  assert (A : lru_add x (mkTable cap b) = mkTable cap (x :: b)).
  { unfold lru_add. cbn [t_list t_cap].
    assert (Fn : lru_find (s_client x) b = None).
    { apply lru_find_none. apply nodup_remove_mid in ND. destruct ND as [_ Hn].
      rewrite ids_app in Hn. intros G. apply Hn. apply in_or_app. now right. }
    rewrite Fn. f_equal. apply takeN_all. rewrite app_length in LE. cbn in *. lia. }
  rewrite A, IH; auto. now rewrite <- app_assoc.
Qed.

Lemma load_rev : forall (t : table),
  NoDup (ids (t_list t)) -> N.of_nat (length (t_list t)) <= t_cap t -> 0 < t_cap t ->
  load (t_cap t, rev (t_list t)) = Some t.
Proof.
  intros [cap l] ND LE POS. unfold load. cbn [fst snd t_cap t_list] in *.
  destruct (cap =? 0) eqn:E; [lia|]. f_equal. unfold empty_table.
  pose proof (load_gen cap l []) as G. rewrite app_nil_r in G. apply G; auto.
Qed.

(* Ghost instrumentation (specification only; the model has no such state):
   a user-SM invocation caused by a session-managed proposal is tagged with
   (client id, registration epoch of that client, series id), where the epoch
   counts the successful registrations of that client id so far. *)
Definition tag : Type := (N * nat * N)%type.

Definition bump (ep : N -> nat) (c : N) : N -> nat :=
  fun x => if x =? c then Datatypes.S (ep x) else ep x.

Fixpoint tagged_calls (ep : N -> nat) (st : state) (es : list entry) : list tag :=
  match es with
  | [] => []
  | e :: r =>
    let (st', o) := step st e in
    match o with
    | ORegistered c => tagged_calls (bump ep c) st' r
    | OApplied _ =>
      match classify e with
      | KUpdate => (e_client e, ep (e_client e), e_series e) :: tagged_calls ep st' r
      | _ => tagged_calls ep st' r
      end
    | _ => tagged_calls ep st' r
    end
  end.

Definition sm_calls_tagged (cap : N) (s0 : S) (es : list entry) : list tag :=
  tagged_calls (fun _ => 0%nat) (init_state cap s0) es.

(* no tag is ahead of its client's epoch, and every call of the current epoch of
   a registered client is acknowledged or cached in its session *)
Definition ginv (l : list session) (ep : N -> nat) (tr : list tag) : Prop :=
  (forall c e k, In (c, e, k) tr -> (e <= ep c)%nat) /\
  (forall s, In s l -> forall k, In (s_client s, ep (s_client s), k) tr -> covered s k).

Lemma ginv_front : forall (l : list session) s rest s' ep tr,
  ginv l ep tr -> Permutation l (s :: rest) ->
  s_client s' = s_client s -> (forall k, covered s k -> covered s' k) ->
  ginv (s' :: rest) ep tr.
Proof.
  intros l s rest s' ep tr [A B] P Hc Hk. split; [exact A|].
  intros x [<-|Hx] k Hin.
  - rewrite Hc in Hin. apply Hk, B; [|exact Hin]. apply (Permutation_in _ (Permutation_sym P)). now left.
  - apply B; [|exact Hin]. apply (Permutation_in _ (Permutation_sym P)). now right.
Qed.

Lemma in_ids : forall (s : session) l, In s l -> In (s_client s) (ids l).
Proof. intros. unfold ids. now apply in_map. Qed.

Definition step_ginv_post (e : entry) (o : outcome) (st' : state) ep tr : Prop :=
  match o with
  | ORegistered c => ginv (t_list (st_tab st')) (bump ep c) tr
  | OApplied _ =>
    match classify e with
    | KUpdate => ~ In (e_client e, ep (e_client e), e_series e) tr /\
                 ginv (t_list (st_tab st')) ep ((e_client e, ep (e_client e), e_series e) :: tr)
    | _ => ginv (t_list (st_tab st')) ep tr
    end
  | _ => ginv (t_list (st_tab st')) ep tr
  end.

Lemma step_ginv : forall st e st' o ep tr,
  inv st -> ginv (t_list (st_tab st)) ep tr -> step st e = (st', o) -> step_ginv_post e o st' ep tr.
Proof.
  intros [[cap l] sm] e st' o ep tr I GI. cbn [st_tab t_list] in GI. rewrite step_eq. cbn [st_tab st_sm t_cap t_list].
  destruct (classify e) eqn:K.
  - intros H; injection H as <- <-. exact GI.
  - intros H; injection H as <- <-. exact GI.
  - destruct (lru_find _ l) as [[s rest]|] eqn:F; intros H; injection H as <- <-; cbn [step_ginv_post].
    + apply lru_find_hit in F as (_ & P & _). now apply (ginv_front _ _ _ _ _ _ GI P).
    + (* a new epoch of this client id: none of its old tags speaks of the new session *)
      destruct GI as [A B]. apply lru_find_none in F. split.
      * intros c e0 k Hin. specialize (A _ _ _ Hin). unfold bump. destruct (c =? e_client e); lia.
      * cbn [st_tab t_list]. intros s Hs k Hk.
        destruct (takeN_prefix (new_session (e_client e) :: l) cap) as [tl Ht].
        assert (Hs' : In s (new_session (e_client e) :: l)) by (rewrite Ht; apply in_or_app; now left).
        unfold bump in Hk. destruct Hs' as [<-|Hs'].
        -- cbn [s_client new_session] in Hk. rewrite N.eqb_refl in Hk. specialize (A _ _ _ Hk). lia.
        -- destruct (s_client s =? e_client e) eqn:Q; [|eauto].
           apply N.eqb_eq in Q. exfalso. apply F. rewrite <- Q. now apply in_ids.
  - destruct (lru_find _ l) as [[s rest]|] eqn:F; intros H; injection H as <- <-; [|exact GI].
    apply lru_find_hit in F as (_ & P & _). destruct GI as [A B]. split; [exact A|].
    intros x Hx. apply B, (Permutation_in _ (Permutation_sym P)). now right.
  - destruct (sm_update sm (e_cmd e)). intros H; injection H as <- <-. cbn. rewrite K. exact GI.
  - destruct (lru_find _ l) as [[s0 rest]|] eqn:F; [|intros H; injection H as <- <-; exact GI].
    apply lru_find_hit in F as (Hc & P & _). apply (inv_perm _ _ _ P) in I. destruct I as [[ND _] _].
    cbn in ND. apply NoDup_cons_iff in ND as [ND _].
    set (s1 := clear_to s0 (e_responded e)).
    assert (Hc1 : s_client s1 = s_client s0) by apply clear_to_client.
    assert (KEEP : ginv (s1 :: rest) ep tr).
    { apply (ginv_front _ _ _ _ _ _ GI P Hc1). intros k. apply clear_to_covered. }
    unfold update_flat. fold s1.
    destruct (has_responded s1 (e_series e)) eqn:HR; [intros H; injection H as <- <-; apply KEEP|].
    destruct (hist_get (e_series e) (s_history s1)) eqn:HG; [intros H; injection H as <- <-; apply KEEP|].
    destruct (sm_update sm (e_cmd e)) as [sm' r]. intros H; injection H as <- <-.
    cbn [step_ginv_post]. rewrite K. destruct KEEP as [A B].
    rewrite <- Hc, <- Hc1 in *. split; [|split].
    + intros Hin. destruct (B s1 (or_introl eq_refl) _ Hin) as [Q|Q]; [|congruence].
      unfold has_responded in HR. lia.
    + intros c e0 k [Q|Q]; [injection Q as <- <- <-; lia|eauto].
    + cbn [st_tab t_list]. intros s [<-|Hs] k [Q|Q]; cbn [push_response s_client] in *.
      * injection Q as <-. right. cbn. rewrite N.eqb_refl. discriminate.
      * destruct (B s1 (or_introl eq_refl) k Q) as [W|W]; [now left|right].
        cbn [push_response s_history hist_get]. destruct (e_series e =? k); [discriminate|exact W].
      * injection Q as Q _ _. exfalso. apply ND. rewrite Q. now apply in_ids.
      * now apply (B s (or_intror Hs)).
Qed.

Lemma tagged_calls_fresh : forall es st ep tr,
  inv st -> ginv (t_list (st_tab st)) ep tr ->
  NoDup (tagged_calls ep st es) /\ (forall x, In x (tagged_calls ep st es) -> ~ In x tr).
Proof.
  induction es as [|e r IH]; intros st ep tr I GI; [split; [constructor|intros ? []]|].
  cbn [tagged_calls]. destruct (step st e) as [st' o] eqn:ST.
  pose proof (step_ginv _ _ _ _ _ _ I GI ST) as P.
  assert (I' : inv st') by (replace st' with (fst (step st e)) by (now rewrite ST); now apply step_inv).
  unfold step_ginv_post in P.
  destruct o; try (apply IH; assumption).
  destruct (classify e); try (apply IH; assumption).
  destruct P as [Fr GI']. destruct (IH st' ep _ I' GI') as [N1 N2]. split.
  - constructor; auto. intros Q. apply (N2 _ Q). now left.
  - intros x [<-|Q]; auto. intros W. apply (N2 _ Q). now right.
Qed.

Lemma tagged_calls_complete_proved : forall es st ep,
  length (tagged_calls ep st es) =
  length (filter (fun p => match snd p, classify (fst p) with OApplied _, KUpdate => true | _, _ => false end)
                 (combine es (snd (run st es)))).
Proof.
  induction es as [|e r IH]; intros st ep; [reflexivity|].
  cbn [tagged_calls Session.run]. destruct (step st e) as [st' o]. specialize (IH st').
  destruct (run st' r) as [st2 os]. cbn [snd combine filter fst] in *.
  destruct o; auto. destruct (classify e); cbn; auto.
Qed.

Lemma session_step : forall st e c s,
  inv st -> lookup c st = Some s -> lookup c (fst (step st e)) <> None ->
  exists s', lookup c (fst (step st e)) = Some s' /\
    (s' = s \/
     (classify e = KUpdate /\ e_client e = c /\
      (s' = clear_to s (e_responded e) \/
       exists r, s' = push_response (clear_to s (e_responded e)) (e_series e) r /\
                 has_responded (clear_to s (e_responded e)) (e_series e) = false /\
                 hist_get (e_series e) (s_history (clear_to s (e_responded e))) = None))).
Proof.
  intros [[cap l] sm] e c s I L. unfold lookup in *. rewrite step_eq. cbn [st_tab st_sm t_cap t_list] in *.
  destruct (classify e) eqn:K; cbn [fst st_tab t_list]; eauto.
  - destruct (lru_find _ l) as [[s0 rest]|] eqn:F; cbn [fst st_tab t_list]; intros P.
    + apply lru_find_hit in F as (Hc & _ & Hd). exists s. split; [|now left].
      now rewrite find_session_cons, Hc, <- Hd.
    + destruct (find_session c (takeN cap (new_session (e_client e) :: l))) as [s'|] eqn:Q; [|congruence].
      exists s'. split; auto. left. apply find_session_takeN in Q. rewrite find_session_cons in Q.
      cbn [s_client new_session] in Q. destruct (e_client e =? c) eqn:W; [|congruence].
      apply N.eqb_eq in W. subst c. unfold find_session in L. rewrite F in L. discriminate.
  - destruct (lru_find _ l) as [[s0 rest]|] eqn:F; cbn [fst st_tab t_list]; eauto. intros P.
    apply lru_find_hit in F as (Hc & Pm & Hd). rewrite Hd in L.
    destruct (e_client e =? c) eqn:W; [|eauto]. apply N.eqb_eq in W. exfalso. apply P, find_session_none.
    apply (inv_perm _ _ _ Pm) in I. destruct I as [[ND _] _]. cbn in ND.
    apply NoDup_cons_iff in ND as [ND _]. unfold ids. congruence.
  - destruct (sm_update sm (e_cmd e)). cbn. eauto.
  - destruct (lru_find _ l) as [[s0 rest]|] eqn:F; [|cbn; eauto].
    apply lru_find_hit in F as (Hc & _ & Hd). rewrite Hd in L.
    pose proof (clear_to_client s0 (e_responded e)) as Hc1.
    destruct (e_client e =? c) eqn:W.
    + (* the client's own proposal *)
      injection L as ->. apply N.eqb_eq in W.
      assert (G : forall s' : session, s_client s' = c -> find_session c (s' :: rest) = Some s').
      { intros s' E. rewrite find_session_cons, E. now rewrite N.eqb_refl. }
      unfold update_flat.
      destruct (has_responded _ _) eqn:HR; cbn [fst st_tab t_list]; intros _.
      { eexists. split; [apply G; congruence|]. right. auto. }
      destruct (hist_get _ _) eqn:HG; cbn [fst st_tab t_list].
      { eexists. split; [apply G; congruence|]. right. auto. }
      destruct (sm_update sm (e_cmd e)) as [sm' r]. cbn [fst st_tab t_list].
      eexists. split; [apply G; cbn; congruence|]. right. repeat split; auto. right. exists r. auto.
    + intros _. exists s. split; [|now left].
      assert (G : forall s' : session, s_client s' = e_client e -> find_session c (s' :: rest) = Some s).
      { intros s' E. now rewrite find_session_cons, E, W. }
      destruct (update_flat sm s0 e) as [[s' sm'] o] eqn:U. cbn [fst st_tab t_list].
      apply update_flat_session in U as (E & _). apply G. congruence.
Qed.

Fixpoint present_along (c : N) (st : state) (es : list entry) : Prop :=
  match es with
  | [] => True
  | e :: r => lookup c (fst (step st e)) <> None /\ present_along c (fst (step st e)) r
  end.

Definition cached (c k : N) (r : result) (st : state) : Prop :=
  exists s, lookup c st = Some s /\ hist_get k (s_history s) = Some r /\ s_responded s < k.

Definition acked (c k : N) (st : state) : Prop :=
  exists s, lookup c st = Some s /\ k <= s_responded s.

Lemma cached_along : forall es st c k r,
  inv st -> cached c k r st -> present_along c st es ->
  Forall (fun x => classify x = KUpdate -> e_client x = c -> e_responded x < k) es ->
  cached c k r (run_state st es).
Proof.
  induction es as [|e t IH]; intros st c k r I C P F; [exact C|].
  rewrite run_state_cons. destruct P as [P1 P2]. apply Forall_cons_iff in F as [F1 F2].
  apply IH; auto; [now apply step_inv|].
  destruct C as (s & L & HG & HR).
  destruct (session_step st e c s I L P1) as (s' & L' & [->|(K & Hc & D)]).
  - exists s. auto.
  - specialize (F1 K Hc). destruct D as [->|(r' & -> & HR' & HG')].
    + exists (clear_to s (e_responded e)). split; auto. split.
      * apply clear_to_keeps; auto.
      * rewrite clear_to_responded. lia.
    + eexists. split; [exact L'|]. unfold push_response. cbn [s_history s_responded hist_get]. split.
      * destruct (e_series e =? k) eqn:Q.
        -- apply N.eqb_eq in Q. subst k. rewrite (clear_to_keeps s (e_responded e) (e_series e) r HG F1) in HG'. discriminate.
        -- apply clear_to_keeps; auto.
      * rewrite clear_to_responded. lia.
Qed.

Lemma acked_along : forall es st c k,
  inv st -> acked c k st -> present_along c st es -> acked c k (run_state st es).
Proof.
  induction es as [|e t IH]; intros st c k I A P; [exact A|].
  rewrite run_state_cons. destruct P as [P1 P2].
  apply IH; auto; [now apply step_inv|].
  destruct A as (s & L & HR).
  destruct (session_step st e c s I L P1) as (s' & L' & [->|(K & Hc & D)]).
  - exists s. auto.
  - destruct D as [->|(r' & -> & _ & _)]; eexists; (split; [exact L'|]);
      unfold push_response; cbn [s_responded]; rewrite clear_to_responded; lia.
Qed.

Lemma retry_returns_cached_proved : forall st e r st1 es e',
  inv st -> classify e = KUpdate -> step st e = (st1, OApplied r) ->
  present_along (e_client e) st1 es ->
  Forall (fun x => classify x = KUpdate -> e_client x = e_client e -> e_responded x < e_series e) es ->
  classify e' = KUpdate -> e_client e' = e_client e -> e_series e' = e_series e ->
  e_responded e' < e_series e ->
  exists st', step (run_state st1 es) e' = (st', OCached r) /\ st_sm st' = st_sm (run_state st1 es).
Proof.
  intros st e r st1 es e' I K ST P F K' Hc' Hs' Hr'.
  assert (I1 : inv st1) by (replace st1 with (fst (step st e)) by (now rewrite ST); now apply step_inv).
  assert (C1 : cached (e_client e) (e_series e) r st1).
  { revert ST. rewrite step_eq, K. destruct (lru_find _ _) as [[s0 rest]|] eqn:F0; [|discriminate].
    unfold update_flat. destruct (has_responded _ _) eqn:HR; [discriminate|]. destruct (hist_get _ _) eqn:HG; [discriminate|].
    destruct (sm_update _ _) as [sm' r']. intros H; injection H as <- <-.
    apply lru_find_hit in F0 as (Hc & _). eexists. split; [|split].
    - unfold lookup. cbn [st_tab t_list]. rewrite find_session_cons. cbn [push_response s_client].
      now rewrite clear_to_client, Hc, N.eqb_refl.
    - cbn. now rewrite N.eqb_refl.
    - cbn. unfold has_responded in HR. lia. }
  destruct (cached_along es st1 _ _ _ I1 C1 P F) as (s & L & HG & HR).
  rewrite step_eq, K', Hc'. unfold lookup, find_session in L.
  destruct (lru_find (e_client e) _) as [[s0 rest]|]; [|discriminate]. injection L as ->.
  unfold update_flat, has_responded. rewrite clear_to_responded, Hs', (clear_to_keeps s _ _ r HG Hr').
  destruct (e_series e <=? N.max (s_responded s) (e_responded e')) eqn:X; [lia|]. eexists. split; reflexivity.
Qed.

Lemma acknowledgement_recorded_proved : forall st e,
  classify e = KUpdate -> lookup (e_client e) st <> None ->
  acked (e_client e) (e_responded e) (fst (step st e)).
Proof.
  intros st e K P. rewrite step_eq, K. unfold lookup, find_session in P.
  destruct (lru_find (e_client e) _) as [[s0 rest]|] eqn:F; [|congruence].
  apply lru_find_hit in F as (Hc & _).
  destruct (update_flat (st_sm st) s0 e) as [[s' sm'] o] eqn:U. cbn [fst].
  apply update_flat_session in U as (E & R & _). exists s'. split; [|exact R].
  unfold lookup. cbn [st_tab t_list]. now rewrite find_session_cons, E, Hc, N.eqb_refl.
Qed.

Lemma acknowledged_duplicate_ignored_proved : forall st c k es e,
  inv st -> acked c k st -> present_along c st es ->
  classify e = KUpdate -> e_client e = c -> e_series e <= k ->
  exists st', step (run_state st es) e = (st', OIgnored) /\ st_sm st' = st_sm (run_state st es).
Proof.
  intros st c k es e I A P K Hc Hs.
  destruct (acked_along es st c k I A P) as (s & L & HR).
  rewrite step_eq, K, Hc. unfold lookup, find_session in L.
  destruct (lru_find c _) as [[s0 rest]|]; [|discriminate]. injection L as ->.
  unfold update_flat, has_responded. rewrite clear_to_responded.
  destruct (e_series e <=? N.max (s_responded s) (e_responded e)) eqn:X; [|lia]. eexists. split; reflexivity.
Qed.

Lemma takeN_app_exact : forall {A} (a b : list A) n, N.of_nat (length a) = n -> takeN n (a ++ b) = a.
Proof.
  induction a as [|x r IH]; cbn; intros b n H.
  - destruct b; auto. cbn. subst. reflexivity.
  - destruct (n =? 0) eqn:E; [lia|]. f_equal. apply IH. lia.
Qed.

Lemma evicted_session_rejected_proved : forall st e l v,
  inv st -> t_list (st_tab st) = l ++ [v] ->
  N.of_nat (length (l ++ [v])) = t_cap (st_tab st) ->
  classify e = KRegister -> lookup (e_client e) st = None ->
  exists st1, step st e = (st1, ORegistered (e_client e)) /\
    t_list (st_tab st1) = new_session (e_client e) :: l /\
    lookup (s_client v) st1 = None /\
    forall e', classify e' = KUpdate -> e_client e' = s_client v -> step st1 e' = (st1, ORejected).
Proof.
  intros st e l v [[ND _] _] E FULL K L. rewrite step_eq, K.
  pose proof L as L'. unfold lookup, find_session in L'.
  destruct (lru_find (e_client e) _) as [[]|]; [discriminate|]. clear L'.
  eexists. split; [reflexivity|]. cbn [st_tab t_list]. rewrite E in *.
  change (new_session (e_client e) :: l ++ [v]) with ((new_session (e_client e) :: l) ++ [v]).
  rewrite takeN_app_exact by (rewrite app_length in FULL; cbn in *; lia).
  assert (V : find_session (s_client v) (new_session (e_client e) :: l) = None).
  { apply find_session_none. cbn. intros [Q|Q].
    - unfold lookup in L. rewrite E in L. apply find_session_none in L. apply L.
      rewrite Q, ids_app. apply in_or_app. right. now left.
    - rewrite ids_app in ND. cbn in ND. apply NoDup_remove_2 in ND. apply ND. now rewrite app_nil_r. }
  repeat split; [exact V|].
  intros e' K' Hc'. apply unknown_session_rejected_untouched_proved; auto. now rewrite Hc'.
Qed.

Variable sm_save : S -> bytes.
Variable sm_recover : bytes -> option S.
Hypothesis sm_roundtrip : forall s, sm_recover (sm_save s) = Some s.

Lemma snapshot_restore_id : forall (st : state),
  inv st -> 0 < t_cap (st_tab st) ->
  exists sn, snapshot sm_save st = Some (sn, st) /\ restore sm_recover sn = Some st.
Proof.
  intros [t sm] [[ND LE] _] POS. cbn [st_tab] in *.
  unfold snapshot, restore. cbn [st_tab st_sm].
  rewrite save_preserves_order_proved by auto.
  eexists. split; [reflexivity|]. cbn [fst snd].
  rewrite (load_rev t ND LE POS), sm_roundtrip. reflexivity.
Qed.

Lemma run_app : forall es1 es2 st,
  run st (es1 ++ es2) =
  (fst (run (run_state st es1) es2), snd (run st es1) ++ snd (run (run_state st es1) es2)).
Proof.
  induction es1 as [|e r IH]; intros es2 st.
  - cbn. now destruct (run st es2).
  - cbn [app Session.run]. rewrite run_state_cons. destruct (step st e) as [sta o]. cbn [fst].
    rewrite IH. now destruct (run sta r).
Qed.

Lemma reached_restore : forall cap (s0 : S) es, 0 < cap ->
  let st := run_state (init_state cap s0) es in
  exists sn, snapshot sm_save st = Some (sn, st) /\ restore sm_recover sn = Some st.
Proof.
  intros cap s0 es POS st. apply snapshot_restore_id; [apply run_inv, init_inv|].
  subst st. now rewrite run_cap.
Qed.

Definition restart_run (cap : N) (s0 : S) (es1 es2 : list entry) : option (state * list outcome) :=
  match snapshot sm_save (run_state (init_state cap s0) es1) with
  | Some (sn, _) =>
    match restore sm_recover sn with
    | Some st' => Some (fst (run st' es2), snd (run (init_state cap s0) es1) ++ snd (run st' es2))
    | None => None
    end
  | None => None
  end.

Lemma replicas_agree_proved : forall cap (s0 : S) es1 es2 es1' es2',
  0 < cap -> es1 ++ es2 = es1' ++ es2' ->
  restart_run cap s0 es1 es2 = Some (run (init_state cap s0) (es1 ++ es2)) /\
  restart_run cap s0 es1 es2 = restart_run cap s0 es1' es2'.
Proof.
  assert (A : forall cap s0 es1 es2, 0 < cap ->
              restart_run cap s0 es1 es2 = Some (run (init_state cap s0) (es1 ++ es2))).
  { intros cap s0 es1 es2 POS. unfold restart_run.
    destruct (reached_restore cap s0 es1 POS) as (sn & H1 & H2). now rewrite H1, H2, run_app. }
  intros cap s0 es1 es2 es1' es2' POS E. split; [now apply A|].
  rewrite !A by auto. now rewrite E.
Qed.

End SessionProofs.
