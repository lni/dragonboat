(* L2, stages 2 and 3 together: soundness of the executable step function
   (Model/RaftNetCfgSnapExec.v) and the contract of the simulator's membership function. *)
From DB Require Import Model.RaftNet Model.RaftNetSnap Model.RaftNetCfg Model.RaftNetCfgSnap
  Model.RaftNetCfgSnapExec
  Proofs.RaftNetLists Proofs.RaftNetElection Proofs.RaftNetLog Proofs.RaftNetCommitDefs
  Proofs.RaftNetCommit Proofs.RaftNetSafety Proofs.RaftNetSnap Proofs.RaftNetCfgLemmas
  Proofs.RaftNetCfgInv Proofs.RaftNetCfgStep Proofs.RaftNetCfgSafety Proofs.RaftNetCfgSnap.
From Coq Require Import Permutation.

Section Exec4Sound.
  Variable cfg_of : list entry -> list id.
  Variable is_cc : entry -> bool.

  Notation step4 := (step4 cfg_of is_cc).
  Notation steps4 := (steps4 cfg_of is_cc).
  Notation reachable4 := (reachable4 cfg_of is_cc).
  Notation step_fn4 := (step_fn4 cfg_of is_cc).
  Notation run4 := (run4 cfg_of is_cc).

  Lemma visible4_b_spec s l : visible4_b s l = true -> visible4 s l.
  Proof.
    destruct l as [l0| |]; simpl; auto.
    - destruct l0; simpl; auto. intros H. now apply Nat.leb_le in H.
    - intros H. now apply Nat.leb_le in H.
  Qed.

  Theorem step_fn4_sound s l s' : step_fn4 s l = Some s' -> step4 s l s'.
  Proof.
    destruct l; cbn [RaftNetCfgSnapExec.step_fn4]; intros H.
    - destruct (visible4_b s l) eqn:Hv; [|discriminate].
      destruct (step_fn3 cfg_of is_cc (base4 s) l) as [b'|] eqn:Hs; [|discriminate].
      injection H as <-. apply S4Base; [now apply visible4_b_spec | now apply step_fn3_sound].
    - match type of H with (if ?c then _ else _) = _ => destruct c eqn:Hc; [|discriminate] end.
      injection H as <-. split_andb. now apply S4Compact.
    - match type of H with (if ?c then _ else _) = _ => destruct c eqn:Hc; [|discriminate] end.
      injection H as <-. split_andb. apply S4SendIS; auto using role_eqb_eq.
    - match type of H with (if ?c then _ else _) = _ => destruct c eqn:Hc; [|discriminate] end.
      apply andb_prop in Hc. destruct Hc as [Hin Ht]. apply Nat.eqb_eq in Ht.
      apply snap_in in Hin.
      destruct (Nat.leb_spec sidx (commit (nodes (base3 (base4 s)) j))).
      + injection H as <-. now apply S4HandleISStale.
      + destruct (Nat.eqb_spec (term_at (log (nodes (base3 (base4 s)) j)) sidx) sterm).
        * injection H as <-. now apply S4HandleISMatch.
        * injection H as <-. now apply S4HandleISRestore.
  Qed.

  Theorem run4_sound ls : forall s s', run4 s ls = Some s' -> steps4 s ls s'.
  Proof.
    induction ls as [|l ls IH]; simpl; intros s s' H.
    - injection H as <-. constructor.
    - destruct (step_fn4 s l) as [s1|] eqn:E; [|discriminate].
      econstructor; [apply step_fn4_sound; exact E | apply IH; exact H].
  Qed.

  Corollary run4_reachable ls s : run4 (init4) ls = Some s -> reachable4 s.
  Proof. intros H. exists ls. now apply run4_sound. Qed.

  Lemma run4_app ls1 : forall ls2 s,
    run4 s (ls1 ++ ls2) = match run4 s ls1 with Some s1 => run4 s1 ls2 | None => None end.
  Proof.
    induction ls1 as [|l ls1 IH]; intros ls2 s; simpl; [reflexivity|].
    destruct (step_fn4 s l); [apply IH | reflexivity].
  Qed.

End Exec4Sound.

(* the simulator's membership function meets the contract of the stage-3 theorems *)

Definition mem_ok (m : members) : Prop := NoDup (mem_voting m).

Lemma memb_In x l : memb x l = true <-> In x l.
Proof.
  unfold memb. rewrite existsb_exists. split.
  - intros (y & Hy & E). apply Nat.eqb_eq in E. now subst.
  - intros H. exists x. split; [exact H | apply Nat.eqb_refl].
Qed.

Lemma memb_nIn x l : memb x l = false <-> ~ In x l.
Proof. rewrite <- memb_In. destruct (memb x l); split; intros; congruence. Qed.

Lemma drop_app x a b : drop x (a ++ b) = drop x a ++ drop x b.
Proof. unfold drop. apply filter_app. Qed.

Lemma drop_nodup x l : NoDup l -> NoDup (drop x l).
Proof. intros H. now apply NoDup_filter. Qed.

Lemma mem_apply_noncc m e : is_cc_sim e = false -> mem_apply m e = m.
Proof.
  unfold is_cc_sim, mem_apply. intros H.
  assert (Hd : epay e / 100 = 0 \/ 5 <= epay e / 100).
  { apply andb_false_iff in H. destruct H as [H|H].
    - apply Nat.leb_gt in H. left. now apply Nat.div_small.
    - apply Nat.ltb_ge in H. right. apply Nat.div_le_lower_bound; lia. }
  destruct (epay e / 100) as [|[|[|[|[|k]]]]]; try reflexivity; lia.
Qed.

(* one step changes the counted replicas by at most one, and keeps them duplicate-free *)
Lemma mem_apply_ok m e :
  mem_ok m -> mem_ok (mem_apply m e) /\ qnear (mem_voting m) (mem_voting (mem_apply m e)).
Proof.
  unfold mem_ok. intros ND. unfold mem_apply.
  set (v := epay e mod 100).
  destruct (epay e / 100) as [|[|[|[|[|k]]]]]; try (split; [exact ND | apply qnear_refl]).
  - (* AddNode *)
    destruct (memb v (m_removed m) || memb v (m_voters m) || memb v (m_witnesses m)) eqn:Hc;
      [split; [exact ND | apply qnear_refl]|].
    apply orb_false_iff in Hc. destruct Hc as [Hc Hw]. apply orb_false_iff in Hc.
    destruct Hc as [_ Hv]. apply memb_nIn in Hv, Hw.
    assert (Hn : ~ In v (mem_voting m)).
    { unfold mem_voting. rewrite in_app_iff. tauto. }
    unfold mem_voting in *. cbn [m_voters m_witnesses]. split.
    + simpl. now constructor.
    + simpl. now apply quorum_intersect_adjacent.
  - (* RemoveNode *)
    destruct (memb v (m_voters m) && (length (m_voters m) =? 1));
      [split; [exact ND | apply qnear_refl]|].
    unfold mem_voting in *. cbn [m_voters m_witnesses]. rewrite <- drop_app.
    split; [now apply drop_nodup|].
    destruct (in_dec Nat.eq_dec v (m_voters m ++ m_witnesses m)) as [Hin|Hnin].
    + apply qnear_sym. apply qnear_grow; [exact ND | | now apply (cfg_remove_length v)].
      intros y Hy. unfold drop in Hy. apply filter_In in Hy. tauto.
    + change (drop v) with (cfg_remove v). rewrite (cfg_remove_notin v _ Hnin). apply qnear_refl.
  - (* AddNonVoting *)
    destruct (memb v (m_removed m) || mem_member m v); split;
      try exact ND; try apply qnear_refl.
  - (* AddWitness *)
    destruct (memb v (m_removed m) || mem_member m v) eqn:Hc;
      [split; [exact ND | apply qnear_refl]|].
    apply orb_false_iff in Hc. destruct Hc as [_ Hc]. unfold mem_member in Hc.
    apply orb_false_iff in Hc. destruct Hc as [Hc Hw]. apply orb_false_iff in Hc.
    destruct Hc as [Hv _]. apply memb_nIn in Hv, Hw.
    assert (Hn : ~ In v (mem_voting m)).
    { unfold mem_voting. rewrite in_app_iff. tauto. }
    unfold mem_voting in *. cbn [m_voters m_witnesses].
    assert (HA : Add v (m_voters m ++ m_witnesses m) (m_voters m ++ v :: m_witnesses m))
      by apply Add_app.
    assert (ND' : NoDup (m_voters m ++ v :: m_witnesses m)).
    { apply (NoDup_Add HA). split; assumption. }
    split; [exact ND'|].
    apply qnear_grow; [exact ND' | | ].
    + intros y Hy. apply in_app_iff in Hy. apply in_app_iff.
      destruct Hy as [Hy|Hy]; [now left | right; now right].
    + rewrite !app_length. simpl. lia.
Qed.

Lemma mem_fold_ok C0 l : NoDup C0 -> mem_ok (mem_fold C0 l).
Proof.
  intros ND. unfold mem_fold.
  assert (H0 : mem_ok (mem_init C0)).
  { unfold mem_ok, mem_voting, mem_init. cbn [m_voters m_witnesses]. now rewrite app_nil_r. }
  revert H0. generalize (mem_init C0). induction l as [|e l IH]; intros m Hm; [exact Hm|].
  simpl. apply IH. now apply mem_apply_ok.
Qed.

Theorem cfg_sim_contract C0 : NoDup C0 -> cfg_contract (cfg_sim C0) is_cc_sim.
Proof.
  intros ND. repeat split.
  - intros l e H. unfold cfg_sim, mem_fold. rewrite fold_left_app. simpl.
    now rewrite mem_apply_noncc.
  - intros l e. unfold cfg_sim, mem_fold. rewrite fold_left_app. simpl.
    apply mem_apply_ok. now apply (mem_fold_ok C0 l).
  - intros l. now apply (mem_fold_ok C0 l).
Qed.
