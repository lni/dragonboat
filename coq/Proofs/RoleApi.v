From Coq Require Import List NArith Bool.
From DB Require Import Model.RoleApi.
Import ListNotations.
Open Scope N_scope.

Lemma src_guards_all : src_guards = mkGuards true true true true true true true true true true.
Proof. reflexivity. Qed.

Ltac all_cases :=
  repeat match goal with
         | a : api |- _ => destruct a
         | s : hstate |- _ => destruct s
         | b : bool |- _ => destruct b
         | r : role |- _ => destruct r
         end.

Lemma witness_refused_proved : forall st a, a <> Compaction -> api_verdict src_guards Witness st a <> Accepted.
Proof. rewrite src_guards_all. intros st a Ha. all_cases; cbv; congruence. Qed.

(* a request enters a table, or reaches Lookup, only when it is accepted *)
Lemma witness_never_enqueues_proved : forall st a, api_enqueues src_guards Witness st a = None.
Proof.
  intros st a. unfold api_enqueues. pose proof (witness_refused_proved st a) as H.
  destruct (api_verdict src_guards Witness st a); try reflexivity.
  destruct a; try reflexivity; destruct H; discriminate || reflexivity.
Qed.

Lemma witness_never_reaches_lookup_proved : forall st a, api_calls_lookup src_guards Witness st a = false.
Proof.
  intros st a. unfold api_calls_lookup. destruct a; try reflexivity. pose proof (witness_refused_proved st StaleRead) as H.
  destruct (api_verdict src_guards Witness st StaleRead); try reflexivity. destruct H; discriminate || reflexivity.
Qed.

(* one guard: the verdict of a witness depends on it *)
Lemma propose_guard_needed_proved :
  api_verdict (mkGuards false true true true true true true true true true) Witness HReady (Propose true) = Accepted.
Proof. reflexivity. Qed.

Lemma src_start_all : src_start_replica = start_replica true true true.
Proof. reflexivity. Qed.

Lemma witness_start c : sc_witness c = true ->
  src_start_replica c = if (0 <? sc_snapshot_entries c) || sc_nonvoting c then StartRefused else Started.
Proof. intros Hw. rewrite src_start_all. unfold start_replica. rewrite Hw. reflexivity. Qed.

Lemma other_configs_start_proved : forall c, sc_witness c = false -> src_start_replica c = Started.
Proof. rewrite src_start_all. intros c Hw. unfold start_replica. rewrite Hw. reflexivity. Qed.

Lemma metadata_no_payload ents : Forall (fun e => carries_payload e = false) (make_metadata_entries ents).
Proof.
  unfold make_metadata_entries. apply Forall_forall. intros x Hx. apply in_map_iff in Hx.
  destruct Hx as (e & E & _). unfold carries_payload.
  destruct (e_type e =? et_ConfigChangeEntry) eqn:Ec; subst x.
  - rewrite Ec. reflexivity.
  - reflexivity.
Qed.

Lemma store_save_no_payload st ents :
  Forall (fun e => carries_payload e = false) st -> Forall (fun e => carries_payload e = false) ents ->
  Forall (fun e => carries_payload e = false) (store_save st ents).
Proof.
  intros Hs He. unfold store_save. destruct ents as [|e rest]; [exact Hs|].
  apply Forall_app. split; [|exact He].
  apply Forall_forall. intros x Hx. apply filter_In in Hx. destruct Hx as [Hx _].
  rewrite Forall_forall in Hs. apply Hs. exact Hx.
Qed.

Lemma witness_store_from st batches :
  Forall (fun e => carries_payload e = false) st ->
  Forall (fun e => carries_payload e = false) (fold_left witness_receive batches st).
Proof.
  revert st. induction batches as [|b bs IH]; intros st Hs; cbn [fold_left]; [exact Hs|].
  apply IH. unfold witness_receive. apply store_save_no_payload; [exact Hs|apply metadata_no_payload].
Qed.

Lemma witness_persists_no_payload_proved : forall batches,
  Forall (fun e => carries_payload e = false) (witness_store batches) /\ payload_entries (witness_store batches) = 0.
Proof.
  intros batches. assert (H : Forall (fun e => carries_payload e = false) (witness_store batches)).
  { unfold witness_store. apply witness_store_from. constructor. }
  split; [exact H|]. unfold payload_entries.
  replace (filter carries_payload (witness_store batches)) with (@nil entry); [reflexivity|].
  symmetry. induction H as [|x l Hx Hl IH]; [reflexivity|]. cbn [filter]. rewrite Hx. exact IH.
Qed.

Lemma no_payload_means e : carries_payload e = false ->
  e_type e = et_ConfigChangeEntry \/
  (e_type e = et_MetadataEntry /\ e_cmd e = [] /\ e_key e = 0 /\ e_client e = 0 /\ e_series e = 0 /\ e_resp e = 0).
Proof.
  unfold carries_payload. intros H. apply andb_false_iff in H. destruct H as [H|H].
  - left. apply negb_false_iff in H. apply N.eqb_eq. exact H.
  - right. apply negb_false_iff in H.
    apply andb_true_iff in H. destruct H as [H H6].
    apply andb_true_iff in H. destruct H as [H H5].
    apply andb_true_iff in H. destruct H as [H H4].
    apply andb_true_iff in H. destruct H as [H H3].
    apply andb_true_iff in H. destruct H as [H1 H2].
    apply N.eqb_eq in H1, H3, H4, H5, H6.
    destruct (e_cmd e); [|discriminate]. auto 10.
Qed.
