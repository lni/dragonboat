(* Proofs/SessionSource.v — tie G for C05: who may refresh the LRU order of the
   session table. Model/Session.v makes the table a function of the applied
   entries only; in the Go code that holds because the order-refreshing lookups
   (OrderedCache.Get via getSessionLocked/getSession) are reachable only from
   the apply path (StateMachine.update / registerSession / unregisterSession) and
   from the save walk, which Proofs/Session.v proves order-preserving
   (save_preserves_order). The caller lists are re-read from internal/rsm on
   every run (Gen/GenC05.v); a new caller — e.g. an accessor used by the client
   API that looks a session up outside the log — changes them and breaks
   lru_refresh_only_on_apply_path (Props/C05.v), which compares them with the
   lists below. *)
From Coq Require Import List String.
From DB Require Import Gen.GenC05.
Import ListNotations.
Open Scope string_scope.

Definition expected_refresh_callers : list string * list string * list string * list string :=
  ( (* call OrderedCache.Get / getSessionLocked *)
    ["lrusession.getSession"; "lrusession.getSessionLocked"; "lrusession.save"],
    (* call lrusession.getSession *)
    ["SessionManager.ClientRegistered"; "SessionManager.RegisterClientID"; "SessionManager.UnregisterClientID"],
    (* call SessionManager.ClientRegistered / RegisterClientID / UnregisterClientID: the apply path *)
    ["StateMachine.registerSession"; "StateMachine.unregisterSession"; "StateMachine.update"],
    (* reach the (order-preserving) save walk *)
    ["SessionManager.GetSessionHash"; "SessionManager.SaveSessions"; "StateMachine.GetSessionHash"; "StateMachine.getSSMeta"] ).
