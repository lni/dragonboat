(* Model/Requests.v (property C12): the facts of the source the model rests on, and truthfulness -
   every result ever delivered is the one its code path produces ([ev_ok]), in every run, whatever
   the environment does. *)
From Coq Require Import String NArith List Bool.
From DB Require Import Gen.GenC12 Model.Requests.
Import ListNotations.
Open Scope N_scope.

(* these three flags select the branches of the model *)
Lemma fix_read_add : read_add_terminates_when_stopped = true.
Proof. reflexivity. Qed.
Lemma fix_logquery_add : logquery_add_refuses_when_stopped = true.
Proof. reflexivity. Qed.
Lemma fix_logquery_returned : logquery_returned_ignored_when_stopped = true.
Proof. reflexivity. Qed.
(* proposalShard.committed notifies with the shard mutex held, so CommitP is one step
   (CommitBorrow / CommitFire are then no-ops of the model) *)
Lemma fix_committed_under_lock : proposal_committed_under_lock = true.
Proof. reflexivity. Qed.

(* pendingReadIndex.add keeps a copy of the slice it is handed: the model's batches own their
   request lists ([taken] is moved into the batch), they never alias the read queue's two
   reusable buffers that later client reads overwrite *)
Lemma read_add_copies : read_add_copies_its_argument = true.
Proof. reflexivity. Qed.

(* node.tick ticks every request table on every path (quiesced or not, no early return):
   the model's [Tick t] step - all table clocks set to t - is what a tick of the node does,
   and the clock the deadline / gc theorems speak about cannot freeze while the node is ticked *)
Lemma node_tick_ticks_tables : node_tick_advances_all_tables = true.
Proof. reflexivity. Qed.

(* proposalShard.propose: pending[key] = req (ProposeA) comes before proposals.add(entry)
   (ProposeB), and both refusal branches delete pending[key] again.  The invariant
   accepted_without_result_is_referenced rests on this order: a proposal is referenced before the
   queue can accept it, so a close() of the shard in between terminates it *)
Lemma propose_order : propose_registers_before_enqueue = true.
Proof. reflexivity. Qed.

(* node.close() closes all five tables, in the order of [close_ops] (CloseR ; CloseP .. ; CloseC ;
   CloseS ; CloseL); node.gc() covers the three tables whose gc is not part of applied() *)
Lemma node_close_order : node_close_tables =
  ["pendingReadIndexes"; "pendingProposals"; "pendingConfigChange"; "pendingSnapshot"; "pendingRaftLogQuery"]%string.
Proof. reflexivity. Qed.
Lemma node_gc_order : node_gc_tables = ["pendingProposals"; "pendingConfigChange"; "pendingSnapshot"]%string.
Proof. reflexivity. Qed.

(* a read index ctx is drawn from the process wide random source (fresh_ctx: the model's AddReads takes
   the ctx as an argument and panics on a repeated one), and node.processReadyToRead hands applied()
   the applied index of the state machine, ud.LastApplied, nothing else
   (read_completed_only_when_applied speaks about that argument) *)
Lemma read_ctx_random : read_ctx_low_is_random = true.
Proof. reflexivity. Qed.
Lemma ready_to_read_applied : ready_to_read_uses_last_applied = true.
Proof. reflexivity. Qed.

(* x_request / ReqLQ refuse whenever the slot is occupied ([x_outcome]: Some _ => busy), whatever the
   occupant's deadline: accepted_without_result_is_referenced needs it (an overwritten occupant is
   referenced by nothing); the key assumption of env_ok rests on key generators seeded per incarnation *)
Lemma single_slot_busy : single_slot_busy_unconditional = true.
Proof. reflexivity. Qed.
Lemma key_seed_per_incarnation : proposal_key_seed_per_incarnation = true.
Proof. reflexivity. Qed.

(* every table method the model treats as ONE step is one critical section
   (Lock; defer Unlock at the top) in the source *)
Definition modelled_atomic : list string :=
  [ "proposalShard.takeProposal"; "proposalShard.gcAt"; "proposalShard.close";
    "pendingReadIndex.add"; "pendingReadIndex.addReady"; "pendingReadIndex.applied";
    "pendingReadIndex.dropped"; "pendingReadIndex.close";
    "pendingConfigChange.request"; "pendingConfigChange.gc"; "pendingConfigChange.committed";
    "pendingConfigChange.dropped"; "pendingConfigChange.apply"; "pendingConfigChange.close";
    "pendingSnapshot.request"; "pendingSnapshot.gc"; "pendingSnapshot.apply"; "pendingSnapshot.close";
    "pendingRaftLogQuery.add"; "pendingRaftLogQuery.returned"; "pendingRaftLogQuery.close";
    "readIndexQueue.add"; "readIndexQueue.get"; "readIndexQueue.close";
    "entryQueue.add"; "entryQueue.get"; "entryQueue.close" ]%string.
Lemma atomic_methods_are_locked :
  forallb (fun m => existsb (String.eqb m) locked_methods) modelled_atomic = true.
Proof. vm_compute. reflexivity. Qed.
(* Completed for a proposal is produced by proposalShard.applied only; who calls it *)
Lemma applied_called_from_apply_path : proposals_applied_callers = ["node.ApplyUpdate"%string].
Proof. reflexivity. Qed.

Definition hgot (h : heap) (r : N) : list ev := r_got (h_reqs h r).
Definition got (s : st) (r : N) : list ev := hgot (H s) r.

Definition is_committed (e : ev) : bool := rc (e_res e) =? cCommitted.
Definition is_term (e : ev) : bool := negb (is_committed e).
Definition nterm (l : list ev) : nat := length (filter is_term l).
Definition ncomm (l : list ev) : nat := length (filter is_committed l).

(* every delivered result is what its code path says *)
Definition ev_ok (e : ev) : Prop :=
  match e_src e with
  | SApplied cid sid key v rej => e_res e = mkRes (if rej then cRejected else cCompleted) v 0
  | SReadApplied a idx now dl =>
      0 < idx /\ idx <= a /\ e_res e = (if now <? dl then mkRes cCompleted 0 0 else mkRes cTimeout 0 0)
  | SGc now dl => dl < now /\ e_res e = mkRes cTimeout 0 0
  | SClose => e_res e = terminated
  | SDrop => e_res e = mkRes cDropped 0 0
  | SCommit => e_res e = mkRes cCommitted 0 0
  | SOther => rc (e_res e) = cCompleted \/ rc (e_res e) = cRejected \/ rc (e_res e) = cAborted
              \/ rc (e_res e) = cOutOfRange
  end.
Definition evs_ok (h : heap) : Prop := forall r, Forall ev_ok (hgot h r).

Lemma hgot_updR : forall h r f x, hgot (updR h r f) x = if x =? r then r_got (f (h_reqs h r)) else hgot h x.
Proof. intros. unfold hgot, updR. cbn. destruct (x =? r); reflexivity. Qed.

Lemma evs_ok_updR_same : forall h r f, (forall q, r_got (f q) = r_got q) -> evs_ok h -> evs_ok (updR h r f).
Proof.
  intros h r f Hf Hok x. rewrite hgot_updR. destruct (x =? r) eqn:E.
  - rewrite Hf. apply Hok.
  - apply Hok.
Qed.
Lemma evs_ok_updR_add : forall h r e, ev_ok e -> evs_ok h -> evs_ok (updR h r (fun q => r_add_got q e)).
Proof.
  intros h r e He Hok x. rewrite hgot_updR. destruct (x =? r) eqn:E.
  - cbn. apply Forall_app. split; [apply Hok | constructor; [exact He | constructor]].
  - apply Hok.
Qed.
Lemma evs_ok_same_reqs : forall h h', h_reqs h' = h_reqs h -> evs_ok h -> evs_ok h'.
Proof. intros h h' E Hok x. unfold hgot. rewrite E. apply Hok. Qed.
Ltac same_reqs := match goal with Hk : evs_ok ?h |- evs_ok _ => eapply evs_ok_same_reqs; [|exact Hk]; reflexivity end.

Lemma evs_ok_add_req : forall h q, r_got q = [] -> evs_ok h -> evs_ok (add_req h q).
Proof.
  intros h q Hq Hok x. unfold add_req, hgot. cbn. destruct (x =? h_nreq h).
  - rewrite Hq. constructor.
  - apply Hok.
Qed.

Lemma objs_notifyf : forall sc f h sl o,
  h_objs (notifyf sc f h sl) o = h_objs h o \/ exists r, h_objs (notifyf sc f h sl) o = o_notified (h_objs h o) r.
Proof.
  intros. unfold notifyf. destruct (negb (h_err h =? 0)); [left; reflexivity|].
  destruct (o_comp (h_objs h (so sl))); [|left; reflexivity].
  cbn. destruct (o =? so sl) eqn:E; [|left; reflexivity].
  apply N.eqb_eq in E. subst. right. eexists. reflexivity.
Qed.

Lemma evs_ok_notifyf : forall sc f h sl,
  ev_ok (mkEv (f (h_objs h (so sl))) (sr sl) (sc (h_objs h (so sl)))) -> evs_ok h -> evs_ok (notifyf sc f h sl).
Proof.
  intros sc f h sl He Hok. unfold notifyf. destruct (negb (h_err h =? 0)); [exact Hok|].
  destruct (o_comp (h_objs h (so sl))).
  - apply evs_ok_updR_add; [exact He|]. same_reqs.
  - same_reqs.
Qed.

Lemma evs_ok_notifyf_all : forall sc f (Q : obj -> slot -> Prop),
  (forall o r sl, Q o sl -> Q (o_notified o r) sl) ->
  (forall o sl, Q o sl -> ev_ok (mkEv (f o) (sr sl) (sc o))) ->
  forall xs h, evs_ok h -> Forall (fun sl => Q (h_objs h (so sl)) sl) xs -> evs_ok (notifyf_all sc f h xs).
Proof.
  intros sc f Q Hst Hev xs. induction xs as [|x xs IH]; intros h Hok Hq; [exact Hok|].
  cbn. inversion Hq; subst. apply IH.
  - apply evs_ok_notifyf; [apply Hev; assumption | exact Hok].
  - eapply Forall_impl; [|exact H2]. intros sl Hsl. cbn in Hsl.
    destruct (objs_notifyf sc f h x (so sl)) as [E|[r E]]; rewrite E; [exact Hsl | apply Hst; exact Hsl].
Qed.

Lemma evs_ok_notify_all : forall sc r xs h,
  ev_ok (mkEv r 0 sc) -> evs_ok h -> evs_ok (notify_all sc r h xs).
Proof.
  intros sc r xs h He Hok. unfold notify_all, notify.
  change (evs_ok (notifyf_all (fun _ => sc) (fun _ => r) h xs)).
  apply (evs_ok_notifyf_all (fun _ => sc) (fun _ => r) (fun _ _ => True)).
  - auto.
  - intros o sl _. exact He.
  - exact Hok.
  - apply Forall_forall. auto.
Qed.
Lemma evs_ok_notify : forall sc r h sl, ev_ok (mkEv r 0 sc) -> evs_ok h -> evs_ok (notify sc r h sl).
Proof. intros. unfold notify. apply evs_ok_notifyf; assumption. Qed.

Lemma evs_ok_notify_commit : forall h sl, evs_ok h -> evs_ok (notify_commit h sl).
Proof.
  intros h sl Hok. unfold notify_commit.
  destruct (negb (h_err h =? 0)); [exact Hok|].
  destruct (negb (o_nc (h_objs h (so sl)))); [same_reqs|].
  destruct (negb (o_hascomm (h_objs h (so sl)))); [same_reqs|].
  destruct (o_comm (h_objs h (so sl))); [|same_reqs].
  apply evs_ok_updR_add; [reflexivity|].
  destruct (has_committed _); same_reqs.
Qed.

Lemma evs_ok_get_obj : forall pick ncf rid key cid sid dl h,
  evs_ok h -> evs_ok (fst (get_obj pick ncf rid key cid sid dl h)).
Proof.
  intros. unfold get_obj. destruct (nth_error (h_pool h) (N.to_nat pick)); cbn.
  - eapply evs_ok_same_reqs with (h := updR h _ _); [reflexivity|].
    apply evs_ok_updR_same; [reflexivity | assumption].
  - same_reqs.
Qed.
Lemma evs_ok_new_obj : forall ncf rid key dl h, evs_ok h -> evs_ok (fst (new_obj ncf rid key dl h)).
Proof. intros. same_reqs. Qed.

Lemma evs_ok_x_gc : forall h x, evs_ok h -> evs_ok (fst (x_gc h x)).
Proof.
  intros h x Hok. unfold x_gc. destruct (x_pend x); [|exact Hok].
  destruct (sub64 _ _ <? gc_tick); [exact Hok|].
  destruct (o_dl (h_objs h (so s)) <? h_clock h) eqn:E; [|exact Hok].
  cbn. apply evs_ok_notifyf; [|exact Hok]. cbn. split; [apply N.ltb_lt; exact E | reflexivity].
Qed.
Lemma evs_ok_x_close : forall h x, evs_ok h -> evs_ok (fst (x_close h x)).
Proof.
  intros h x Hok. unfold x_close. destruct (x_pend x); [|exact Hok].
  cbn. apply evs_ok_notify; [reflexivity | exact Hok].
Qed.
Lemma evs_ok_x_request : forall ncf kind h x key to, evs_ok h -> evs_ok (fst (x_request ncf kind h x key to)).
Proof.
  intros. unfold x_request. destruct (x_outcome x to =? 0); [|assumption].
  cbn. apply evs_ok_add_req; [reflexivity|]. same_reqs.
Qed.

Lemma evs_ok_gc_at : forall s k now, evs_ok (H s) -> evs_ok (H (gc_at s k now)).
Proof.
  intros s k now Hok. unfold gc_at. destruct (p_stop (P s) k); [exact Hok|].
  destruct (sub64 now _ <? gc_tick); [exact Hok|]. cbn.
  apply (evs_ok_notifyf_all _ _ (fun o _ => o_dl o <? now = true)); auto.
  - intros o sl E. cbn. split; [apply N.ltb_lt; exact E | reflexivity].
  - apply Forall_forall. intros sl Hin. apply in_map_iff in Hin. destruct Hin as [kv [<- Hin]].
    apply filter_In in Hin. destruct Hin as [_ Hin]. apply andb_true_iff in Hin. apply Hin.
Qed.

Lemma evs_ok_reads_gc : forall h bs now, evs_ok h -> evs_ok (fst (reads_gc h bs now)).
Proof.
  intros h bs now Hok. unfold reads_gc. cbn.
  apply (evs_ok_notifyf_all _ _ (fun o _ => o_dl o <? now = true)); auto.
  - intros o sl E. cbn. split; [apply N.ltb_lt; exact E | reflexivity].
  - apply Forall_forall. intros sl Hin. apply filter_In in Hin. apply Hin.
Qed.

Lemma evs_ok_reads_applied : forall s a, evs_ok (H s) -> evs_ok (H (reads_applied s a)).
Proof.
  intros s a Hok. unfold reads_applied.
  destruct (rd_stop (R s) || _); [exact Hok|].
  set (now := h_clock (H s)).
  set (ready := fun b : N * N * (N * list slot) => (0 <? fst (snd b)) && (fst (snd b) <=? a)).
  assert (Hfold : forall bs h, Forall (fun b => ready b = true) bs -> evs_ok h ->
     evs_ok (fold_left (fun h b =>
              notifyf_all (fun o => SReadApplied a (fst (snd b)) now (o_dl o))
                          (fun o => if now <? o_dl o then mkRes cCompleted 0 0 else mkRes cTimeout 0 0)
                          h (snd (snd b))) bs h)).
  { induction bs as [|b bs IH]; intros h Hr Hh; [exact Hh|]. cbn. inversion Hr; subst. apply IH; [assumption|].
    apply (evs_ok_notifyf_all _ _ (fun _ _ => True)); auto.
    - intros o sl _. cbn. unfold ready in H1. apply andb_true_iff in H1. destruct H1 as [A B].
      apply N.ltb_lt in A. apply N.leb_le in B. auto.
    - apply Forall_forall. auto. }
  assert (Hh1 := Hfold (filter ready (batches (R s))) (H s)
            ltac:(apply Forall_forall; intros b Hb; apply filter_In in Hb; apply Hb) Hok).
  destruct (sub64 now (rd_lastgc (R s)) <? gc_tick); [exact Hh1|].
  match goal with |- context[reads_gc ?h ?bs ?n] =>
    pose proof (evs_ok_reads_gc h bs n Hh1) as Hg; destruct (reads_gc h bs n) as [h2 bs2] end.
  exact Hg.
Qed.

Lemma let_pair : forall A B C (e : A * B) (f : A -> B -> C), (let '(a, b) := e in f a b) = f (fst e) (snd e).
Proof. intros. destruct e. reflexivity. Qed.

Lemma step0_evs_ok : forall s o, evs_ok (H s) -> evs_ok (H (step0 s o)).
Proof.
  intros s o Hok.
  assert (Hn : forall sc r sl, ev_ok (mkEv r 0 sc) -> evs_ok (notify sc r (H s) sl)) by (intros; apply evs_ok_notify; assumption).
  assert (Hc : forall sl, evs_ok (notify_commit (H s) sl)) by (intros; apply evs_ok_notify_commit, Hok).
  assert (Ha : forall pick ncf key cid sid dl q, r_got q = [] ->
                 evs_ok (add_req (fst (get_obj pick ncf (h_nreq (H s)) key cid sid dl (H s))) q))
    by (intros; apply evs_ok_add_req; [assumption | apply evs_ok_get_obj, Hok]).
  destruct o; cbn [step0 proposal_committed_under_lock read_add_terminates_when_stopped]. (* cases in the order of [op] *)
  - destruct (to =? 0); [exact Hok|]. rewrite let_pair. cbn [H setHP]. set (h2 := add_req _ _).
    assert (Hq : evs_ok h2) by (apply Ha; reflexivity).
    destruct (find_key key (pend (P s))); [same_reqs|]. destruct (key_in_flight (H s) key); [same_reqs | exact Hq].
  - destruct (_ && _); [|exact Hok]. destruct (proposeB_outcome s =? 0); cbn; apply evs_ok_updR_same; auto.
  - destruct (to =? 0); [exact Hok|]. rewrite let_pair. destruct (read_outcome s to =? 0); apply Ha; reflexivity.
  - rewrite let_pair. apply evs_ok_x_request, Hok.
  - rewrite let_pair. apply evs_ok_x_request, Hok.
  - destruct (lq_outcome s =? 0); [|exact Hok]. cbn. apply evs_ok_add_req; [reflexivity|]. same_reqs.
  - destruct (_ && _); [|exact Hok]. destruct (_ =? i); cbn; [same_reqs|]. apply evs_ok_updR_same; auto.
  - destruct (_ && _); [|exact Hok]. cbn.
    eapply evs_ok_same_reqs with (h := updR (updO (H s) (r_obj (h_reqs (H s) i)) o_released) i r_set_rel); [reflexivity|].
    apply evs_ok_updR_same; [reflexivity|]. same_reqs.
  - exact Hok.
  - destruct (taken (R s)); exact Hok.
  - destruct (taken (R s)); [exact Hok|]. destruct (rd_stop (R s)).
    + apply evs_ok_notify_all; [reflexivity | exact Hok].
    + destruct (existsb _ _); cbn; [same_reqs | exact Hok].
  - exact Hok.
  - apply evs_ok_reads_applied, Hok.
  - destruct (rd_stop (R s)); [exact Hok|]. apply evs_ok_notify_all; [reflexivity | exact Hok].
  - cbn. same_reqs.
  - apply evs_ok_gc_at, Hok.
  - rewrite let_pair. apply evs_ok_x_gc, Hok.
  - rewrite let_pair. apply evs_ok_x_gc, Hok.
  - destruct (take s cid sid key _); [apply Hn; reflexivity | exact Hok].
  - destruct (x_match _ _ _); [apply Hn; reflexivity | exact Hok].
  - exact Hok.
  - exact Hok.
  - destruct (lq_pend s); [apply Hn; cbn; destruct oor; auto|]. destruct (_ && _); [exact Hok | cbn; same_reqs].
  - destruct (take s cid sid key _); [apply Hn; reflexivity | exact Hok].
  - destruct (ap_now (P s)) as [[k now]|]; [|exact Hok]. destruct (now =? _); [exact Hok|].
    apply (evs_ok_gc_at (setHP s (H s) (p_set_ap (P s) None)) k now), Hok.
  - destruct (x_match _ _ _); [apply Hn; cbn; destruct rej; auto | exact Hok].
  - destruct (ign && abo); [cbn; same_reqs|]. destruct (x_match _ _ _); [|exact Hok].
    apply Hn. cbn. destruct ign; [auto|]. destruct abo; auto.
  - destruct (take s cid sid key _); [apply Hc | exact Hok].
  - exact Hok.
  - exact Hok.
  - destruct (x_match _ _ _); [apply Hc | exact Hok].
  - do 2 (apply evs_ok_notify_all; [reflexivity|]). destruct (rd_stop (R s)); [same_reqs | exact Hok].
  - apply evs_ok_notify_all; [reflexivity|]. destruct (p_stop (P s) _); [same_reqs | exact Hok].
  - destruct (x_open (C s)); [rewrite let_pair; apply evs_ok_x_close, Hok | exact Hok].
  - rewrite let_pair. apply evs_ok_x_close, Hok.
  - destruct (lq_pend s); [apply Hn; reflexivity | exact Hok].
Qed.

Lemma step_evs_ok : forall s o, evs_ok (H s) -> evs_ok (H (step s o)).
Proof.
  intros s o Hok. unfold step. destruct (negb _); [exact Hok|].
  destruct (h_err (H (step0 s o)) =? 0); [apply step0_evs_ok; exact Hok | cbn; same_reqs].
Qed.

Lemma run_evs_ok : forall ops s, evs_ok (H s) -> evs_ok (H (run ops s)).
Proof.
  induction ops as [|o ops IH]; intros s Hok; [exact Hok|]. cbn. apply IH. apply step_evs_ok. exact Hok.
Qed.

Lemma init_evs_ok : forall ps nc a b, evs_ok (H (init ps nc a b)).
Proof. intros ps nc a b r. cbn. constructor. Qed.

Lemma reachable_evs_ok : forall ps nc a b ops r e,
  In e (got (run ops (init ps nc a b)) r) -> ev_ok e.
Proof.
  intros ps nc a b ops r e H0. pose proof (run_evs_ok ops _ (init_evs_ok ps nc a b) r) as Hf.
  rewrite Forall_forall in Hf. apply Hf. exact H0.
Qed.
