(* C02, local half: the commit rule (quorum of match indexes, current term only), the
   follower append rule (never touches the committed prefix), the apply hand-out and log queries. *)
From DB Require Import Proofs.ListFacts Model.RaftCore.
From Coq Require Import Arith ZifyN.
Open Scope N_scope.

Definition count_ge (q : N) (l : list N) : nat := length (filter (fun x => q <=? x) l).

Lemma count_ge_cons q x l : count_ge q (x :: l) = if q <=? x then S (count_ge q l) else count_ge q l.
Proof. unfold count_ge. cbn [filter]. destruct (q <=? x); reflexivity. Qed.

Lemma count_ge_all q l : (forall y, In y l -> q <= y) -> count_ge q l = length l.
Proof.
  induction l as [|x l IH]; intros H; [reflexivity|].
  rewrite count_ge_cons, IH by (intros y Hy; apply H; right; exact Hy).
  rewrite (proj2 (N.leb_le q x)) by (apply H; left; reflexivity). reflexivity.
Qed.

Lemma count_ge_insert q x l : count_ge q (insert_sorted x l) = count_ge q (x :: l).
Proof.
  induction l as [|y l IH]; [reflexivity|]. cbn [insert_sorted].
  destruct (x <=? y); [reflexivity|]. rewrite !count_ge_cons, IH, count_ge_cons.
  destruct (q <=? y); destruct (q <=? x); reflexivity.
Qed.

Lemma count_ge_sort q l : count_ge q (sort_n l) = count_ge q l.
Proof.
  induction l as [|x l IH]; [reflexivity|]. change (sort_n (x :: l)) with (insert_sorted x (sort_n l)).
  rewrite count_ge_insert, !count_ge_cons, IH. reflexivity.
Qed.

(* the length is the count of the elements that are at least 0 *)
Lemma sort_length l : length (sort_n l) = length l.
Proof.
  rewrite <- (count_ge_all 0 (sort_n l)), <- (count_ge_all 0 l) by (intros; apply N.le_0_l).
  apply count_ge_sort.
Qed.

Definition sorted (l : list N) : Prop := forall i j, (i <= j < length l)%nat -> nth i l 0 <= nth j l 0.

Lemma sorted_cons x l : sorted l -> (forall y, In y l -> x <= y) -> sorted (x :: l).
Proof.
  intros Hs Hx i j [Hij Hj]. destruct i as [|i], j as [|j]; cbn [nth]; try lia.
  - apply Hx. apply nth_In. cbn [length] in Hj. lia.
  - apply Hs. cbn [length] in Hj. lia.
Qed.
Lemma sorted_tail x l : sorted (x :: l) -> sorted l.
Proof. intros H i j Hij. apply (H (S i) (S j)). cbn [length]. lia. Qed.
Lemma sorted_head x l y : sorted (x :: l) -> In y l -> x <= y.
Proof.
  intros H Hin. apply (In_nth _ _ 0) in Hin. destruct Hin as (k & Hk & E).
  rewrite <- E. apply (H 0%nat (S k)). cbn [length]. lia.
Qed.

Lemma insert_sorted_in x l y : In y (insert_sorted x l) <-> y = x \/ In y l.
Proof.
  induction l as [|z l IH]; cbn [insert_sorted In]; [intuition congruence|].
  destruct (x <=? z); cbn [In]; [intuition congruence|]. rewrite IH. intuition congruence.
Qed.

Lemma insert_sorted_sorted x l : sorted l -> sorted (insert_sorted x l).
Proof.
  induction l as [|z l IH]; intros Hs; cbn [insert_sorted].
  - apply sorted_cons; [exact Hs|intros y []].
  - destruct (N.leb_spec x z) as [Hle|Hgt].
    + apply sorted_cons; [exact Hs|]. intros y [E|Hy]; [subst; exact Hle|].
      pose proof (sorted_head _ _ _ Hs Hy). lia.
    + apply sorted_cons; [apply IH; eapply sorted_tail; exact Hs|].
      intros y Hy. apply insert_sorted_in in Hy. destruct Hy as [E|Hy]; [subst; lia|].
      apply (sorted_head _ _ _ Hs Hy).
Qed.

Lemma sort_sorted l : sorted (sort_n l).
Proof.
  induction l as [|x l IH]; [intros i j [_ H]; simpl in H; lia|].
  cbn [sort_n fold_right]. apply insert_sorted_sorted. exact IH.
Qed.

Lemma sorted_count_ge l (i : nat) : sorted l -> (i < length l)%nat -> (length l - i <= count_ge (nth i l 0%N) l)%nat.
Proof.
  revert i. induction l as [|x l IH]; intros i Hs Hi; [cbn [length] in Hi; lia|].
  rewrite count_ge_cons. destruct i as [|i].
  - cbn [nth]. rewrite N.leb_refl, count_ge_all by (intros y Hy; apply (sorted_head _ _ _ Hs Hy)).
    cbn [length]. lia.
  - cbn [nth length] in *. specialize (IH i (sorted_tail _ _ Hs) ltac:(lia)). destruct (_ <=? x); lia.
Qed.

Definition voting_matches (r : raft) : list N :=
  map (fun kv => rm_match (snd kv)) (r_remotes r) ++ map (fun kv => rm_match (snd kv)) (r_witnesses r).

Lemma voting_matches_length r : N.of_nat (length (voting_matches r)) = num_voting r.
Proof. unfold voting_matches, num_voting, gen_numVotingMembers, nlen. rewrite app_length, !map_length. lia. Qed.

Lemma quorum_bounds r : 0 < num_voting r -> quorum r <= num_voting r /\ 0 < quorum r.
Proof. intros H. unfold quorum, gen_quorum. lia. Qed.

Lemma sort_n_nth_count l i : (i < length l)%nat -> (length l - i <= count_ge (nth i (sort_n l) 0%N) l)%nat.
Proof.
  intros Hi. rewrite <- (sort_length l) in *. rewrite <- (count_ge_sort _ l).
  apply sorted_count_ge; [apply sort_sorted|exact Hi].
Qed.

Lemma log_try_commit_true l q t l' :
  log_try_commit l q t = (l', true) -> l_committed l < q /\ log_term l q = t /\ l_committed l' = q.
Proof.
  unfold log_try_commit, log_commit_to. destruct (N.leb_spec q (l_committed l)) as [|Hgt]; [discriminate|].
  destruct (N.eqb_spec (log_term l q) t) as [Et|]; [|discriminate].
  destruct (log_last l <? q); [discriminate|]. intros E. injection E as <-. repeat split; assumption.
Qed.

(* tryCommit: whenever the leader advances its commit index, the new value is the term-checked
   match index that at least a quorum of the voting members (voters + witnesses; never a
   non-voting member) have reached, and the entry there is of the leader's current term *)
Lemma try_commit_quorum_proved r :
  0 < num_voting r ->
  snd (try_commit r) = true ->
  let c := l_committed (r_log (fst (try_commit r))) in
  l_committed (r_log r) < c /\
  log_term (r_log r) c = r_term r /\
  (N.to_nat (quorum r) <= count_ge c (voting_matches r))%nat.
Proof.
  intros Hnv. unfold try_commit. destruct (negb (is_leader r)); [simpl; discriminate|].
  fold (voting_matches r). destruct (log_try_commit _ _ _) as [l' ok] eqn:E. cbn [fst snd]. intros ->.
  apply log_try_commit_true in E. destruct E as (H1 & H2 & H3).
  change (r_log (r <| r_log := l' |>)) with l'. rewrite H3. split; [exact H1|]. split; [exact H2|].
  pose proof (sort_n_nth_count (voting_matches r) (N.to_nat (num_voting r - quorum r))) as Hc.
  pose proof (voting_matches_length r). pose proof (quorum_bounds r Hnv). lia.
Qed.

Lemma append_raw_fields l e es :
  l_marker (log_append_raw l (e :: es)) = l_marker l /\
  l_committed (log_append_raw l (e :: es)) = l_committed l /\
  l_ents (log_append_raw l (e :: es)) = firstn (N.to_nat (e_index e - log_first l)) (l_ents l) ++ e :: es.
Proof. repeat split; reflexivity. Qed.

Lemma ent_at_append_raw l e es i :
  log_first l <= e_index e -> e_index e <= log_last l + 1 -> i < e_index e ->
  ent_at (log_append_raw l (e :: es)) i = ent_at l i.
Proof.
  intros Hf Hl Hi. unfold ent_at.
  destruct (append_raw_fields l e es) as (Em & _ & Ee). rewrite Em, Ee.
  destruct (i <=? l_marker l) eqn:E; [reflexivity|]. apply N.leb_gt in E.
  unfold log_first, log_last, nlen in *.
  rewrite nth_error_app1 by (rewrite firstn_length; lia).
  apply nth_error_firstn_lt; lia.
Qed.

Lemma log_append_keeps l ents l' i :
  l_marker l <= l_committed l ->
  log_append l ents = Some l' -> i <= l_committed l ->
  ent_at l' i = ent_at l i /\ l_committed l' = l_committed l.
Proof.
  intros Hwf Ha Hi. unfold log_append in Ha. destruct ents as [|e es]; [inversion Ha; subst; auto|].
  destruct (N.leb_spec (e_index e) (l_committed l)) as [H1|H1]; [discriminate|].
  destruct (N.ltb_spec (log_last l + 1) (e_index e)) as [H2|H2]; [discriminate|].
  inversion Ha. subst l'. split; [|reflexivity].
  apply ent_at_append_raw; unfold log_first; lia.
Qed.


Lemma log_commit_to_monotone l i l' : log_commit_to l i = Some l' -> l_committed l <= l_committed l'.
Proof.
  unfold log_commit_to. destruct (N.leb_spec i (l_committed l)); [intros E; injection E as <-; apply N.le_refl|].
  destruct (log_last l <? i); [discriminate|]. intros E. injection E as <-.
  change (l_committed l <= i). lia.
Qed.

Lemma log_append_committed l ents l' : log_append l ents = Some l' -> l_committed l' = l_committed l.
Proof.
  unfold log_append. destruct ents as [|e es]; [intros E; injection E as <-; reflexivity|].
  destruct (_ <=? _); [discriminate|]. destruct (_ <? _); [discriminate|].
  intros E. injection E as <-. apply (append_raw_fields l e es).
Qed.
Lemma log_try_append_committed l idx ents l' : log_try_append l idx ents = Some l' -> l_committed l' = l_committed l.
Proof.
  unfold log_try_append. destruct (_ =? 0); [intros E; injection E as <-; reflexivity|].
  destruct (_ <=? _); [discriminate|]. apply log_append_committed.
Qed.

Lemma replicate_commit_monotone_proved r m :
  r_panic (handle_replicate_message r m) = false ->
  l_committed (r_log r) <= l_committed (r_log (handle_replicate_message r m)).
Proof.
  unfold handle_replicate_message. cbv zeta.
  assert (Hs : forall (x : raft) mm, l_committed (r_log (send x mm)) = l_committed (r_log x)).
  { intros x mm. unfold send. destruct (finalize_term _ _); reflexivity. }
  destruct (_ <? _); [rewrite Hs; lia|].
  destruct (match_term _ _ _); [|rewrite Hs; lia].
  destruct (log_try_append (r_log r) (m_logindex m) (m_entries m)) as [l1|] eqn:E1; [|discriminate].
  destruct (log_commit_to l1 _) as [l2|] eqn:E2; [|discriminate].
  intros _. rewrite Hs.
  change (r_log (r <| r_log := l2 |>)) with l2.
  apply log_commit_to_monotone in E2.
  apply log_try_append_committed in E1. lia.
Qed.

Definition wf_log (l : rlog) : Prop :=
  (forall k e, nth_error (l_ents l) k = Some e -> e_index e = l_marker l + 1 + N.of_nat k) /\
  l_marker l <= l_committed l <= log_last l.

(* the apply hand-out: only committed, not yet processed entries, in index order *)
Lemma apply_handout_gap_free_and_committed_proved l :
  wf_log l ->
  forall k e, nth_error (entries_to_apply l) k = Some e ->
    e_index e = N.max (l_processed l + 1) (log_first l) + N.of_nat k /\
    l_processed l < e_index e <= l_committed l.
Proof.
  intros [Hidx Hc] k e Hk. unfold entries_to_apply in Hk.
  set (fna := N.max (l_processed l + 1) (log_first l)) in *.
  destruct (N.ltb_spec fna (l_committed l + 1)) as [Hlt|Hge]; [|destruct k; discriminate].
  unfold log_entries_range in Hk.
  assert (Hkn : (k < N.to_nat (l_committed l + 1 - fna))%nat).
  { destruct (Nat.ltb_spec k (N.to_nat (l_committed l + 1 - fna))) as [H|H]; [exact H|].
    rewrite (proj2 (nth_error_None _ _)) in Hk; [discriminate|]. rewrite firstn_length. lia. }
  rewrite nth_error_firstn_lt in Hk by exact Hkn. rewrite nth_error_skipn in Hk.
  apply Hidx in Hk. unfold log_first in *.
  pose proof (N.max_spec (l_processed l + 1) (l_marker l + 1)) as Hm. fold fna in Hm. clearbody fna.
  split; lia.
Qed.

(* a log query answers with committed entries only: the range [low, min(high, committed+1)) of
   the log, or ErrCompacted, and reports first index and committed+1 *)
Lemma log_query_committed_only_proved r m fi la err ents :
  r_log_query r = None ->
  r_log_query (handle_log_query r m) = Some (fi, la, err, ents) ->
  fi = log_first (r_log r) /\ la = l_committed (r_log r) + 1 /\
  (err = true -> ents = []) /\
  (err = false -> ents = [] \/
     (log_first (r_log r) <= m_from m <= l_committed (r_log r) /\
      ents = log_entries_range (r_log r) (m_from m) (N.min (m_to m) (l_committed (r_log r) + 1)))).
Proof.
  intros Hn. unfold handle_log_query. rewrite Hn. cbv zeta.
  destruct ((m_from m <? log_first (r_log r)) || (l_committed (r_log r) <? m_from m)) eqn:E1;
    [|destruct (m_from m =? N.min (m_to m) (l_committed (r_log r) + 1)) eqn:E2;
      [|destruct (N.min (m_to m) (l_committed (r_log r) + 1) <? m_from m) eqn:E3;
        [unfold panic; cbn [r_log_query set]; rewrite Hn; discriminate|destruct (_ && _) eqn:E4]]];
    cbn [r_log_query set]; intros H; injection H as <- <- <- <-; repeat split; try reflexivity;
    intros He; try discriminate; try solve [left; reflexivity].
  right. apply orb_false_iff in E1. destruct E1 as [Ea Eb]. apply N.ltb_ge in Ea, Eb. auto.
Qed.
