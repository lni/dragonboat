(* L2, part 4: the global safety theorems over all reachable states, and the
   soundness of the executable step function. *)
From DB Require Import Model.RaftNet Proofs.RaftNetLists Proofs.RaftNetElection Proofs.RaftNetLog
  Proofs.RaftNetCommitDefs Proofs.RaftNetCommit.

Lemma agree_nth k (a b : list entry) j : agree k a b -> j < k -> nth_error a j = nth_error b j.
Proof.
  unfold agree. revert a b j. induction k as [|k IH]; intros a b j H Hj; [lia|].
  destruct a as [|x a], b as [|y b]; simpl in H; try discriminate; [reflexivity|].
  injection H as -> H. destruct j; [reflexivity|]. simpl. apply IH; [exact H | lia].
Qed.

Lemma entry_eqb_eq a b : entry_eqb a b = true -> a = b.
Proof.
  destruct a, b. unfold entry_eqb. simpl. intros H. apply andb_prop in H. destruct H as [H1 H2].
  apply Nat.eqb_eq in H1, H2. now subst.
Qed.

Lemma ents_eqb_eq a : forall b, ents_eqb a b = true -> a = b.
Proof.
  induction a as [|x a IH]; intros [|y b]; simpl; try discriminate; auto.
  intros H. apply andb_prop in H. destruct H as [H1 H2].
  apply entry_eqb_eq in H1. apply IH in H2. now subst.
Qed.

Ltac split_andb :=
  repeat match goal with
  | H : _ && _ = true |- _ => apply andb_prop in H; destruct H
  | H : (_ =? _) = true |- _ => apply Nat.eqb_eq in H
  | H : (_ <=? _) = true |- _ => apply Nat.leb_le in H
  | H : (_ <? _) = true |- _ => apply Nat.ltb_lt in H
  | H : ents_eqb _ _ = true |- _ => apply ents_eqb_eq in H
  end.

Section Safety.
  Variable V : list id.
  Hypothesis V_nodup : NoDup V.

  Notation inv := (inv V).
  Notation step := (step V).
  Notation steps := (steps V).
  Notation reachable := (reachable V).
  Notation committed := (committed V).

  Lemma gext_refl n : gext n n.
  Proof.
    repeat split; auto using incl_refl. intros t. exists []. now rewrite app_nil_r.
  Qed.

  Lemma gext_trans a b c : gext a b -> gext b c -> gext a c.
  Proof.
    intros (A1 & A2 & A3 & A4) (B1 & B2 & B3 & B4). repeat split.
    - eapply incl_tran; eauto.
    - auto.
    - intros t. destruct (A3 t) as (e1 & E1). destruct (B3 t) as (e2 & E2).
      exists (e1 ++ e2). now rewrite E2, E1, app_assoc.
    - intros t Ht. rewrite B4, A4; auto.
      destruct (lead a t) eqn:E; [|congruence]. rewrite (A2 _ _ E). discriminate.
  Qed.

  Lemma steps_gext n ls n' : inv n -> steps n ls n' -> gext n n'.
  Proof.
    intros Hi Hs. induction Hs; [apply gext_refl|].
    eapply gext_trans; [|apply IHHs; eapply inv_step; eauto].
    pose proof (inv_fresh V V_nodup n l n1 Hi H) as Hf.
    destruct Hi as [H1 Hq H2 H3a H3b]. eapply step_gext; eauto.
  Qed.

  Lemma steps_app n ls m ls' p : steps n ls m -> steps m ls' p -> steps n (ls ++ ls') p.
  Proof. intros H1 H2. induction H1; simpl; [assumption|]. econstructor; eauto. Qed.

  Lemma steps_reachable n ls n' : reachable n -> steps n ls n' -> reachable n'.
  Proof. intros (l0 & H0) Hs. exists (l0 ++ ls). eapply steps_app; eauto. Qed.

  (* state form: what is committed in term t is in the log of every leader of a later term *)
  Theorem leader_completeness n t k i :
    reachable n -> committed n t k ->
    role (nodes n i) = Leader -> t < term (nodes n i) ->
    firstn k (log (nodes n i)) = firstn k (llog n t).
  Proof.
    intros Hr Hcm Hrole Hlt. destruct (inv_reachable V V_nodup n Hr) as [H1 Hq H2 H3a H3b].
    rewrite <- (i_leader_log n H2 i Hrole).
    apply (leader_completeness1 V n H2 H3b _ t k Hcm Hlt).
    rewrite (i_leader n H1 i Hrole). discriminate.
  Qed.

  Lemma advance_commit_committed n i k n1 :
    inv n -> step n (LAdvanceCommit i k) n1 ->
    committed n (term (nodes n i)) k /\ llog n (term (nodes n i)) = log (nodes n i).
  Proof.
    intros [H1 Hq H2 H3a H3b] Hstep. inv_step Hstep.
    match goal with Hr : role _ = Leader |- _ => pose proof (i_leader_log n H2 i Hr) as Hll end.
    assert (1 <= term (nodes n i)) by (apply (i_role_term n H1); congruence).
    assert (1 <= k <= length (log (nodes n i))) by (apply term_at_in_range; lia).
    split; [|exact Hll]. unfold RaftNetCommitDefs.committed. rewrite Hll.
    split; [assumption|]. split; [assumption|]. now apply count_ack_quorum.
  Qed.

  (* event form: an entry committed by AdvanceCommit in term t at index k is, with its
     whole prefix, in the log of every leader of every later term, in every later state *)
  Theorem leader_completeness_trace n i k n1 ls n2 j :
    reachable n -> step n (LAdvanceCommit i k) n1 -> steps n1 ls n2 ->
    role (nodes n2 j) = Leader -> term (nodes n i) < term (nodes n2 j) ->
    firstn k (log (nodes n2 j)) = firstn k (log (nodes n i)).
  Proof.
    intros Hr Hstep Hs Hrole Hlt.
    pose proof (inv_reachable V V_nodup n Hr) as Hi.
    destruct (advance_commit_committed n i k n1 Hi Hstep) as (Hcm & Hll).
    assert (Hss : steps n (LAdvanceCommit i k :: ls) n2) by (econstructor; eauto).
    pose proof (steps_gext n _ n2 Hi Hss) as Hg.
    pose proof (committed_gext V n n2 _ _ Hg Hcm) as Hcm2.
    rewrite (leader_completeness n2 _ k j (steps_reachable n _ n2 Hr Hss) Hcm2 Hrole Hlt).
    rewrite <- Hll. destruct Hcm as (Hk & _).
    apply (agree_gext_l n n2 k _ _ Hg); [lia | apply agree_refl].
  Qed.

  Theorem state_machine_safety n a b k :
    reachable n -> k <= commit (nodes n a) -> k <= commit (nodes n b) ->
    firstn k (log (nodes n a)) = firstn k (log (nodes n b)).
  Proof.
    intros Hr Ha Hb. destruct (inv_reachable V V_nodup n Hr) as [H1 Hq H2 H3a H3b].
    destruct (i_commit_bounds n H3a a) as (Hca & _).
    destruct (i_commit_bounds n H3a b) as (Hcb & _).
    eapply (cprefix_agree2 V n _ _ _ _ _ _ k H2 H3b (i_hcommit V n H3b a) (i_hcommit V n H3b b)); lia.
  Qed.

  Corollary state_machine_safety_entry n a b k j :
    reachable n -> k <= commit (nodes n a) -> k <= commit (nodes n b) -> 1 <= j <= k ->
    nth_error (log (nodes n a)) (j - 1) = nth_error (log (nodes n b)) (j - 1).
  Proof.
    intros Hr Ha Hb Hj. eapply (agree_nth k); [eapply state_machine_safety; eauto | lia].
  Qed.

  (* committed entries exist *)
  Theorem commit_in_range n i :
    reachable n -> commit (nodes n i) <= length (log (nodes n i)).
  Proof.
    intros Hr. destruct (inv_reachable V V_nodup n Hr) as [H1 Hq H2 H3a H3b].
    destruct (i_commit_bounds n H3a i). lia.
  Qed.

  Lemma hcommit_steps n ls n' i :
    inv n -> steps n ls n' ->
    hcommit (nodes n i) <= hcommit (nodes n' i) /\
    agree (hcommit (nodes n i)) (log (nodes n' i)) (log (nodes n i)).
  Proof.
    intros Hi Hs. induction Hs; [split; [lia | apply agree_refl]|].
    destruct (hcommit_stable V n l n1 i (inv_2 V n Hi) (inv_3a V n Hi) (inv_agl V n Hi) H) as (Ha & Hb).
    destruct (IHHs (inv_step V V_nodup n l n1 Hi H)) as (Hc & Hd).
    split; [lia|]. eapply agree_trans; [eapply agree_le; [exact Hd | exact Ha] | exact Hb].
  Qed.

  Theorem committed_never_replaced n ls n' i k :
    reachable n -> steps n ls n' -> k <= commit (nodes n i) ->
    firstn k (log (nodes n' i)) = firstn k (log (nodes n i)).
  Proof.
    intros Hr Hs Hk. pose proof (inv_reachable V V_nodup n Hr) as Hi.
    destruct (hcommit_steps n ls n' i Hi Hs) as (_ & Hag).
    destruct Hi as [H1 Hq H2 H3a H3b]. destruct (i_commit_bounds n H3a i) as (Hc & _).
    eapply agree_le; [exact Hag | lia].
  Qed.

  Corollary committed_entry_never_replaced n ls n' i k :
    reachable n -> steps n ls n' -> 1 <= k <= commit (nodes n i) ->
    nth_error (log (nodes n' i)) (k - 1) = nth_error (log (nodes n i)) (k - 1).
  Proof.
    intros Hr Hs Hk. eapply (agree_nth k); [eapply committed_never_replaced; eauto; lia | lia].
  Qed.

  Theorem append_never_conflicts_with_committed n j t ldr prev pt ents lc :
    reachable n -> In (AE t ldr prev pt ents lc) (msgs n) ->
    t = term (nodes n j) -> term_at (log (nodes n j)) prev = pt ->
    try_append (log (nodes n j)) (commit (nodes n j)) prev ents <> None.
  Proof.
    intros Hr Hae -> <-. destruct (inv_reachable V V_nodup n Hr) as [H1 Hq H2 H3a H3b].
    eapply try_append_defined; eauto using agl_fixed.
  Qed.

  Theorem heartbeat_commit_in_range n j t ldr c :
    reachable n -> In (HB t ldr j c) (msgs n) -> t = term (nodes n j) ->
    c <= length (log (nodes n j)).
  Proof.
    intros Hr Hhb ->. destruct (inv_reachable V V_nodup n Hr) as [H1 Hq H2 H3a H3b].
    destruct (i_hb V n H3b _ _ _ _ Hhb) as [->|(Hack & _)]; [lia | now apply (acked_cur n j c H3a)].
  Qed.

  Lemma msg_eqb_eq a b : msg_eqb a b = true -> a = b.
  Proof.
    destruct a, b; simpl; try discriminate; intros H; split_andb; now subst.
  Qed.

  Lemma in_soup_In m ms : in_soup m ms = true -> In m ms.
  Proof.
    unfold in_soup. intros H. apply existsb_exists in H. destruct H as (x & Hx & He).
    apply msg_eqb_eq in He. now subst.
  Qed.

  Lemma role_eqb_eq a b : role_eqb a b = true -> a = b.
  Proof. destruct a, b; simpl; congruence. Qed.

  Lemma vote_free_spec v c : vote_free v c = true -> v = None \/ v = Some c.
  Proof.
    destruct v as [c'|]; simpl; [|now left]. intros H. apply Nat.eqb_eq in H. right. now subst.
  Qed.

  Theorem step_fn_sound n l n' : step_fn V n l = Some n' -> step n l n'.
  Proof.
    destruct l; cbn [step_fn]; intros H;
      try match type of H with (if ?c then _ else _) = _ => destruct c eqn:Hc; [|discriminate] end;
      try (injection H as <-; split_andb; constructor;
           auto using in_soup_In, vote_free_spec, role_eqb_eq; fail).
    - split_andb.
      destruct (Nat.ltb_spec prev (commit (nodes n j))).
      + injection H as <-. apply SAHandleAEStale; auto using in_soup_In.
      + destruct (Nat.eqb_spec (term_at (log (nodes n j)) prev) pt); [|discriminate].
        destruct (try_append (log (nodes n j)) (commit (nodes n j)) prev ents) eqn:Hta;
          [|discriminate].
        injection H as <-. apply SAHandleAE; auto using in_soup_In.
    - injection H as <-. split_andb. apply SASendHB; auto using role_eqb_eq.
      match goal with Ho : _ || _ = true |- _ =>
        apply orb_true_iff in Ho; destruct Ho as [Ho|Ho];
        [left; now apply Nat.eqb_eq in Ho | now right] end.
  Qed.

  Theorem run_sound ls : forall n n', run V n ls = Some n' -> steps n ls n'.
  Proof.
    induction ls as [|l ls IH]; simpl; intros n n' H.
    - injection H as <-. constructor.
    - destruct (step_fn V n l) as [n1|] eqn:E; [|discriminate].
      econstructor; [apply step_fn_sound; exact E | apply IH; exact H].
  Qed.

  Corollary run_reachable ls n : run V (init) ls = Some n -> reachable n.
  Proof. intros H. exists ls. now apply run_sound. Qed.

  (* checker form: if step_ok accepts, a real step leads to a state that is observably
     equal to the recorded one on the listed ids *)
  Theorem step_ok_sound ids n l n' :
    step_ok V ids n l n' = true ->
    exists n1, step n l n1 /\ nodes_obs_eqb ids n1 n' = true.
  Proof.
    unfold step_ok. destruct (step_fn V n l) as [n1|] eqn:E; [|discriminate].
    intros H. exists n1. split; [now apply step_fn_sound | exact H].
  Qed.

  Lemma node_obs_eqb_eq a b :
    node_obs_eqb a b = true ->
    term a = term b /\ voted a = voted b /\ role a = role b /\ log a = log b /\ commit a = commit b.
  Proof.
    unfold node_obs_eqb. intros H. split_andb.
    repeat split; auto using role_eqb_eq.
    destruct (voted a), (voted b); try discriminate; auto.
    match goal with H : (_ =? _) = true |- _ => apply Nat.eqb_eq in H; now subst end.
  Qed.

  Theorem nodes_obs_eqb_eq ids a b i :
    nodes_obs_eqb ids a b = true -> In i ids ->
    term (nodes a i) = term (nodes b i) /\ voted (nodes a i) = voted (nodes b i) /\
    role (nodes a i) = role (nodes b i) /\ log (nodes a i) = log (nodes b i) /\
    commit (nodes a i) = commit (nodes b i).
  Proof.
    unfold nodes_obs_eqb. intros H Hi. rewrite forallb_forall in H.
    apply node_obs_eqb_eq. now apply H.
  Qed.

End Safety.
