(* The receiver of Model/Chunks.v (C15): what each stage of Chunk.Add returns, and what follows
   for one stream delivered in order and for the final directories of a run. *)
From Coq Require Import List NArith Bool Lia.
From DB Require Import Base.Bytes Model.Chunks.
Import ListNotations.
Open Scope N_scope.

Lemma bytes_eqb_eq : forall a b, bytes_eqb a b = true <-> a = b.
Proof.
  induction a as [|x a IH]; destruct b as [|y b]; simpl; split; intro H; try congruence; try discriminate.
  - apply andb_true_iff in H as [H1 H2]. apply N.eqb_eq in H1. apply IH in H2. congruence.
  - inversion H; subst. rewrite N.eqb_refl. simpl. apply IH. reflexivity.
Qed.
Lemma bytes_eqb_refl : forall a, bytes_eqb a a = true.
Proof. intro a. apply bytes_eqb_eq. reflexivity. Qed.

Lemma key_eqb_eq : forall a b, key_eqb a b = true <-> a = b.
Proof.
  intros [[a1 a2] a3] [[b1 b2] b3]. unfold key_eqb. rewrite !andb_true_iff, !N.eqb_eq.
  split; [intros [[? ?] ?]; congruence | intro H; inversion H; auto].
Qed.
Lemma tkey_eqb_eq : forall a b, tkey_eqb a b = true <-> a = b.
Proof.
  intros [[[a1 a2] a3] a4] [[[b1 b2] b3] b4]. unfold tkey_eqb. rewrite !andb_true_iff, !N.eqb_eq.
  split; [intros [[[? ?] ?] ?]; congruence | intro H; inversion H; auto].
Qed.
Lemma tkey_eqb_refl : forall a, tkey_eqb a a = true.
Proof. intro. apply tkey_eqb_eq. reflexivity. Qed.
Lemma node_eqb_eq : forall a b, node_eqb a b = true <-> a = b.
Proof.
  intros [a1 a2] [b1 b2]. unfold node_eqb. simpl. rewrite andb_true_iff, !N.eqb_eq.
  split; [intros [? ?]; congruence|intro H; inversion H; auto].
Qed.

Section AssocLemmas.
  Context {K A : Type} (eqb : K -> K -> bool).
  Hypothesis eqb_eq : forall a b, eqb a b = true <-> a = b.

  Lemma eqb_refl' : forall a, eqb a a = true.
  Proof. intro. apply eqb_eq. reflexivity. Qed.
  Lemma eqb_spec : forall a b, reflect (a = b) (eqb a b).
  Proof. intros a b. apply iff_reflect. symmetry. apply eqb_eq. Qed.
  Lemma eqb_false : forall a b, a <> b -> eqb a b = false.
  Proof. intros a b H. destruct (eqb_spec a b); [contradiction|reflexivity]. Qed.
  Lemma eqb_neq : forall a b, eqb a b = false -> a <> b.
  Proof. intros a b H. destruct (eqb_spec a b); [discriminate|assumption]. Qed.

  Lemma alookup_aset_same : forall k (a : A) l, alookup eqb k (aset eqb k a l) = Some a.
  Proof.
    induction l as [|[k' a'] l IH]; simpl.
    - rewrite eqb_refl'. reflexivity.
    - destruct (eqb k k') eqn:E; simpl.
      + rewrite eqb_refl'. reflexivity.
      + rewrite E. exact IH.
  Qed.
  Lemma alookup_aset_other : forall k k' (a : A) l, k' <> k -> alookup eqb k' (aset eqb k a l) = alookup eqb k' l.
  Proof.
    induction l as [|[k2 a2] l IH]; simpl; intro H.
    - rewrite (eqb_false _ _ H). reflexivity.
    - destruct (eqb_spec k k2) as [<-|]; simpl.
      + rewrite (eqb_false _ _ H). reflexivity.
      + destruct (eqb k' k2); auto.
  Qed.
  Lemma alookup_adel_same : forall k (l : list (K * A)), alookup eqb k (adel eqb k l) = None.
  Proof.
    induction l as [|[k' a'] l IH]; simpl; auto.
    destruct (eqb k k') eqn:E; simpl; auto. rewrite E. exact IH.
  Qed.
  Lemma alookup_adel_other : forall k k' (l : list (K * A)), k' <> k -> alookup eqb k' (adel eqb k l) = alookup eqb k' l.
  Proof.
    induction l as [|[k2 a2] l IH]; simpl; intro H; auto.
    destruct (eqb_spec k k2) as [<-|]; simpl.
    - rewrite (eqb_false _ _ H). auto.
    - destruct (eqb k' k2); auto.
  Qed.
  Lemma alookup_adel_none : forall k k0 (l : list (K * A)),
      alookup eqb k l = None -> alookup eqb k (adel eqb k0 l) = None.
  Proof.
    induction l as [|[k1 a1] l IH]; simpl; intro H; auto.
    destruct (eqb k k1) eqn:E; [discriminate|].
    destruct (eqb k0 k1); simpl; auto. rewrite E. auto.
  Qed.
  Lemma alookup_In : forall k (a : A) l, alookup eqb k l = Some a -> In (k, a) l.
  Proof.
    induction l as [|[k' a'] l IH]; simpl; intro H; try discriminate.
    destruct (eqb_spec k k') as [<-|]; auto. inversion H; subst. auto.
  Qed.
  Lemma alookup_none_notin : forall k (l : list (K * A)), alookup eqb k l = None -> ~ In k (map fst l).
  Proof.
    induction l as [|[k' a'] l IH]; simpl; intro H; auto.
    destruct (eqb_spec k k'); [discriminate|]. intros [H1|H1]; auto. apply IH; auto.
  Qed.
  Lemma In_aset : forall k (a : A) l x, In x (aset eqb k a l) -> x = (k, a) \/ In x l.
  Proof.
    induction l as [|[k' a'] l IH]; simpl; intros x H.
    - destruct H; auto.
    - destruct (eqb k k'); simpl in H.
      + destruct H; auto.
      + destruct H; auto. apply IH in H. destruct H; auto.
  Qed.
  Lemma In_adel : forall k (l : list (K * A)) x, In x (adel eqb k l) -> In x l.
  Proof.
    induction l as [|[k' a'] l IH]; simpl; intros x H; auto.
    destruct (eqb k k'); simpl in H; auto. destruct H; auto.
  Qed.
  Lemma aset_aset : forall k (a b : A) l, aset eqb k a (aset eqb k b l) = aset eqb k a l.
  Proof.
    induction l as [|[k' a'] l IH]; simpl.
    - rewrite eqb_refl'. reflexivity.
    - destruct (eqb k k') eqn:E; simpl.
      + rewrite eqb_refl'. reflexivity.
      + rewrite E, IH. reflexivity.
  Qed.
  Lemma aset_same_id : forall k (a : A) l, alookup eqb k l = Some a -> aset eqb k a l = l.
  Proof.
    induction l as [|[k' a'] l IH]; simpl; intro H; [discriminate|].
    destruct (eqb_spec k k') as [<-|]; [congruence|]. rewrite IH; auto.
  Qed.
  Lemma aset_fresh : forall k (a : A) l, alookup eqb k l = None -> aset eqb k a l = l ++ [(k, a)].
  Proof.
    induction l as [|[k' a'] l IH]; simpl; intro H; auto.
    destruct (eqb k k'); [discriminate|]. rewrite IH; auto.
  Qed.
  Lemma In_alookup_some : forall k (a : A) l, In (k, a) l -> exists a', alookup eqb k l = Some a'.
  Proof.
    induction l as [|[k' a'] l IH]; simpl; intro H; [contradiction|].
    destruct (eqb k k') eqn:E; eauto. destruct H as [H|H]; auto.
    inversion H; subst. rewrite eqb_refl' in E. discriminate.
  Qed.

  Lemma NoDup_aset : forall k (a : A) l, NoDup (map fst l) -> NoDup (map fst (aset eqb k a l)).
  Proof.
    induction l as [|[k1 a1] l IH]; simpl; intro H.
    - constructor; [intros []|constructor].
    - destruct (eqb_spec k k1) as [<-|Hn]; simpl; [exact H|].
      inversion H as [|? ? H2 H3]; subst. constructor; auto.
      intro X. apply in_map_iff in X as [[k2 a2] [E X]]. simpl in E. subst k2.
      apply In_aset in X as [X|X]; [congruence|]. apply H2. apply (in_map fst _ _ X).
  Qed.
  Lemma NoDup_adel : forall k (l : list (K * A)), NoDup (map fst l) -> NoDup (map fst (adel eqb k l)).
  Proof.
    induction l as [|[k1 a1] l IH]; simpl; intro H; auto.
    inversion H as [|? ? H2 H3]; subst. destruct (eqb k k1); simpl; auto.
    constructor; auto. intro X. apply in_map_iff in X as [[k2 a2] [E X]]. simpl in E. subst k2.
    apply In_adel in X. apply H2. apply (in_map fst _ _ X).
  Qed.
  Lemma nodup_lookup : forall (l : list (K * A)) k a,
      NoDup (map fst l) -> In (k, a) l -> alookup eqb k l = Some a.
  Proof.
    induction l as [|[k1 a1] l IH]; intros k a ND Hin; [destruct Hin|].
    simpl. inversion ND as [|? ? Hnot ND']; subst. destruct Hin as [Hin|Hin].
    - injection Hin as -> ->. rewrite eqb_refl'. reflexivity.
    - destruct (eqb_spec k k1) as [<-|]; auto.
      exfalso. apply Hnot. apply (in_map fst _ _ Hin).
  Qed.
End AssocLemmas.

Definition key_eqb_spec := eqb_spec key_eqb key_eqb_eq.
Definition tkey_eqb_spec := eqb_spec tkey_eqb tkey_eqb_eq.

Lemma NoDup_snoc : forall (A : Type) (l : list A) a, NoDup l -> ~ In a l -> NoDup (l ++ [a]).
Proof.
  intros A l a Hn Hi. apply (NoDup_Add (a := a) (l := l)); [|auto].
  rewrite <- (app_nil_r l) at 1. apply Add_app.
Qed.

Definition plain_child (n : bytes) : Prop :=
  n <> [] /\ ~ In slash n /\ n <> [dot] /\ n <> [dot; dot].

Lemma take_elem_no_slash : forall l, ~ In slash (take_elem l).
Proof.
  induction l as [|c l IH]; simpl; auto.
  destruct (c =? slash) eqn:E; simpl; auto.
  intros [H|H]; auto. apply N.eqb_neq in E. congruence.
Qed.

Lemma path_base_confined :
  forall p, bad_name (path_base p) = true \/ plain_child (path_base p).
Proof.
  intro p. destruct (bad_name (path_base p)) eqn:B; auto. right.
  unfold bad_name in B. apply orb_false_iff in B as [B B3]. apply orb_false_iff in B as [B1 B2].
  apply (eqb_neq _ bytes_eqb_eq) in B1, B2, B3.
  unfold path_base in *. destruct p as [|c p]; [congruence|].
  remember (rev (take_elem (drop_slashes (rev (c :: p))))) as e eqn:He.
  destruct e as [|x e]; [congruence|].
  repeat split; auto; try discriminate.
  rewrite He. intro H. apply in_rev in H. eapply take_elem_no_slash; eauto.
Qed.

Arguments s_tick {D V}. Arguments s_tracked {D V}. Arguments s_temps {D V}. Arguments s_finals {D V}.
Arguments s_removed {D V}. Arguments s_out {D V}. Arguments mkState {D V}.
Arguments t_first {V}. Arguments t_v {V}. Arguments t_files {V}. Arguments t_tick {V}. Arguments t_next {V}.
Arguments mkTracked {V}. Arguments fd_files {D}. Arguments fd_flag {D}. Arguments mkFDir {D}.
Arguments Done {D V}. Arguments Panic {D V}. Arguments RIgnore {D V}. Arguments RTracked {D V}. Arguments RPanic {D V}.
Arguments VOk {V}. Arguments VBad {V}. Arguments VPanic {V}.
Arguments is_removed {D V}. Arguments full {D V}. Arguments remove_temp {D V}. Arguments untrack {D V}.
Arguments track {D V}. Arguments set_temps {D V}. Arguments set_tracked {D V}. Arguments init {D V}.
Arguments OAdd {D}. Arguments OTick {D}. Arguments ORemoved {D}. Arguments OClose {D}.
Arguments mark_removed {D V}. Arguments close {D V}. Arguments set_v {V}. Arguments fset {D}.

Notation trk st k := (alookup key_eqb k (s_tracked st)).
Notation tmp st tk := (alookup tkey_eqb tk (s_temps st)).
Notation fin st k := (alookup key_eqb k (s_finals st)).

Lemma tkey_of_same : forall m m0, key_of m = key_of m0 -> c_from m = c_from m0 -> tkey_of m = tkey_of m0.
Proof. intros m m0 H1 H2. unfold key_of, tkey_of in *. inversion H1. congruence. Qed.
Lemma node_of_same : forall m m0, key_of m = key_of m0 -> node_of m = node_of m0.
Proof. intros m m0 H1. unfold key_of, node_of in *. inversion H1. congruence. Qed.

Section Receiver.
  Variable D : Type.
  Variable dapp : D -> D -> D.
  Variable V : Type.
  Variable vinit : V.
  Variable vadd : V -> D -> N -> vres V.
  Variable vfinal : V -> bool.
  Variables fix_mid fix_first : bool.
  Variables my_did gc_tick timeout max_slots : N.

  Notation state := (state D V).
  Notation chunk := (chunk D).
  Notation recordM := (record D V vinit vadd fix_first max_slots).
  Notation saveM := (save D dapp V).
  Notation finishM := (finish D V vfinal).
  Notation addM := (add D dapp V vinit vadd vfinal fix_mid fix_first my_did max_slots).
  Notation stepM := (step D dapp V vinit vadd vfinal fix_mid fix_first my_did gc_tick timeout max_slots).
  Notation runM := (run D dapp V vinit vadd vfinal fix_mid fix_first my_did gc_tick timeout max_slots).

  Definition good (m : cmeta) : Prop := c_did m = my_did /\ c_binver m = transport_bin_version.

  Definition expected (st : state) (m : cmeta) : Prop :=
    exists td, alookup key_eqb (key_of m) (s_tracked st) = Some td /\
               t_next td = c_id m /\ c_from (t_first td) = c_from m.

  (* what the accepted chunks of a stream write into the temp dir *)
  Fixpoint replay (files : dir D) (l : list chunk) : option (dir D) :=
    match l with
    | [] => Some files
    | (m, d) :: r =>
      let fn := path_base (c_path m) in
      if bad_name fn then None
      else if c_fcid m =? 0 then replay (fset fn d files) r
      else match alookup bytes_eqb fn files with
           | None => None
           | Some old => replay (fset fn (dapp old d) files) r
           end
    end.

  (* the validator fed with the chunks of the main file (those without file info) *)
  Fixpoint vfold (v : V) (l : list chunk) : option V :=
    match l with
    | [] => Some v
    | (m, d) :: r =>
      if c_hasfi m then vfold v r
      else match vadd v d (c_id m) with
           | VOk v' => vfold v' r
           | _ => None
           end
    end.

  Fixpoint fileinfos (acc : list sfile) (l : list chunk) : list sfile :=
    match l with
    | [] => acc
    | (m, _) :: r => fileinfos (add_fileinfo m acc) r
    end.

  Lemma replay_app : forall (l1 l2 : list chunk) files,
      replay files (l1 ++ l2) = match replay files l1 with Some f1 => replay f1 l2 | None => None end.
  Proof.
    induction l1 as [|[m d] l1 IH]; intros l2 files; simpl; auto.
    destruct (bad_name (path_base (c_path m))); auto.
    destruct (c_fcid m =? 0); auto.
    destruct (alookup bytes_eqb (path_base (c_path m)) files); auto.
  Qed.
  Lemma vfold_app : forall (l1 l2 : list chunk) v,
      vfold v (l1 ++ l2) = match vfold v l1 with Some v1 => vfold v1 l2 | None => None end.
  Proof.
    induction l1 as [|[m d] l1 IH]; intros l2 v; simpl; auto.
    destruct (c_hasfi m); auto. destruct (vadd v d (c_id m)); auto.
  Qed.
  Lemma fileinfos_snoc : forall (l : list chunk) acc m d,
      fileinfos acc (l ++ [(m, d)]) = add_fileinfo m (fileinfos acc l).
  Proof. induction l as [|[m0 d0] l IH]; intros; simpl; auto. Qed.

  (* a new chunk 0 discards the stream tracked for its snapshot *)
  Definition discard (k : key) (st : state) : state :=
    match trk st k with Some td => remove_temp (tkey_of (t_first td)) st | None => st end.

  Lemma discard_fields : forall k (st : state),
      s_finals (discard k st) = s_finals st /\ s_out (discard k st) = s_out st /\
      s_removed (discard k st) = s_removed st.
  Proof. intros. unfold discard. destruct (trk st k); auto. Qed.

  Lemma record_ignore : forall (st : state) c st1,
      recordM st c = RIgnore st1 -> st1 = st \/ fix_first = false /\ st1 = discard (key_of (fst c)) st.
  Proof.
    intros st [m d] st1 H. unfold record in H. unfold discard. simpl fst.
    destruct (c_id m =? 0).
    - destruct (trk st (key_of m)); [|destruct (full max_slots st)];
        destruct fix_first, (c_hasfi m); try discriminate;
          try (destruct (vadd vinit d 0); try discriminate); injection H as <-; auto.
    - destruct (trk st (key_of m)) as [td|]; [|injection H as <-; auto].
      destruct (negb (t_next td =? c_id m)); [injection H as <-; auto|].
      destruct (negb (c_from (t_first td) =? c_from m)); [injection H as <-; auto|discriminate].
  Qed.

  Lemma record_tracked : forall (st : state) m d st1 td,
      recordM st (m, d) = RTracked st1 td ->
      (c_id m = 0 /\
       (exists v0, (if c_hasfi m then VOk vinit else vadd vinit d 0) = VOk v0 /\
                   td = mkTracked m v0 (add_fileinfo m []) (s_tick st) 1) /\
       st1 = track (key_of m) td (discard (key_of m) st)) \/
      (c_id m <> 0 /\
       exists td0, trk st (key_of m) = Some td0 /\ t_next td0 = c_id m /\ c_from (t_first td0) = c_from m /\
                   td = mkTracked (t_first td0) (t_v td0) (add_fileinfo m (t_files td0)) (s_tick st) (c_id m + 1) /\
                   st1 = track (key_of m) td st).
  Proof.
    intros st m d st1 td H. unfold record in H. unfold discard.
    destruct (c_id m =? 0) eqn:E0.
    - left. split; [apply N.eqb_eq; exact E0|].
      destruct (trk st (key_of m)); [|destruct (full max_slots st)];
        destruct fix_first, (c_hasfi m); try discriminate;
          try (destruct (vadd vinit d 0) eqn:Va; try discriminate); injection H as <- <-; eauto.
    - right. split; [apply N.eqb_neq; exact E0|].
      destruct (trk st (key_of m)) as [td0|]; [|discriminate].
      destruct (t_next td0 =? c_id m) eqn:E1; [|discriminate].
      destruct (c_from (t_first td0) =? c_from m) eqn:E2; [|discriminate].
      injection H as <- <-. apply N.eqb_eq in E1, E2. eauto 8.
  Qed.

  (* Chunk.save: CreateTempDir on chunk 0 (an existing dir is kept), then the write that
     [replay] describes *)
  Definition open_temps (st : state) (m : cmeta) : list (tkey * dir D) :=
    if c_id m =? 0
    then match tmp st (tkey_of m) with Some _ => s_temps st | None => aset tkey_eqb (tkey_of m) [] (s_temps st) end
    else s_temps st.

  Lemma save_replay : forall (st : state) m d,
      saveM st (m, d) =
      match alookup tkey_eqb (tkey_of m) (open_temps st m) with
      | None => None
      | Some files =>
        match replay files [(m, d)] with
        | None => None
        | Some files1 => Some (set_temps st (aset tkey_eqb (tkey_of m) files1 (open_temps st m)))
        end
      end.
  Proof.
    intros st m d. unfold save, open_temps.
    destruct (c_id m =? 0); [destruct (tmp st (tkey_of m))|]; simpl;
      (destruct (alookup tkey_eqb (tkey_of m) _) as [files|]; [|reflexivity]);
      destruct (bad_name (path_base (c_path m))); auto;
        destruct (c_fcid m =? 0); auto;
          destruct (alookup bytes_eqb (path_base (c_path m)) files); auto.
  Qed.

  Lemma open_temps_same : forall (st : state) m,
      alookup tkey_eqb (tkey_of m) (open_temps st m) =
      if c_id m =? 0 then Some (match tmp st (tkey_of m) with Some f => f | None => [] end)
      else tmp st (tkey_of m).
  Proof.
    intros st m. unfold open_temps. destruct (c_id m =? 0); [|reflexivity].
    destruct (tmp st (tkey_of m)) eqn:L; [exact L|]. apply alookup_aset_same. exact tkey_eqb_eq.
  Qed.
  Lemma open_temps_other : forall (st : state) m tk,
      tk <> tkey_of m -> alookup tkey_eqb tk (open_temps st m) = tmp st tk.
  Proof.
    intros st m tk Hn. unfold open_temps. destruct (c_id m =? 0); [|reflexivity].
    destruct (tmp st (tkey_of m)); [reflexivity|]. apply alookup_aset_other; [exact tkey_eqb_eq|exact Hn].
  Qed.

  Lemma finish_done : forall (st : state) m td st' b,
      finishM st m td = Done st' b ->
      (b = false /\ st' = remove_temp (tkey_of m) (untrack (key_of m) st)) \/
      (b = true /\ vfinal (t_v td) = true /\ fin st (key_of m) = None /\
       exists files, tmp st (tkey_of m) = Some files /\
         st' = mkState (s_tick st) (adel key_eqb (key_of m) (s_tracked st))
                       (adel tkey_eqb (tkey_of m) (s_temps st))
                       (aset key_eqb (key_of m)
                             (mkFDir (adel bytes_eqb snapshot_flag_filename files)
                                     (to_message (t_first td) (t_files td))) (s_finals st))
                       (s_removed st) (to_message (t_first td) (t_files td) :: s_out st)).
  Proof.
    intros st m td st' b H. unfold finish in H.
    destruct (vfinal (t_v td)); simpl in H; [|injection H as <- <-; auto].
    destruct (alookup tkey_eqb (tkey_of m) _) as [files|] eqn:Ht; [|discriminate].
    destruct (alookup key_eqb (key_of m) _) eqn:Hf; injection H as <- <-; [auto|right].
    repeat split; auto. exists files. auto.
  Qed.

  Definition validated (td : tracked V) (m : cmeta) (d : D) : vres V :=
    if negb (c_hasfi m) && negb (c_id m =? 0) then vadd (t_v td) d (c_id m) else VOk (t_v td).

  (* the part of addLocked that follows record *)
  Definition cont (st1 : state) (td : tracked V) (c : chunk) : outcome D V :=
    let '(m, d) := c in
    let k := key_of m in
    if is_removed st1 (node_of m) then Done (remove_temp (tkey_of m) st1) false
    else
      match validated td m d with
      | VPanic => Panic
      | VBad v' =>
        if fix_mid then Done (untrack k (remove_temp (tkey_of m) st1)) false
        else Done (track k (set_v td v') st1) false
      | VOk v' =>
        let td' := set_v td v' in
        match saveM (track k td' st1) c with
        | None => Panic
        | Some st3 => if is_last m then finishM st3 m td' else Done st3 true
        end
      end.

  Lemma add_cont : forall (st : state) (c : chunk),
      addM st c =
      if negb (c_did (fst c) =? my_did) || negb (c_binver (fst c) =? transport_bin_version) then Done st false
      else match recordM st c with
           | RPanic => Panic
           | RIgnore s => Done s false
           | RTracked st1 td => cont st1 td c
           end.
  Proof. intros st [m d]. reflexivity. Qed.

  Lemma validated_first : forall td m d, c_id m = 0 -> validated td m d = VOk (t_v td).
  Proof. intros td m d Hid. unfold validated. rewrite Hid, andb_false_r. reflexivity. Qed.

  Lemma validated_vfold : forall td m d v1,
      c_id m <> 0 -> (validated td m d = VOk v1 <-> vfold (t_v td) [(m, d)] = Some v1).
  Proof.
    intros td m d v1 Hid. unfold validated. apply N.eqb_neq in Hid. rewrite Hid, andb_true_r. simpl.
    destruct (c_hasfi m); simpl; [split; congruence|].
    destruct (vadd (t_v td) d (c_id m)); split; congruence.
  Qed.

  Lemma cont_accept : forall (st1 : state) td m d v1 files0 files1,
      is_removed st1 (node_of m) = false -> validated td m d = VOk v1 ->
      alookup tkey_eqb (tkey_of m) (open_temps st1 m) = Some files0 ->
      replay files0 [(m, d)] = Some files1 ->
      cont st1 td (m, d) =
      let st3 := set_temps (track (key_of m) (set_v td v1) st1)
                           (aset tkey_eqb (tkey_of m) files1 (open_temps st1 m)) in
      if is_last m then finishM st3 m (set_v td v1) else Done st3 true.
  Proof.
    intros st1 td m d v1 files0 files1 Hrm Hv Ho Hr. unfold cont. rewrite Hrm, Hv, save_replay.
    change (open_temps (track (key_of m) (set_v td v1) st1) m) with (open_temps st1 m).
    rewrite Ho, Hr. reflexivity.
  Qed.

  (* the outcomes of addLocked after record: the replica is removed, the validator refuses the
     chunk, or the chunk is written ([st3]) and, if it is the last one, the stream finished *)
  Lemma cont_done : forall (st1 : state) td m d st' b,
      cont st1 td (m, d) = Done st' b ->
      (is_removed st1 (node_of m) = true /\ b = false /\ st' = remove_temp (tkey_of m) st1) \/
      is_removed st1 (node_of m) = false /\
      ((exists v', validated td m d = VBad v' /\ b = false /\
                   st' = if fix_mid then untrack (key_of m) (remove_temp (tkey_of m) st1)
                         else track (key_of m) (set_v td v') st1) \/
       (exists v1 files0 files1,
           validated td m d = VOk v1 /\
           alookup tkey_eqb (tkey_of m) (open_temps st1 m) = Some files0 /\
           replay files0 [(m, d)] = Some files1 /\
           let st3 := set_temps (track (key_of m) (set_v td v1) st1)
                                (aset tkey_eqb (tkey_of m) files1 (open_temps st1 m)) in
           if is_last m then finishM st3 m (set_v td v1) = Done st' b else st' = st3 /\ b = true)).
  Proof.
    intros st1 td m d st' b H. unfold cont in H.
    destruct (is_removed st1 (node_of m)); [injection H as <- <-; auto|right; split; [reflexivity|]].
    destruct (validated td m d) as [v1|v'|]; try discriminate.
    - right. exists v1. rewrite save_replay in H.
      change (open_temps (track (key_of m) (set_v td v1) st1) m) with (open_temps st1 m) in H.
      destruct (alookup tkey_eqb (tkey_of m) (open_temps st1 m)) as [files0|]; [|discriminate].
      destruct (replay files0 [(m, d)]) as [files1|] eqn:R; [|discriminate].
      exists files0, files1. split; [reflexivity|]. split; [reflexivity|]. split; [exact R|].
      destruct (is_last m); [exact H|injection H as <- <-; auto].
    - left. exists v'. destruct fix_mid; injection H as <- <-; auto.
  Qed.

  Lemma foreign_rejected :
    forall (st : state) (c : chunk),
      c_did (fst c) <> my_did \/ c_binver (fst c) <> transport_bin_version ->
      addM st c = Done st false.
  Proof.
    intros st c H. rewrite add_cont.
    destruct H as [H|H]; apply N.eqb_neq in H; rewrite H; simpl; auto.
    rewrite orb_true_r. reflexivity.
  Qed.

  Lemma accepted_only_next :
    forall (st : state) (c : chunk) st',
      addM st c = Done st' true ->
      good (fst c) /\ is_removed st (node_of (fst c)) = false /\
      (c_id (fst c) = 0 \/ expected st (fst c)).
  Proof.
    intros st [m d] st' H. rewrite add_cont in H. simpl fst in *.
    destruct (c_did m =? my_did) eqn:E1; [|discriminate].
    destruct (c_binver m =? transport_bin_version) eqn:E2; [|discriminate]. cbn [negb orb] in H.
    split; [split; apply N.eqb_eq; assumption|].
    destruct (recordM st (m, d)) as [s|st1 td|] eqn:R; try discriminate.
    unfold cont in H. destruct (is_removed st1 (node_of m)) eqn:RM; [discriminate|].
    apply record_tracked in R as [[E0 [_ ->]]|[_ [td0 [L [Nx [Fr [_ ->]]]]]]].
    - split; auto. unfold is_removed in *. simpl in RM.
      rewrite (proj2 (proj2 (discard_fields _ _))) in RM. exact RM.
    - split; [exact RM|]. right. exists td0. auto.
  Qed.

  Definition ignorable (st : state) (c : chunk) : Prop :=
    let m := fst c in
    (c_did m <> my_did \/ c_binver m <> transport_bin_version) \/
    (c_id m <> 0 /\ ~ expected st m) \/
    (c_id m = 0 /\ c_hasfi m = false /\ exists v, vadd vinit (snd c) 0 = VBad v) \/
    (c_id m = 0 /\ alookup key_eqb (key_of m) (s_tracked st) = None /\ full max_slots st = true /\
     (c_hasfi m = true \/ exists v, vadd vinit (snd c) 0 = VOk v)).

  Lemma ignorable_no_effect :
    fix_first = true ->
    forall (st : state) (c : chunk), ignorable st c -> addM st c = Done st false.
  Proof.
    intros FF st c [H|H]; [apply foreign_rejected; auto|].
    rewrite add_cont. destruct (_ || _); auto.
    destruct c as [m d]. simpl in H.
    assert (R : recordM st (m, d) = RIgnore st).
    { unfold record. rewrite FF. destruct H as [[Hid Hne]|[[Hid [Hfi [v Hv]]]|[Hid [Hl [Hf Hv]]]]].
      - apply N.eqb_neq in Hid. rewrite Hid.
        destruct (trk st (key_of m)) as [td|] eqn:L; auto.
        destruct (t_next td =? c_id m) eqn:E1; simpl; auto.
        destruct (c_from (t_first td) =? c_from m) eqn:E2; simpl; auto.
        exfalso. apply Hne. exists td. repeat split; auto; apply N.eqb_eq; auto.
      - rewrite Hid. simpl. rewrite Hfi. simpl in Hv. rewrite Hv. reflexivity.
      - rewrite Hid. simpl. rewrite Hl. rewrite Hf.
        destruct (c_hasfi m); auto. destruct Hv as [Hv|[v Hv]]; [discriminate|].
        simpl in Hv. rewrite Hv. reflexivity. }
    rewrite R. reflexivity.
  Qed.

  Fixpoint ids_from (i : N) (l : list chunk) : Prop :=
    match l with
    | [] => True
    | (m, _) :: r => c_id m = i /\ ids_from (i + 1) r
    end.
  Definition same_stream (m0 : cmeta) (l : list chunk) : Prop :=
    Forall (fun c : chunk => key_of (fst c) = key_of m0 /\ c_from (fst c) = c_from m0 /\
                             c_did (fst c) = my_did /\ c_binver (fst c) = transport_bin_version) l.
  Fixpoint last_only (l : list chunk) : Prop :=
    match l with
    | [] => False
    | [(m, _)] => is_last m = true
    | (m, _) :: r => is_last m = false /\ last_only r
    end.

  (* the receiver in the middle of stream [m0]: [n] chunks recorded, the last at tick [tk0] *)
  Definition mid (st : state) (m0 : cmeta) (v : V) (fi : list sfile) (files : dir D) (n tk0 : N) : Prop :=
    trk st (key_of m0) = Some (mkTracked m0 v fi tk0 n) /\
    tmp st (tkey_of m0) = Some files /\
    fin st (key_of m0) = None /\
    is_removed st (node_of m0) = false.

  Definition done_with (st : state) (m0 : cmeta) (fi : list sfile) (files : dir D) (out : list notif) : Prop :=
    alookup key_eqb (key_of m0) (s_tracked st) = None /\
    alookup tkey_eqb (tkey_of m0) (s_temps st) = None /\
    alookup key_eqb (key_of m0) (s_finals st) =
      Some (mkFDir (adel bytes_eqb snapshot_flag_filename files) (to_message m0 fi)) /\
    s_out st = to_message m0 fi :: out.

  Fixpoint adds (st : state) (l : list chunk) : option state :=
    match l with
    | [] => Some st
    | c :: r => match addM st c with
                | Done st' true => adds st' r
                | _ => None
                end
    end.

  Definition clean (st : state) (m0 : cmeta) : Prop :=
    alookup key_eqb (key_of m0) (s_tracked st) = None /\
    full max_slots st = false /\
    alookup tkey_eqb (tkey_of m0) (s_temps st) = None /\
    alookup key_eqb (key_of m0) (s_finals st) = None /\
    is_removed st (node_of m0) = false.

  (* Add on the next chunk of the stream, computed up to the last-chunk test: the chunk is
     recorded, validated and written; [st3] is the state that finalize (or the caller) sees *)
  Lemma later_chunk :
    forall (st : state) m0 v fi files n tk0 m d v1 files1,
      n <> 0 -> mid st m0 v fi files n tk0 ->
      key_of m = key_of m0 -> c_from m = c_from m0 -> good m -> c_id m = n ->
      vfold v [(m, d)] = Some v1 -> replay files [(m, d)] = Some files1 ->
      exists st3, mid st3 m0 v1 (add_fileinfo m fi) files1 (n + 1) (s_tick st) /\
                  s_tick st3 = s_tick st /\ s_out st3 = s_out st /\
                  addM st (m, d) =
                  if is_last m then finishM st3 m (mkTracked m0 v1 (add_fileinfo m fi) (s_tick st) (n + 1))
                  else Done st3 true.
  Proof.
    intros st m0 v fi files n tk0 m d v1 files1 Hn [Ht [Htmp [Hfin Hrm]]] Hk Hfrom [Hdid Hbv] Hid Hv Hr.
    pose proof (tkey_of_same _ _ Hk Hfrom) as Htk. pose proof (proj2 (N.eqb_neq _ _) Hn) as Hn'.
    set (td := mkTracked m0 v (add_fileinfo m fi) (s_tick st) (n + 1)).
    set (st1 := track (key_of m0) td st).
    assert (R : recordM st (m, d) = RTracked st1 td).
    { unfold record. rewrite Hid, Hn', Hk, Ht. simpl. rewrite N.eqb_refl, Hfrom, N.eqb_refl. reflexivity. }
    exists (set_temps (track (key_of m0) (set_v td v1) st1)
                      (aset tkey_eqb (tkey_of m0) files1 (open_temps st1 m))).
    split; [|split; [reflexivity|split; [reflexivity|]]].
    - unfold mid. simpl. rewrite alookup_aset_same by exact key_eqb_eq.
      rewrite alookup_aset_same by exact tkey_eqb_eq. auto.
    - rewrite add_cont. simpl fst. rewrite Hdid, Hbv, !N.eqb_refl, R. cbn [negb orb].
      rewrite (cont_accept st1 td m d v1 files files1); [rewrite Hk, Htk; reflexivity| | | |exact Hr].
      + rewrite (node_of_same _ _ Hk). exact Hrm.
      + apply validated_vfold; [rewrite Hid; exact Hn|exact Hv].
      + rewrite open_temps_same, Hid, Hn', Htk. exact Htmp.
  Qed.

  Lemma first_chunk :
    forall (st : state) m0 d0 v1 files1,
      clean st m0 -> good m0 -> c_id m0 = 0 ->
      vfold vinit [(m0, d0)] = Some v1 -> replay [] [(m0, d0)] = Some files1 ->
      exists st3, mid st3 m0 v1 (add_fileinfo m0 []) files1 1 (s_tick st) /\
                  s_tick st3 = s_tick st /\ s_out st3 = s_out st /\
                  addM st (m0, d0) =
                  if is_last m0 then finishM st3 m0 (mkTracked m0 v1 (add_fileinfo m0 []) (s_tick st) 1)
                  else Done st3 true.
  Proof.
    intros st m0 d0 v1 files1 [Ht [Hfull [Htmp [Hfin Hrm]]]] [Hdid Hbv] Hid Hv Hr.
    set (td := mkTracked m0 v1 (add_fileinfo m0 []) (s_tick st) 1).
    set (st1 := track (key_of m0) td st).
    assert (R : recordM st (m0, d0) = RTracked st1 td).
    { unfold record. rewrite Hid, Ht, Hfull. simpl in Hv |- *. rewrite Hid in Hv.
      destruct fix_first, (c_hasfi m0); try (destruct (vadd vinit d0 0); try discriminate);
        injection Hv as ->; reflexivity. }
    exists (set_temps (track (key_of m0) (set_v td v1) st1)
                      (aset tkey_eqb (tkey_of m0) files1 (open_temps st1 m0))).
    split; [|split; [reflexivity|split; [reflexivity|]]].
    - unfold mid. simpl. rewrite alookup_aset_same by exact key_eqb_eq.
      rewrite alookup_aset_same by exact tkey_eqb_eq. auto.
    - rewrite add_cont. simpl fst. rewrite Hdid, Hbv, !N.eqb_refl, R. cbn [negb orb].
      rewrite (cont_accept st1 td m0 d0 v1 [] files1); [reflexivity|exact Hrm| | |exact Hr].
      + apply validated_first. exact Hid.
      + rewrite open_temps_same, Hid. simpl. rewrite Htmp. reflexivity.
  Qed.

  Lemma finish_mid : forall (st : state) m0 m v fi files n tk0,
      mid st m0 v fi files n tk0 -> key_of m = key_of m0 -> c_from m = c_from m0 -> vfinal v = true ->
      exists st', finishM st m (mkTracked m0 v fi tk0 n) = Done st' true /\ done_with st' m0 fi files (s_out st).
  Proof.
    intros st m0 m v fi files n tk0 [Ht [Htmp [Hfin Hrm]]] Hk Hfrom Hf.
    unfold finish. simpl t_v. rewrite Hf, Hk, (tkey_of_same _ _ Hk Hfrom). simpl. rewrite Htmp, Hfin.
    eexists. split; [reflexivity|]. unfold done_with. simpl.
    rewrite !alookup_adel_same, alookup_aset_same by (exact key_eqb_eq || exact tkey_eqb_eq). auto.
  Qed.

  (* [st3] is the state after a chunk (m, d) of the stream was written, before the last-chunk
     test: the rest of the stream, delivered in order, is accepted and the snapshot finalised *)
  Lemma rest_in_order :
    forall (r : list chunk) (st3 : state) m0 m d v1 fi1 files1 n1 tk,
      n1 <> 0 -> mid st3 m0 v1 fi1 files1 n1 tk ->
      key_of m = key_of m0 -> c_from m = c_from m0 -> last_only ((m, d) :: r) ->
      same_stream m0 r -> ids_from n1 r ->
      forall v' files', vfold v1 r = Some v' -> vfinal v' = true -> replay files1 r = Some files' ->
      exists st', match (if is_last m then finishM st3 m (mkTracked m0 v1 fi1 tk n1) else Done st3 true) with
                  | Done s true => adds s r
                  | _ => None
                  end = Some st' /\
                  done_with st' m0 (fileinfos fi1 r) files' (s_out st3).
  Proof.
    induction r as [|[m2 d2] r IH]; intros st3 m0 m d v1 fi1 files1 n1 tk Hn Hm3 Hk Hfrom Hl Hs Hid v' files' Hv Hf Hr.
    - simpl in Hl, Hv, Hr. injection Hv as ->. injection Hr as ->. rewrite Hl.
      destruct (finish_mid _ _ m _ _ _ _ _ Hm3 Hk Hfrom Hf) as [st' [-> Hd]].
      exists st'. split; [reflexivity|exact Hd].
    - destruct Hl as [-> Hl].
      inversion Hs as [|? ? [Hk2 [Hfrom2 Hgood2]] Hs']; subst. destruct Hid as [Hid2 Hid'].
      change ((m2, d2) :: r) with ([(m2, d2)] ++ r) in Hv, Hr. rewrite vfold_app in Hv. rewrite replay_app in Hr.
      destruct (vfold v1 [(m2, d2)]) as [v2|] eqn:Hv2; [|discriminate].
      destruct (replay files1 [(m2, d2)]) as [files2|] eqn:Hr2; [|discriminate].
      destruct (later_chunk st3 m0 v1 fi1 files1 n1 tk m2 d2 v2 files2 Hn Hm3 Hk2 Hfrom2 Hgood2 Hid2 Hv2 Hr2)
        as [st4 [Hm4 [_ [Ho4 Ha]]]].
      simpl adds. rewrite Ha, <- Ho4.
      assert (Hn1 : n1 + 1 <> 0) by lia.
      exact (IH st4 m0 m2 d2 v2 _ files2 (n1 + 1) _ Hn1 Hm4 Hk2 Hfrom2 Hl Hs' Hid' v' files' Hv Hf Hr).
  Qed.

  Lemma in_order_delivery :
    forall (st : state) m0 d0 (r : list chunk),
      clean st m0 ->
      same_stream m0 ((m0, d0) :: r) -> ids_from 0 ((m0, d0) :: r) -> last_only ((m0, d0) :: r) ->
      forall v' files', vfold vinit ((m0, d0) :: r) = Some v' -> vfinal v' = true ->
                        replay [] ((m0, d0) :: r) = Some files' ->
      exists st', adds st ((m0, d0) :: r) = Some st' /\
                  done_with st' m0 (fileinfos [] ((m0, d0) :: r)) files' (s_out st).
  Proof.
    intros st m0 d0 r Hc Hs Hid Hl v' files' Hv Hf Hr.
    inversion Hs as [|? ? [_ [_ Hgood]] Hs']; subst. destruct Hid as [Hid0 Hid'].
    change ((m0, d0) :: r) with ([(m0, d0)] ++ r) in Hv, Hr. rewrite vfold_app in Hv. rewrite replay_app in Hr.
    destruct (vfold vinit [(m0, d0)]) as [v1|] eqn:Hv1; [|discriminate].
    destruct (replay [] [(m0, d0)]) as [files1|] eqn:Hr1; [|discriminate].
    destruct (first_chunk st m0 d0 v1 files1 Hc Hgood Hid0 Hv1 Hr1) as [st3 [Hm3 [_ [Ho3 Ha]]]].
    simpl adds. rewrite Ha, <- Ho3.
    assert (H1 : (1 : N) <> 0) by discriminate.
    exact (rest_in_order r st3 m0 m0 d0 v1 _ files1 1 _ H1 Hm3 eq_refl eq_refl Hl Hs' Hid' v' files' Hv Hf Hr).
  Qed.

  Lemma add_finals : forall (st : state) (c : chunk) st' b,
      addM st c = Done st' b ->
      (s_finals st' = s_finals st /\ s_out st' = s_out st) \/
      (b = true /\ is_last (fst c) = true /\
       alookup key_eqb (key_of (fst c)) (s_finals st) = None /\
       exists fd n, s_finals st' = aset key_eqb (key_of (fst c)) fd (s_finals st) /\
                    s_out st' = n :: s_out st /\ fd_flag fd = n).
  Proof.
    intros st [m d] st' b H. rewrite add_cont in H. simpl fst in *.
    destruct (_ || _); [injection H as <- <-; auto|].
    destruct (discard_fields (key_of m) st) as [D1 [D2 _]].
    destruct (recordM st (m, d)) as [s1|s1 td|] eqn:R; try discriminate.
    - injection H as <- <-. left. apply record_ignore in R as [->|[_ ->]]; auto.
    - assert (Q : s_finals s1 = s_finals st /\ s_out s1 = s_out st)
        by (apply record_tracked in R as [[_ [_ ->]]|[_ [td0 [_ [_ [_ [_ ->]]]]]]]; auto).
      destruct Q as [Q1 Q2].
      apply cont_done in H as [(_ & -> & ->)|(_ & [(v' & _ & -> & ->)|(v1 & f0 & f1 & _ & _ & _ & H)])];
        [auto|destruct fix_mid; auto|]. cbv zeta in H.
      destruct (is_last m) eqn:Hl; [|destruct H as [-> ->]; auto].
      apply finish_done in H as [[-> ->]|[-> [_ [Hn [files [_ ->]]]]]]; simpl; [auto|right].
      simpl in Hn. rewrite Q1 in Hn |- *. rewrite Q2. eauto 10.
  Qed.

  (* Close drops every stream: the collector with timeout 0 *)
  Lemma close_list_gc : forall l (st : state), close_list D V l st = gc_list D V 0 l st.
  Proof.
    induction l as [|[k td] l IH]; intro st; simpl; [reflexivity|].
    rewrite IH. destruct (s_tick st - t_tick td); reflexivity.
  Qed.

  Lemma gc_list_fields : forall t l (s : state),
      let s' := gc_list D V t l s in
      s_finals s' = s_finals s /\ s_out s' = s_out s /\ s_tick s' = s_tick s /\ s_removed s' = s_removed s.
  Proof.
    induction l as [|[k td] l IH]; intro s; simpl; auto.
    destruct (IH (if t <=? s_tick s - t_tick td
                  then untrack k (remove_temp (tkey_of (t_first td)) s) else s)) as [A [B [C E]]].
    rewrite A, B, C, E. destruct (t <=? s_tick s - t_tick td); auto.
  Qed.

  Lemma step_finals : forall (st : state) o st' b,
      stepM st o = Done st' b ->
      (s_finals st' = s_finals st /\ s_out st' = s_out st) \/
      (exists c, o = OAdd c /\ b = true /\ is_last (fst c) = true /\
       alookup key_eqb (key_of (fst c)) (s_finals st) = None /\
       exists fd n, s_finals st' = aset key_eqb (key_of (fst c)) fd (s_finals st) /\
                    s_out st' = n :: s_out st /\ fd_flag fd = n).
  Proof.
    intros st o st' b H. destruct o as [c| |s r|]; simpl in H.
    - apply add_finals in H. destruct H as [H|H]; [left; auto|right; exists c; intuition].
    - injection H as <- <-. left. unfold tick.
      destruct (_ =? 0); [|auto]. destruct (gc_list_fields timeout (s_tracked st) (mkState (s_tick st + 1) (s_tracked st) (s_temps st) (s_finals st) (s_removed st) (s_out st))) as [A [B _]]. auto.
    - injection H as <- <-. left. auto.
    - injection H as <- <-. left. unfold close. rewrite close_list_gc. destruct (gc_list_fields 0 (s_tracked st) st) as [A [B _]]. auto.
  Qed.

  Definition finals_match (st : state) : Prop :=
    map (fun kf => fd_flag (snd kf)) (s_finals st) = rev (s_out st) /\
    NoDup (map fst (s_finals st)).

  Lemma one_notification_per_final :
    forall ops (st st' : state),
      finals_match st -> runM st ops = Some st' -> finals_match st'.
  Proof.
    induction ops as [|o ops IH]; intros st st' Hm H; simpl in H.
    - injection H as <-. exact Hm.
    - destruct (stepM st o) as [s1 b|] eqn:Hs; [|discriminate].
      apply (IH s1 st'); [|exact H]. unfold finals_match.
      apply step_finals in Hs as [[Hf Ho]|[c [_ [_ [_ [Hn [fd [n [Hf [Ho Hfl]]]]]]]]]].
      + rewrite Hf, Ho. exact Hm.
      + rewrite (aset_fresh _ _ _ _ Hn) in Hf. destruct Hm as [Hm1 Hm2].
        rewrite Hf, Ho, !map_app. simpl. rewrite Hm1, Hfl. split; auto.
        apply NoDup_snoc; auto. apply (alookup_none_notin key_eqb key_eqb_eq). exact Hn.
  Qed.
End Receiver.

(* F5: the input on which the unrepaired receiver (both flags false) finalises a truncated snapshot *)
Definition toy_vadd (v : N) (d : bytes) (id : N) : vres N :=
  match d with
  | [0] => VBad (v + 1)          (* a chunk the validator refuses *)
  | _ => VOk (v + 1)
  end.
Definition toy_meta (id cnt : N) : cmeta :=
  mkCMeta 1 1 5 id 1 cnt 100 3 [115] 3 7 id cnt false sfile0 transport_bin_version 0 false.
Definition f5_ops : list (op bytes) :=
  [OAdd (toy_meta 0 3, [10]); OAdd (toy_meta 1 3, [0]); OAdd (toy_meta 2 3, [30])].
Definition toy_run (fm ff : bool) :=
  run bytes (@app N) N 0 toy_vadd (fun _ => true) fm ff 7 30 900 128 init f5_ops.
