(* C19 — the faithful log model (Model/LogView.v) against the logical log (Model/LogSpec.v): the
   invariant R between the two, its preservation by every operation, and what holds under it. *)
From Coq Require Import List NArith ZArith Bool Lia.
From DB Require Import Base.Bytes Proofs.Bytes Gen.GenC19 Model.LogSpec Model.LogView.
Import ListNotations.
Open Scope N_scope.

Lemma esize_pos e : 0 < esize e.
Proof. unfold esize, c19_entry_non_cmd_fields_size. lia. Qed.
Opaque esize.

Lemma nth_error_ext_eq {A} (a b : list A) : (forall k, nth_error a k = nth_error b k) -> a = b.
Proof.
  revert b. induction a as [|x a IH]; intros b H.
  - destruct b; auto. specialize (H 0%nat). discriminate.
  - destruct b as [|y b]; [specialize (H 0%nat); discriminate|].
    pose proof (H 0%nat) as H0. cbn in H0. inversion H0; subst. f_equal. apply IH.
    intros k. apply (H (S k)).
Qed.

Lemma last_entry_nth l : l <> [] -> nth_error l (length l - 1) = Some (last_entry l).
Proof.
  unfold last_entry. induction l as [|a l IH]; [congruence|]. intros _.
  destruct l as [|b l']; [reflexivity|].
  replace (length (a :: b :: l') - 1)%nat with (S (length (b :: l') - 1)) by (cbn; lia).
  cbn [nth_error]. rewrite IH by congruence. reflexivity.
Qed.

Lemma last_entry_in l : l <> [] -> In (last_entry l) l.
Proof. intros H. eapply nth_error_In, last_entry_nth, H. Qed.

(* a well-formed run of entries starting at index [base]: contiguous indexes,
   terms >= 1 and non-decreasing *)
Definition log_ok (base : N) (l : list entry) : Prop :=
  forall k e, nth_error l k = Some e ->
    e_index e = base + N.of_nat k /\ 1 <= e_term e /\
    forall k' e', (k <= k')%nat -> nth_error l k' = Some e' -> e_term e <= e_term e'.

Lemma log_ok_nil b : log_ok b []. Proof. intros k e H. destruct k; discriminate. Qed.

Lemma log_ok_prefix b a c : log_ok b (a ++ c) -> log_ok b a.
Proof.
  intros H k e Hk. assert (Hl : (k < length a)%nat) by (apply nth_error_Some; congruence).
  destruct (H k e) as (A & B & C); [rewrite nth_error_app1; assumption|]. repeat split; auto.
  intros k' e' Hle Hk'. apply (C k'); [exact Hle|]. rewrite nth_error_app1; [exact Hk'|]. apply nth_error_Some. congruence.
Qed.

Lemma log_ok_firstn b n l : log_ok b l -> log_ok b (firstn n l).
Proof. intros H. rewrite <- (firstn_skipn n l) in H. exact (log_ok_prefix _ _ _ H). Qed.

Lemma log_ok_skipn b n l : log_ok b l -> log_ok (b + N.of_nat n) (skipn n l).
Proof.
  intros H k e Hk. rewrite nth_error_skipn in Hk. destruct (H _ _ Hk) as (A & B & C).
  repeat split; auto; try lia. intros k' e' Hle Hk'. rewrite nth_error_skipn in Hk'.
  apply (C (n + k')%nat); auto. lia.
Qed.

Lemma log_ok_app b a c :
  log_ok b a -> log_ok (b + nlen a) c ->
  (forall e x, nth_error a (length a - 1) = Some e -> nth_error c 0 = Some x -> e_term e <= e_term x) ->
  log_ok b (a ++ c).
Proof.
  intros Ha Hc Hj k e Hk. destruct (Nat.lt_ge_cases k (length a)) as [Hl|Hl].
  - rewrite nth_error_app1 in Hk by auto. destruct (Ha _ _ Hk) as (A & B & C). repeat split; auto.
    intros k' e' Hle Hk'. destruct (Nat.lt_ge_cases k' (length a)) as [Hl'|Hl'].
    + rewrite nth_error_app1 in Hk' by auto. eauto.
    + rewrite nth_error_app2 in Hk' by auto.
      destruct (nth_error a (length a - 1)) as [ea|] eqn:Ea; [|apply nth_error_None in Ea; lia].
      destruct c as [|x c']; [destruct (k' - length a)%nat; discriminate|].
      pose proof (C (length a - 1)%nat ea ltac:(lia) Ea). pose proof (Hj _ _ eq_refl eq_refl).
      destruct (Hc 0%nat x eq_refl) as (_ & _ & C0). pose proof (C0 (k' - length a)%nat e' ltac:(lia) Hk'). lia.
  - rewrite nth_error_app2 in Hk by auto. destruct (Hc _ _ Hk) as (A & B & C). unfold nlen in A.
    repeat split; auto; try lia. intros k' e' Hle Hk'. rewrite nth_error_app2 in Hk' by lia.
    apply (C (k' - length a)%nat); auto. lia.
Qed.

Lemma log_ok_splice b l n x c :
  log_ok b l -> (n <= length l)%nat -> log_ok (b + N.of_nat n) (x :: c) ->
  (forall e, (0 < n)%nat -> nth_error l (n - 1) = Some e -> e_term e <= e_term x) ->
  log_ok b (firstn n l ++ x :: c).
Proof.
  intros Hl Hn Hc Hj. assert (HL : length (firstn n l) = n) by (rewrite firstn_length; lia).
  apply log_ok_app; [apply log_ok_firstn, Hl|unfold nlen; rewrite HL; exact Hc|].
  rewrite HL. intros e y He Hy. injection Hy as <-. destruct n; [discriminate|].
  rewrite nth_error_firstn_lt in He by lia. apply Hj; [lia|exact He].
Qed.

Lemma log_ok_last b l : log_ok b l -> l <> [] -> e_index (last_entry l) = b + nlen l - 1.
Proof.
  intros H Hne. destruct (H _ _ (last_entry_nth l Hne)) as (A & _). rewrite A. unfold nlen.
  destruct l; [congruence|]. cbn [length]. lia.
Qed.

Lemma log_ok_hd b e l : log_ok b (e :: l) -> e_index e = b.
Proof. intros H. destruct (H 0%nat e eq_refl) as (A & _). lia. Qed.

Lemma bool_log_ok b t l :
  contiguous_from b l = true -> terms_from t l = true -> 1 <= t ->
  log_ok b l /\ forall e, In e l -> t <= e_term e.
Proof.
  revert b t. induction l as [|x l IH]; intros b t Hc Ht H1.
  - split; [apply log_ok_nil|]. intros e [].
  - cbn in Hc, Ht. apply andb_true_iff in Hc as [Hc1 Hc2]. apply andb_true_iff in Ht as [Ht1 Ht2].
    destruct (IH (b + 1) (e_term x) Hc2 Ht2) as [IH1 IH2]; [lia|]. split.
    + intros k e Hk. destruct k as [|k].
      * cbn in Hk. inversion Hk; subst e. repeat split; try lia.
        intros k' e' _ Hk'. destruct k'; cbn in Hk'; [inversion Hk'; lia|].
        apply IH2. eapply nth_error_In; eauto.
      * cbn in Hk. destruct (IH1 _ _ Hk) as (A & B & C). repeat split; try lia.
        intros k' e' Hle Hk'. destruct k'; [lia|]. cbn in Hk'. apply (C k'); auto. lia.
    + intros e [->|Hin]; [lia|]. specialize (IH2 _ Hin). lia.
Qed.

Lemma isize_app a b : isize (a ++ b) = isize a + isize b.
Proof.
  unfold isize. induction a as [|x a IH]; cbn [app fold_right]; [reflexivity|]. rewrite IH. lia.
Qed.
Lemma isize_split k l : isize l = isize (firstn k l) + isize (skipn k l).
Proof. rewrite <- isize_app, firstn_skipn. reflexivity. Qed.
Lemma rl_set_ok rl sz n : rl_set rl sz = Some n -> n = sz mod 2 ^ 64.
Proof. unfold rl_set. destruct rl; intros H; inversion H. reflexivity. Qed.
Lemma rl_inc_ok rl a b : (forall n, rl = Some n -> n = isize a mod 2 ^ 64) ->
  forall n, rl_inc rl (isize b) = Some n -> n = isize (a ++ b) mod 2 ^ 64.
Proof.
  intros H n Hn. unfold rl_inc in Hn. destruct rl as [m|]; [|discriminate]. inversion Hn.
  rewrite (H m eq_refl). rewrite isize_app. rewrite N.add_mod_idemp_l by discriminate. reflexivity.
Qed.

(* the unsigned subtraction of Decrease: a + (M - a mod M) is a multiple of M *)
Lemma sub_mod_wrap M a b : M <> 0 -> ((a + b) mod M + M - a mod M) mod M = b mod M.
Proof.
  intros HM. pose proof (N.mod_lt a M HM). pose proof (N.div_mod' a M).
  replace ((a + b) mod M + M - a mod M) with ((a + b) mod M + (M - a mod M)) by lia.
  rewrite N.add_mod_idemp_l by exact HM.
  replace (a + b + (M - a mod M)) with (b + (a / M + 1) * M) by lia.
  apply N.mod_add, HM.
Qed.
Lemma rl_dec_ok rl k l : (forall n, rl = Some n -> n = isize l mod 2 ^ 64) ->
  forall n, rl_dec rl (isize (firstn k l)) = Some n -> n = isize (skipn k l) mod 2 ^ 64.
Proof.
  intros H n Hn. unfold rl_dec in Hn. destruct rl as [m|]; [|discriminate]. inversion Hn.
  rewrite (H m eq_refl), (isize_split k l). apply sub_mod_wrap. discriminate.
Qed.

Record SI (sp : spec) : Prop := {
  si_log : log_ok (sp_mi sp + 1) (sp_ents sp);
  si_mp : sp_mi sp <= sp_processed sp;
  si_pc : sp_processed sp <= sp_committed sp;
  si_cl : sp_committed sp <= sp_last sp;
  si_ps : sp_processed sp <= sp_saved sp;
  si_sl : sp_saved sp <= sp_last sp;
  si_snap : sp_snap sp = true -> sp_saved sp = sp_mi sp /\ 1 <= sp_mi sp;
  si_max : sp_last sp < max_index;
  si_pers : sp_persisted sp = true -> sp_pend sp <> None }.

Lemma SI_make mi mt ents c p s sn pd ps :
  log_ok (mi + 1) ents -> mi <= p -> p <= c -> c <= mi + nlen ents -> p <= s -> s <= mi + nlen ents ->
  (sn = true -> s = mi /\ 1 <= mi) -> mi + nlen ents < max_index -> (ps = true -> pd <> None) ->
  SI (mkSpec mi mt ents c p s sn pd ps).
Proof. intros. constructor; assumption. Qed.

(* how far the store/reader are known to hold the current entries *)
Definition cover (sp : spec) : N := if sp_persisted sp then sp_last sp else sp_saved sp.
(* the reader reflects the logical marker (not between a restore and its persistence) *)
Definition rd_ok (sp : spec) : bool := negb (sp_snap sp) || sp_persisted sp.
Lemma rd_ok_nosnap sp : sp_snap sp = false -> rd_ok sp = true.
Proof. intros E. unfold rd_ok. rewrite E. reflexivity. Qed.

Definition ud_rel (sp : spec) (ud : update) (p : spend) : Prop :=
  ud_save ud = sp_to_save sp /\
  match spd_save_last p with
  | Some (i, t) => uc_stable_to (ud_uc ud) = i /\ uc_stable_term (ud_uc ud) = t /\ i = sp_last sp
                   /\ t = sp_term sp i /\ sp_saved sp < sp_last sp
  | None => uc_stable_to (ud_uc ud) = 0 /\ sp_saved sp = sp_last sp
  end /\
  uc_processed (ud_uc ud) = spd_processed p /\
  (spd_processed p = 0 \/ (sp_processed sp <= spd_processed p /\ spd_processed p <= sp_committed sp)) /\
  uc_last_applied (ud_uc ud) <= sp_processed sp /\
  spd_snap p = sp_snap sp /\
  uc_stable_snap (ud_uc ud) = (if sp_snap sp then sp_mi sp else 0) /\
  ud_snap ud = (if sp_snap sp then Some (sp_mi sp, sp_mt sp) else None).

Record win_ok (im : inmem) (sp : spec) : Prop := {
  wn_saved : im_saved im = sp_saved sp;
  wn_low : im_marker im <= sp_saved sp + 1;
  wn_log : log_ok (im_marker im) (im_ents im);
  wn_get : forall i, sp_mi sp < i -> im_marker im <= i ->
           nth_error (im_ents im) (N.to_nat (i - im_marker im)) = sp_get sp i;
  wn_len : im_marker im + nlen (im_ents im) = sp_last sp + 1;
  wn_mt : im_marker im <= sp_mi sp ->
          exists e, nth_error (im_ents im) (N.to_nat (sp_mi sp - im_marker im)) = Some e /\ e_term e = sp_mt sp;
  wn_snapm : sp_snap sp = true -> im_marker im = sp_mi sp + 1;
  wn_snap : im_snap im = if sp_snap sp then Some (sp_mi sp, sp_mt sp) else None;
  wn_a1 : im_aidx im <= sp_committed sp;
  wn_a2 : im_aidx im <> 0 -> sp_mi sp <= im_aidx im ->
          im_aterm im = sp_term sp (im_aidx im) /\ im_aterm im <> 0;
  wn_rl : forall n, im_rl im = Some n -> n = isize (im_ents im) mod 2 ^ 64 }.

Record rd_rel (lr : reader) (st : store) (sp : spec) : Prop := {
  rd_lr : rd_ok sp = true ->
          lr_marker lr = sp_mi sp /\ lr_mterm lr = sp_mt sp /\ 1 <= lr_len lr
          /\ cover sp <= lr_last lr /\ (cover sp = sp_last sp -> lr_last lr = sp_last sp);
  rd_st : forall i, sp_mi sp < i -> i <= cover sp -> st_get st i = sp_get sp i;
  rd_stmax : sp_mi sp < cover sp -> cover sp <= st_max st;
  rd_ss : lr_ssidx lr <= sp_mi sp /\ (rd_ok sp = false -> lr_ssidx lr < sp_mi sp) }.

Definition q_rel (q : list pend) (sp : spec) : Prop :=
  match sp_pend sp with
  | None => q = []
  | Some p => exists ud, q = [mkPend ud (sp_persisted sp)] /\ ud_rel sp ud p
  end.

Record R (w : world) (sp : spec) : Prop := {
  r_si : SI sp;
  r_c : el_committed (w_el w) = sp_committed sp;
  r_p : el_processed (w_el w) = sp_processed sp;
  r_s : im_saved (el_im (w_el w)) = sp_saved sp;
  r_m2 : im_marker (el_im (w_el w)) <= sp_saved sp + 1;
  (* the in-memory window: a well-formed run from markerIndex to the last index that
     agrees with the logical log above its marker; it may reach below the logical
     first index after a compaction beyond the applied point, then it still knows
     the marker entry's term *)
  r_w1 : log_ok (im_marker (el_im (w_el w))) (im_ents (el_im (w_el w)));
  r_w2 : forall i, sp_mi sp < i -> im_marker (el_im (w_el w)) <= i ->
         nth_error (im_ents (el_im (w_el w))) (N.to_nat (i - im_marker (el_im (w_el w)))) = sp_get sp i;
  r_w3 : im_marker (el_im (w_el w)) + nlen (im_ents (el_im (w_el w))) = sp_last sp + 1;
  r_w4 : im_marker (el_im (w_el w)) <= sp_mi sp ->
         exists e, nth_error (im_ents (el_im (w_el w))) (N.to_nat (sp_mi sp - im_marker (el_im (w_el w)))) = Some e
                   /\ e_term e = sp_mt sp;
  r_snapm : sp_snap sp = true -> im_marker (el_im (w_el w)) = sp_mi sp + 1;
  r_snap : im_snap (el_im (w_el w)) = if sp_snap sp then Some (sp_mi sp, sp_mt sp) else None;
  r_a1 : im_aidx (el_im (w_el w)) <= sp_committed sp;
  r_a2 : im_aidx (el_im (w_el w)) <> 0 -> sp_mi sp <= im_aidx (el_im (w_el w)) ->
         im_aterm (el_im (w_el w)) = sp_term sp (im_aidx (el_im (w_el w))) /\ im_aterm (el_im (w_el w)) <> 0;
  r_lr : rd_ok sp = true ->
         lr_marker (w_lr w) = sp_mi sp /\ lr_mterm (w_lr w) = sp_mt sp /\ 1 <= lr_len (w_lr w)
         /\ cover sp <= lr_last (w_lr w) /\ (cover sp = sp_last sp -> lr_last (w_lr w) = sp_last sp);
  r_st : forall i, sp_mi sp < i -> i <= cover sp -> st_get (w_st w) i = sp_get sp i;
  r_stmax : sp_mi sp < cover sp -> cover sp <= st_max (w_st w);
  r_ss : lr_ssidx (w_lr w) <= sp_mi sp /\ (rd_ok sp = false -> lr_ssidx (w_lr w) < sp_mi sp);
  r_q : match sp_pend sp with
        | None => w_queue w = []
        | Some p => exists ud, w_queue w = [mkPend ud (sp_persisted sp)] /\ ud_rel sp ud p
        end;
  (* what the rate limiter has recorded is exactly the in-memory size of the window *)
  r_rl : forall n, im_rl (el_im (w_el w)) = Some n -> n = isize (im_ents (el_im (w_el w))) mod 2 ^ 64 }.

Lemma R_make w sp : SI sp ->
  el_committed (w_el w) = sp_committed sp -> el_processed (w_el w) = sp_processed sp ->
  win_ok (el_im (w_el w)) sp -> rd_rel (w_lr w) (w_st w) sp -> q_rel (w_queue w) sp -> R w sp.
Proof. intros HS Hc Hp [] [] Hq. constructor; assumption. Qed.
Lemma R_win w sp : R w sp -> win_ok (el_im (w_el w)) sp.
Proof. intros []. constructor; assumption. Qed.
Lemma R_rd w sp : R w sp -> rd_rel (w_lr w) (w_st w) sp.
Proof. intros []. constructor; assumption. Qed.

Section Window.
  Variables (im : inmem) (sp : spec).
  Hypothesis Hw : win_ok im sp.

  Lemma win_nil : im_ents im = [] -> im_marker im = sp_last sp + 1.
  Proof. intros H. pose proof (wn_len _ _ Hw) as L. rewrite H, nlen_nil in L. lia. Qed.

  Lemma win_last_entry : im_ents im <> [] -> e_index (last_entry (im_ents im)) = sp_last sp.
  Proof. intros H. rewrite (log_ok_last _ _ (wn_log _ _ Hw) H). pose proof (wn_len _ _ Hw). lia. Qed.

  Lemma win_skipn lo : sp_mi sp < lo -> im_marker im <= lo ->
    skipn (N.to_nat (lo - im_marker im)) (im_ents im) = skipn (N.to_nat (lo - sp_mi sp - 1)) (sp_ents sp).
  Proof.
    intros H1 H2. apply nth_error_ext_eq. intros k. rewrite !nth_error_skipn.
    replace (N.to_nat (lo - im_marker im) + k)%nat with (N.to_nat (lo + N.of_nat k - im_marker im)) by lia.
    rewrite (wn_get _ _ Hw) by lia. unfold sp_get. replace (lo + N.of_nat k <=? sp_mi sp) with false by lia. f_equal. lia.
  Qed.

  Lemma win_term i e : sp_mi sp <= i -> im_marker im <= i ->
    nth_error (im_ents im) (N.to_nat (i - im_marker im)) = Some e -> e_term e = sp_term sp i.
  Proof.
    intros H1 H2 He. unfold sp_term. destruct (N.eqb_spec i (sp_mi sp)) as [->|Hne].
    - destruct (wn_mt _ _ Hw H2) as (e' & Ge & Gt). congruence.
    - rewrite <- (wn_get _ _ Hw i) by lia. rewrite He. reflexivity.
  Qed.
End Window.

(* committed enters win_ok only as an upper bound of the applied index *)
Lemma win_ok_frame im sp sp' :
  sp_mi sp' = sp_mi sp -> sp_mt sp' = sp_mt sp -> sp_ents sp' = sp_ents sp ->
  sp_saved sp' = sp_saved sp -> sp_snap sp' = sp_snap sp -> sp_committed sp <= sp_committed sp' ->
  win_ok im sp -> win_ok im sp'.
Proof.
  intros E1 E2 E3 E4 E5 Hc [W1 W2 W3 W4 W5 W6 W7 W8 W9 W10 W11].
  constructor; unfold sp_term, sp_get, sp_last; rewrite ?E1, ?E2, ?E3, ?E4, ?E5; try assumption.
  exact (N.le_trans _ _ _ W9 Hc).
Qed.

Lemma rd_rel_frame lr st sp sp' :
  sp_mi sp' = sp_mi sp -> sp_mt sp' = sp_mt sp -> sp_ents sp' = sp_ents sp ->
  rd_ok sp' = rd_ok sp -> cover sp' = cover sp -> rd_rel lr st sp -> rd_rel lr st sp'.
Proof.
  intros E1 E2 E3 E4 E5 [A B C D].
  constructor; unfold sp_get, sp_last; rewrite ?E1, ?E2, ?E3, ?E4, ?E5; assumption.
Qed.

Lemma rd_rel_le lr st sp sp' : rd_rel lr st sp ->
  sp_mi sp' = sp_mi sp -> sp_mt sp' = sp_mt sp -> rd_ok sp' = rd_ok sp -> cover sp' <= cover sp ->
  (forall i, sp_mi sp < i -> i <= cover sp' -> sp_get sp' i = sp_get sp i) ->
  (cover sp' = sp_last sp' -> cover sp = sp_last sp /\ sp_last sp' = sp_last sp) ->
  rd_rel lr st sp'.
Proof.
  intros [A B C D] E1 E2 E3 Hc Hg Hl. constructor; rewrite ?E1, ?E2, ?E3.
  - intros Hok. destruct (A Hok) as (A1 & A2 & A3 & A4 & A5). repeat split; auto; [lia|].
    intros X. destruct (Hl X) as (X1 & X2). rewrite X2. auto.
  - intros i H1 H2. rewrite Hg by assumption. apply B; [assumption|lia].
  - intros H1. assert (H2 : sp_mi sp < cover sp) by lia. specialize (C H2). lia.
  - exact D.
Qed.

Lemma rd_rel_same lr st sp lr' st' : rd_rel lr st sp ->
  lr_marker lr' = lr_marker lr -> lr_mterm lr' = lr_mterm lr -> lr_len lr' = lr_len lr -> lr_ssidx lr' = lr_ssidx lr ->
  (forall i, sp_mi sp < i -> st_get st' i = st_get st i) -> st_max st' = st_max st -> rd_rel lr' st' sp.
Proof.
  intros [A B C D] L1 L2 L3 L4 S1 S2. constructor; unfold lr_last; rewrite ?L1, ?L2, ?L3, ?L4, ?S2; try assumption.
  intros i H1 H2. rewrite S1 by assumption. auto.
Qed.

Lemma sp_get_some sp i e : SI sp -> sp_get sp i = Some e ->
  e_index e = i /\ 1 <= e_term e /\ sp_mi sp < i /\ i <= sp_last sp.
Proof.
  intros HS H. unfold sp_get in H. destruct (i <=? sp_mi sp) eqn:E; [discriminate|].
  destruct (si_log _ HS _ _ H) as (A & B & _).
  assert (N.to_nat (i - sp_mi sp - 1) < length (sp_ents sp))%nat by (apply nth_error_Some; congruence).
  unfold sp_last, nlen. repeat split; lia.
Qed.

Lemma sp_get_in sp i : sp_mi sp < i -> i <= sp_last sp -> exists e, sp_get sp i = Some e.
Proof.
  intros H1 H2. unfold sp_get. destruct (i <=? sp_mi sp) eqn:E; [lia|].
  destruct (nth_error (sp_ents sp) (N.to_nat (i - sp_mi sp - 1))) eqn:E2; eauto.
  apply nth_error_None in E2. unfold sp_last, nlen in H2. lia.
Qed.

Lemma sp_get_none sp i : sp_last sp < i -> sp_get sp i = None.
Proof.
  intros H. unfold sp_get. destruct (i <=? sp_mi sp); auto. apply nth_error_None. unfold sp_last, nlen in H. lia.
Qed.

Lemma win_ok_empty im sp :
  im_ents im = [] -> im_marker im = sp_last sp + 1 -> im_saved im = sp_last sp -> sp_saved sp = sp_last sp ->
  (sp_snap sp = true -> sp_last sp = sp_mi sp) ->
  im_snap im = (if sp_snap sp then Some (sp_mi sp, sp_mt sp) else None) ->
  im_aidx im <= sp_committed sp ->
  (im_aidx im <> 0 -> sp_mi sp <= im_aidx im -> im_aterm im = sp_term sp (im_aidx im) /\ im_aterm im <> 0) ->
  (forall n, im_rl im = Some n -> n = 0) ->
  win_ok im sp.
Proof.
  intros He Hm Hs Hsv Hsn Hsnap Ha1 Ha2 Hrl.
  assert (Hml : sp_mi sp <= sp_last sp) by (unfold sp_last; lia).
  constructor; rewrite ?He, ?Hm, ?Hs, ?Hsv, ?nlen_nil; try assumption.
  - reflexivity.
  - apply N.le_refl.
  - apply log_ok_nil.
  - intros i _ Hi. rewrite sp_get_none by lia. destruct (N.to_nat _); reflexivity.
  - apply N.add_0_r.
  - intros H. lia.
  - intros Es. rewrite (Hsn Es). reflexivity.
Qed.

Lemma v_first w sp : R w sp -> el_first (w_el w) (w_lr w) = sp_first sp.
Proof.
  intros HR. unfold el_first, im_snap_index, sp_first. rewrite (r_snap _ _ HR).
  destruct (sp_snap sp) eqn:E; [reflexivity|].
  destruct (r_lr _ _ HR (rd_ok_nosnap _ E)) as (A & _). unfold lr_first. lia.
Qed.

Lemma cover_ge_saved sp : SI sp -> sp_saved sp <= cover sp.
Proof. intros HS. unfold cover. destruct (sp_persisted sp); [apply (si_sl _ HS)|lia]. Qed.
Lemma cover_le_last sp : SI sp -> cover sp <= sp_last sp.
Proof. intros HS. unfold cover. destruct (sp_persisted sp); [lia|apply (si_sl _ HS)]. Qed.

Lemma v_last w sp : R w sp -> el_last (w_el w) (w_lr w) = sp_last sp.
Proof.
  intros HR. unfold el_last, im_last_index.
  destruct (im_ents (el_im (w_el w))) eqn:E.
  - pose proof (win_nil _ _ (R_win _ _ HR) E) as Hm. pose proof (r_m2 _ _ HR) as M2.
    pose proof (si_sl _ (r_si _ _ HR)) as SL.
    unfold im_snap_index. rewrite (r_snap _ _ HR). destruct (sp_snap sp) eqn:Es.
    + destruct (si_snap _ (r_si _ _ HR) Es). unfold sp_last in *. lia.
    + destruct (r_lr _ _ HR (rd_ok_nosnap _ Es)) as (_ & _ & _ & _ & A).
      apply A. pose proof (cover_ge_saved _ (r_si _ _ HR)). pose proof (cover_le_last _ (r_si _ _ HR)). lia.
  - rewrite <- E. apply (win_last_entry _ _ (R_win _ _ HR)). congruence.
Qed.

Lemma sp_term_out sp i : SI sp -> (i < sp_mi sp \/ sp_last sp < i) -> sp_term sp i = 0.
Proof.
  intros HS H. unfold sp_term. destruct (i =? sp_mi sp) eqn:E.
  - destruct H; [lia|]. unfold sp_last in H. lia.
  - destruct (sp_get sp i) eqn:G; auto. apply (sp_get_some _ _ _ HS) in G. lia.
Qed.
Lemma sp_term_in sp i : SI sp -> sp_term sp i <> 0 -> sp_mi sp <= i /\ i <= sp_last sp.
Proof.
  intros HS H. destruct (N.lt_ge_cases i (sp_mi sp)) as [A|A]; [rewrite sp_term_out in H; auto; lia|].
  destruct (N.lt_ge_cases (sp_last sp) i) as [B|B]; [rewrite sp_term_out in H; auto; lia|]. lia.
Qed.

Lemma st_first_present_here fuel st i e : st_get st i = Some e -> st_first_present fuel st i = i.
Proof. intros H. destruct fuel; cbn [st_first_present]; [reflexivity|]. rewrite H. reflexivity. Qed.

(* when the first index asked for is present, a permissive store iterates like a strict one *)
Lemma st_iterate_present st low high m e : st_get st low = Some e ->
  st_iterate st low high m = st_iter (N.to_nat (N.min high (st_max st + 1) - low)) st low 0 m.
Proof.
  intros H. unfold st_iterate. destruct (st_skip st); [|reflexivity].
  rewrite (st_first_present_here _ _ _ _ H). reflexivity.
Qed.

(* the store's iteration followed by LogReader's drop rule is limitSize: iter_list is the
   iteration over a list, lr_drop the rule *)
Fixpoint iter_list (A : list entry) (size m : N) : list entry * N :=
  match A with
  | [] => ([], size)
  | e :: r => let s' := size + esize e in
              if m <? s' then ([e], s') else let '(r', sz) := iter_list r s' m in (e :: r', sz)
  end.

Lemma st_iter_list A : forall st i size m,
  (forall k, (k < length A)%nat -> st_get st (i + N.of_nat k) = nth_error A k) ->
  st_iter (length A) st i size m = iter_list A size m.
Proof.
  induction A as [|e A IH]; intros st i size m H; [reflexivity|].
  cbn [length st_iter iter_list]. pose proof (H 0%nat) as H0. cbn [nth_error] in H0.
  rewrite N.add_0_r in H0. rewrite H0 by (cbn; lia).
  destruct (m <? size + esize e); [reflexivity|].
  rewrite IH; [reflexivity|]. intros k Hk. specialize (H (S k)). cbn [nth_error] in H.
  rewrite <- H by (cbn; lia). f_equal. lia.
Qed.

Lemma limit_rest_prefix t m A : exists n, limit_rest t m A = firstn n A.
Proof.
  revert t. induction A as [|e A IH]; intros t; [exists 0%nat; reflexivity|]. cbn [limit_rest].
  destruct (m <? t + esize e); [exists 0%nat; reflexivity|].
  destruct (IH (t + esize e)) as [n Hn]. exists (S n). cbn [firstn]. rewrite Hn. reflexivity.
Qed.
Lemma limit_size_prefix A m : A <> [] -> exists n, limit_size A m = firstn (S n) A.
Proof.
  destruct A as [|e A]; [congruence|]. intros _. cbn [limit_size].
  destruct (limit_rest_prefix (esize e) m A) as [n Hn]. exists n. cbn [firstn]. rewrite Hn. reflexivity.
Qed.
Lemma limit_rest_app_short t m A B : length (limit_rest t m A) <> length A ->
  limit_rest t m (A ++ B) = limit_rest t m A.
Proof.
  revert t. induction A as [|e A IH]; intros t; cbn; [congruence|].
  destruct (m <? t + esize e); cbn; auto. intros H. f_equal. apply IH. lia.
Qed.
Lemma limit_size_len A m : (length (limit_size A m) <= length A)%nat.
Proof.
  destruct A as [|e A]; [reflexivity|]. destruct (limit_size_prefix (e :: A) m) as [n ->]; [discriminate|].
  rewrite firstn_length. lia.
Qed.
Lemma limit_size_full A m : length (limit_size A m) = length A -> limit_size A m = A.
Proof.
  destruct A as [|e A]; [reflexivity|]. destruct (limit_size_prefix (e :: A) m) as [n ->]; [discriminate|].
  rewrite firstn_length. intros H. apply firstn_all2. lia.
Qed.
Lemma limit_size_app_short A B m : length (limit_size A m) <> length A ->
  limit_size (A ++ B) m = limit_size A m.
Proof. destruct A; cbn; [congruence|]. intros H. f_equal. apply limit_rest_app_short. lia. Qed.

Definition lr_drop (m : N) (r : list entry * N) : list entry :=
  let '(ents, size) := r in
  if (0 <? m) && (m <? size) && (1 <? nlen ents) then removelast ents
  else if (m =? 0) && (m <? size) && (1 <? nlen ents) then firstn 1 ents
  else ents.

Lemma iter_rest r : forall total m, total <= m ->
  let '(r', sz) := iter_list r total m in
  total <= sz /\
  (m < sz -> r' <> [] /\ removelast r' = limit_rest total m r) /\
  (sz <= m -> r' = r /\ limit_rest total m r = r).
Proof.
  induction r as [|e r IH]; intros total m Hle; cbn [iter_list limit_rest].
  - repeat split; auto; lia.
  - destruct (m <? total + esize e) eqn:E.
    + repeat split; try lia; try congruence.
    + specialize (IH (total + esize e) m). destruct (iter_list r (total + esize e) m) as [r' sz].
      destruct IH as (A & B & C); [lia|]. pose proof (esize_pos e). repeat split; try lia.
      * congruence.
      * destruct (B H0) as (B1 & B2). destruct r'; [congruence|]. cbn [removelast]. f_equal. exact B2.
      * destruct (C H0). congruence.
      * destruct (C H0). congruence.
Qed.

Lemma lr_drop_single m e s : lr_drop m ([e], s) = [e].
Proof.
  unfold lr_drop, nlen. cbn [length]. change (1 <? N.of_nat 1) with false.
  rewrite !andb_false_r. reflexivity.
Qed.
Lemma lr_drop_nolimit m l s : s <= m -> lr_drop m (l, s) = l.
Proof.
  intros H. unfold lr_drop. replace (m <? s) with false by lia.
  rewrite !andb_false_r. reflexivity.
Qed.
Lemma iter_limit A m : A <> [] ->
  lr_drop m (iter_list A 0 m) = limit_size A m /\
  (length (fst (iter_list A 0 m)) = length A \/ m < snd (iter_list A 0 m)).
Proof.
  destruct A as [|e r]; [congruence|]. intros _. cbn [iter_list limit_size]. pose proof (esize_pos e) as Hp.
  rewrite N.add_0_l. destruct (m <? esize e) eqn:E.
  - rewrite lr_drop_single. cbn [fst snd length]. split; [|right; lia].
    f_equal. destruct r; cbn [limit_rest]; auto. destruct (m <? esize e + esize e0) eqn:E2; auto. pose proof (esize_pos e0). lia.
  - pose proof (iter_rest r (esize e) m) as H. destruct (iter_list r (esize e) m) as [r' sz].
    destruct H as (A & B & C); [lia|]. cbn [fst snd]. destruct (m <? sz) eqn:E3.
    + destruct B as (B1 & B2); [lia|]. split; [|right; lia].
      unfold lr_drop. assert (Hm : 0 <? m = true) by lia. rewrite Hm, E3.
      assert (Hl : 1 <? nlen (e :: r') = true) by (destruct r'; [congruence|]; rewrite !nlen_cons; lia).
      rewrite Hl. cbn [andb]. destruct r'; [congruence|]. cbn [removelast]. f_equal. exact B2.
    + destruct C as (C1 & C2); [lia|]. subst r'. split; [|left; reflexivity].
      rewrite lr_drop_nolimit by lia. f_equal. auto.
Qed.

Lemma slice_len sp lo hi : sp_mi sp < lo -> hi <= sp_last sp + 1 ->
  length (sp_slice sp lo hi) = N.to_nat (hi - lo).
Proof.
  intros H1 H3. unfold sp_slice. rewrite firstn_length, skipn_length. unfold sp_last, nlen in H3. lia.
Qed.

Lemma slice_nth sp lo hi k : sp_mi sp < lo -> (k < N.to_nat (hi - lo))%nat ->
  nth_error (sp_slice sp lo hi) k = sp_get sp (lo + N.of_nat k).
Proof.
  intros H1 H2. unfold sp_slice, sp_get. rewrite nth_error_firstn_lt by auto. rewrite nth_error_skipn.
  destruct (lo + N.of_nat k <=? sp_mi sp) eqn:E; [lia|]. f_equal. lia.
Qed.

Lemma slice_split sp lo up hi : sp_mi sp < lo -> lo <= up -> up <= hi ->
  sp_slice sp lo hi = sp_slice sp lo up ++ sp_slice sp up hi.
Proof.
  intros H1 H2 H3. unfold sp_slice.
  replace (N.to_nat (hi - lo)) with (N.to_nat (up - lo) + N.to_nat (hi - up))%nat by lia.
  rewrite firstn_add. f_equal. f_equal. rewrite skipn_skipn. f_equal. lia.
Qed.

Lemma slice_log sp lo hi : SI sp -> sp_mi sp < lo -> log_ok lo (sp_slice sp lo hi).
Proof.
  intros HS H1. unfold sp_slice. apply log_ok_firstn.
  replace lo with (sp_mi sp + 1 + N.of_nat (N.to_nat (lo - sp_mi sp - 1))) at 1 by lia.
  apply log_ok_skipn. apply (si_log _ HS).
Qed.

Lemma check_append_ok b A B : log_ok b (A ++ B) -> check_entries_to_append A B = None.
Proof.
  intros H. unfold check_entries_to_append. destruct A as [|a A']; [reflexivity|]. destruct B as [|x B']; [reflexivity|].
  set (A := a :: A') in *. assert (Hne : A <> []) by (subst A; congruence).
  pose proof (last_entry_nth A Hne) as HL.
  assert (H1 : nth_error (A ++ x :: B') (length A - 1) = Some (last_entry A)).
  { rewrite nth_error_app1; auto. subst A. cbn. lia. }
  assert (H2 : nth_error (A ++ x :: B') (length A) = Some x).
  { rewrite nth_error_app2 by lia. rewrite Nat.sub_diag. reflexivity. }
  destruct (H _ _ H1) as (I1 & _ & M). destruct (H _ _ H2) as (I2 & _).
  specialize (M (length A) x). assert (length A >= 1)%nat by (subst A; cbn; lia).
  destruct (e_index (last_entry A) + 1 =? e_index x) eqn:E1; cbn [negb]; [|lia].
  destruct (e_term x <? e_term (last_entry A)) eqn:E2; [|reflexivity].
  assert (e_term (last_entry A) <= e_term x) by (apply M; auto; lia). lia.
Qed.

Lemma v_lr_locked lr st sp lo up m : SI sp -> rd_rel lr st sp -> rd_ok sp = true ->
  sp_mi sp < lo -> lo < up -> up <= cover sp + 1 ->
  lr_entries_locked lr st lo up m = Ok (iter_list (sp_slice sp lo up) 0 m).
Proof.
  intros HS Hrd Hok H1 H2 H3. destruct (rd_lr _ _ _ Hrd Hok) as (A & B & C & D & _).
  pose proof (cover_le_last _ HS) as CL. pose proof (rd_stmax _ _ _ Hrd) as SM.
  unfold lr_entries_locked. rewrite A.
  replace (up <? lo) with false by lia. replace (lo <=? sp_mi sp) with false by lia.
  replace (lr_last lr + 1 <? up) with false by lia.
  destruct (sp_get_in sp lo) as [e0 Ge0]; [lia|lia|].
  rewrite (st_iterate_present _ _ _ _ e0) by (rewrite (rd_st _ _ _ Hrd) by lia; exact Ge0).
  replace (N.min up (st_max st + 1)) with up by lia.
  set (S := sp_slice sp lo up).
  assert (HL : length S = N.to_nat (up - lo)) by (apply slice_len; lia).
  rewrite <- HL, (st_iter_list S).
  2:{ intros k Hk. unfold S. rewrite slice_nth by lia. apply (rd_st _ _ _ Hrd); lia. }
  destruct (iter_limit S m) as (_ & IL2); [destruct S; cbn in HL; [lia|congruence]|].
  destruct (iter_list S 0 m) as [B' sz]. cbn [fst snd] in IL2.
  replace ((nlen B' =? up - lo) || (m <? sz)) with true; [reflexivity|]. unfold nlen. lia.
Qed.

Lemma v_lr_entries lr st sp lo up m : SI sp -> rd_rel lr st sp -> rd_ok sp = true ->
  sp_mi sp < lo -> lo < up -> up <= cover sp + 1 ->
  lr_entries lr st lo up m = Ok (limit_size (sp_slice sp lo up) m).
Proof.
  intros HS Hrd Hok H1 H2 H3. unfold lr_entries. rewrite (v_lr_locked _ _ _ _ _ _ HS Hrd Hok H1 H2 H3). cbn [bind].
  destruct (iter_limit (sp_slice sp lo up) m) as (IL1 & _).
  { intros E. pose proof (slice_len sp lo up H1) as HL. rewrite E in HL. pose proof (cover_le_last _ HS). cbn in HL. lia. }
  unfold lr_drop in IL1. destruct (iter_list (sp_slice sp lo up) 0 m) as [B' sz].
  destruct ((0 <? m) && (m <? sz) && (1 <? nlen B')); [congruence|].
  destruct ((m =? 0) && (m <? sz) && (1 <? nlen B')); congruence.
Qed.

Lemma v_lr_term lr st sp i : SI sp -> rd_rel lr st sp -> rd_ok sp = true -> sp_mi sp <= i -> i <= cover sp ->
  lr_term lr st i = Ok (sp_term sp i).
Proof.
  intros HS Hrd Hok H1 H2. destruct (rd_lr _ _ _ Hrd Hok) as (A & B & _).
  unfold lr_term, sp_term. rewrite A. destruct (i =? sp_mi sp) eqn:E; [congruence|].
  rewrite (v_lr_locked _ _ _ i (i + 1) 0 HS Hrd Hok) by lia. cbn [bind].
  pose proof (cover_le_last _ HS).
  pose proof (slice_len sp i (i + 1)) as HL. pose proof (slice_nth sp i (i + 1) 0) as HN.
  rewrite N.add_0_r in HN. rewrite <- HN by lia.
  destruct (sp_slice sp i (i + 1)) as [|x l]; [cbn in HL; lia|].
  cbn [iter_list nth_error]. destruct (0 <? 0 + esize x); [reflexivity|]. destruct (iter_list l _ _). reflexivity.
Qed.

Lemma v_term w sp i : R w sp -> el_term (w_el w) (w_lr w) (w_st w) i = Ok (sp_term sp i).
Proof.
  intros HR. pose proof (r_si _ _ HR) as HS. pose proof (R_win _ _ HR) as Hw. unfold el_term. rewrite (v_first _ _ HR), (v_last _ _ HR). unfold sp_first.
  destruct ((i <? sp_mi sp + 1 - 1) || (sp_last sp <? i)) eqn:E0.
  - rewrite sp_term_out; auto. lia.
  - assert (H1 : sp_mi sp <= i) by lia. assert (H2 : i <= sp_last sp) by lia.
    unfold im_get_term. set (im := el_im (w_el w)) in *.
    destruct ((0 <? i) && (i =? im_aidx im)) eqn:E1.
    + assert (i = im_aidx im) by lia. subst i.
      destruct (wn_a2 _ _ Hw) as (A & B); [lia|auto|].
      destruct (im_aterm im =? 0) eqn:E2; [lia|]. cbn [bind]. congruence.
    + destruct (i <? im_marker im) eqn:E2.
      * rewrite (wn_snap _ _ Hw). destruct (sp_snap sp) eqn:Es.
        -- destruct (si_snap _ HS Es). pose proof (wn_low _ _ Hw). assert (i = sp_mi sp) by lia. subst i.
           rewrite N.eqb_refl. cbn [bind]. unfold sp_term. rewrite N.eqb_refl. reflexivity.
        -- cbn [bind]. apply v_lr_term; auto using rd_ok_nosnap. { apply (R_rd _ _ HR). }
           pose proof (wn_low _ _ Hw). pose proof (cover_ge_saved _ HS). lia.
      * assert (HM : im_marker im <= i) by lia.
        unfold im_last_index. destruct (im_ents im) eqn:En; [pose proof (win_nil _ _ Hw En); lia|].
        rewrite <- En, (win_last_entry _ _ Hw) by congruence. replace (i <=? sp_last sp) with true by lia.
        destruct (nth_error (im_ents im) (N.to_nat (i - im_marker im))) as [x|] eqn:Ee.
        -- rewrite (win_term _ _ Hw i x H1 HM Ee). reflexivity.
        -- apply nth_error_None in Ee. pose proof (wn_len _ _ Hw). unfold nlen in *. lia.
Qed.

Lemma v_im_entries im sp lo hi : win_ok im sp -> sp_mi sp < lo ->
  im_marker im <= lo -> lo <= hi -> hi <= sp_last sp + 1 ->
  im_get_entries im lo hi = Ok (sp_slice sp lo hi).
Proof.
  intros Hw H0 H1 H2 H3. unfold im_get_entries. rewrite (wn_len _ _ Hw).
  replace ((hi <? lo) || (lo <? im_marker im)) with false by lia. replace (sp_last sp + 1 <? hi) with false by lia.
  f_equal. unfold sp_slice. f_equal. apply (win_skipn _ _ Hw); auto.
Qed.

Lemma slice_nil sp lo : sp_slice sp lo lo = [].
Proof. unfold sp_slice. rewrite N.sub_diag. reflexivity. Qed.

Lemma v_from_logdb w sp lo hi m : R w sp -> sp_mi sp < lo -> lo < hi -> lo < im_marker (el_im (w_el w)) ->
  let A := sp_slice sp lo (N.min hi (im_marker (el_im (w_el w)))) in
  el_from_logdb (w_el w) (w_lr w) (w_st w) lo hi m = Ok (limit_size A m, length (limit_size A m) =? length A)%nat.
Proof.
  intros HR H1 H2 H3 A. pose proof (r_si _ _ HR) as HS. pose proof (R_win _ _ HR) as Hw.
  pose proof (wn_low _ _ Hw). pose proof (cover_ge_saved _ HS). pose proof (cover_le_last _ HS).
  assert (Hok : rd_ok sp = true).
  { apply rd_ok_nosnap. destruct (sp_snap sp) eqn:Es; [pose proof (wn_snapm _ _ Hw Es); lia|reflexivity]. }
  unfold el_from_logdb. replace (im_marker (el_im (w_el w)) <=? lo) with false by lia.
  rewrite (v_lr_entries _ _ _ _ _ m HS (R_rd _ _ HR) Hok) by lia. cbn [bind]. fold A.
  pose proof (slice_len sp lo (N.min hi (im_marker (el_im (w_el w)))) H1) as HL. fold A in HL.
  pose proof (limit_size_len A m). unfold nlen.
  replace (N.min hi (im_marker (el_im (w_el w))) - lo <? N.of_nat (length (limit_size A m))) with false by lia.
  do 2 f_equal. rewrite HL by lia. destruct (Nat.eqb_spec (length (limit_size A m)) (length A)); lia.
Qed.

Lemma v_from_inmem el sp lo hi : SI sp -> win_ok (el_im el) sp -> sp_mi sp < lo -> lo <= hi -> hi <= sp_last sp + 1 ->
  el_from_inmem el (sp_slice sp lo (N.max lo (N.min hi (im_marker (el_im el))))) lo hi = Ok (sp_slice sp lo hi).
Proof.
  intros HS Hw H1 H2 H3. unfold el_from_inmem. destruct (hi <=? im_marker (el_im el)) eqn:E.
  - f_equal. f_equal. lia.
  - replace (N.min hi (im_marker (el_im el))) with (im_marker (el_im el)) by lia.
    set (mid := N.max lo (im_marker (el_im el))).
    rewrite (v_im_entries _ _ _ _ Hw) by lia. cbn [bind].
    rewrite (slice_split sp lo mid hi) by lia.
    destruct (sp_slice sp mid hi) as [|b B] eqn:EB; [rewrite app_nil_r; reflexivity|].
    destruct (sp_slice sp lo mid) as [|a A] eqn:EA; [reflexivity|].
    rewrite (check_append_ok lo); [reflexivity|]. rewrite <- EA, <- EB, <- slice_split by lia. apply slice_log; assumption.
Qed.

Theorem v_entries w sp lo hi m : R w sp ->
  el_get_entries (w_el w) (w_lr w) (w_st w) lo hi m = sp_entries sp lo hi m.
Proof.
  intros HR. pose proof (r_si _ _ HR) as HS. pose proof (R_win _ _ HR) as Hw.
  unfold el_get_entries, sp_entries, el_check_bound.
  destruct (hi <? lo) eqn:E0; [reflexivity|].
  rewrite (wn_snap _ _ Hw), (v_first _ _ HR), (v_last _ _ HR).
  (* with a snapshot pending the window is the whole logical log *)
  assert (Hb : (match (if sp_snap sp then Some (sp_mi sp, sp_mt sp) else None) with Some _ => true | None => false end)
               && is_nil (im_ents (el_im (w_el w))) = sp_snap sp && is_nil (sp_ents sp)).
  { destruct (sp_snap sp) eqn:Es; [|reflexivity]. cbn [andb]. f_equal.
    pose proof (win_skipn _ _ Hw (sp_mi sp + 1)) as FW. rewrite (wn_snapm _ _ Hw Es) in FW.
    replace (N.to_nat (sp_mi sp + 1 - (sp_mi sp + 1))) with 0%nat in FW by lia.
    replace (N.to_nat (sp_mi sp + 1 - sp_mi sp - 1)) with 0%nat in FW by lia. apply FW; lia. }
  rewrite Hb. clear Hb. destruct (sp_snap sp && is_nil (sp_ents sp)); [reflexivity|].
  destruct (lo <? sp_first sp) eqn:E1; [reflexivity|]. destruct (sp_last sp + 1 <? hi) eqn:E2; [reflexivity|].
  cbn [bind]. destruct (lo =? hi) eqn:E3; [reflexivity|]. unfold sp_first in *.
  pose proof (v_from_inmem (w_el w) sp lo hi HS Hw) as FI. set (mk := im_marker (el_im (w_el w))) in *.
  destruct (N.le_gt_cases mk lo) as [Hle|Hgt].
  - unfold el_from_logdb. fold mk. replace (mk <=? lo) with true by lia. cbn [bind negb].
    replace (N.max lo (N.min hi mk)) with lo in FI by lia. rewrite slice_nil in FI. rewrite FI by lia. reflexivity.
  - rewrite (v_from_logdb _ _ _ _ m HR) by lia. cbn [bind]. fold mk. set (A := sp_slice sp lo (N.min hi mk)) in *.
    destruct (Nat.eqb_spec (length (limit_size A m)) (length A)) as [Hf|Hs]; cbn [negb].
    + rewrite (limit_size_full _ _ Hf). replace (N.max lo (N.min hi mk)) with (N.min hi mk) in FI by lia.
      fold A in FI. rewrite FI by lia. reflexivity.
    + rewrite (slice_split sp lo (N.min hi mk) hi) by lia. fold A. rewrite limit_size_app_short by exact Hs. reflexivity.
Qed.

Lemma v_to_save im sp : SI sp -> win_ok im sp -> im_entries_to_save im = sp_to_save sp.
Proof.
  intros HS Hw. unfold im_entries_to_save, sp_to_save, two64.
  pose proof (wn_low _ _ Hw). pose proof (wn_len _ _ Hw). pose proof (si_mp _ HS). pose proof (si_ps _ HS).
  pose proof (si_sl _ HS). pose proof (si_max _ HS) as MX. unfold max_index in MX. rewrite (wn_saved _ _ Hw).
  assert (2 ^ 62 < 2 ^ 64) by (apply N.pow_lt_mono_r; lia).
  replace ((sp_saved sp + 1 + 2 ^ 64 - im_marker im) mod 2 ^ 64) with (sp_saved sp + 1 - im_marker im).
  2:{ replace (sp_saved sp + 1 + 2 ^ 64 - im_marker im) with ((sp_saved sp + 1 - im_marker im) + 1 * 2 ^ 64) by lia.
      rewrite N.mod_add by lia. rewrite N.mod_small; lia. }
  replace (nlen (im_ents im) <? sp_saved sp + 1 - im_marker im) with false by lia.
  rewrite (win_skipn _ _ Hw (sp_saved sp + 1)) by lia. f_equal. lia.
Qed.

Lemma v_has w sp : R w sp -> el_has_to_apply (w_el w) (w_lr w) = sp_has_to_apply sp.
Proof.
  intros HR. unfold el_has_to_apply, sp_has_to_apply, el_first_not_applied, sp_first_not_applied.
  rewrite (v_first _ _ HR), (r_p _ _ HR), (r_c _ _ HR). reflexivity.
Qed.

Lemma v_to_apply w sp limit : R w sp ->
  el_to_apply (w_el w) (w_lr w) (w_st w) limit = sp_to_apply sp limit.
Proof.
  intros HR. unfold el_to_apply, sp_to_apply. rewrite (v_has _ _ HR).
  destruct (sp_has_to_apply sp); [|reflexivity].
  unfold el_first_not_applied, sp_first_not_applied.
  rewrite (v_first _ _ HR), (r_p _ _ HR), (r_c _ _ HR). apply v_entries. exact HR.
Qed.

Definition views_eq (w : world) (sp : spec) : Prop :=
  el_first (w_el w) (w_lr w) = sp_first sp /\
  el_last (w_el w) (w_lr w) = sp_last sp /\
  (forall i, el_term (w_el w) (w_lr w) (w_st w) i = Ok (sp_term sp i)) /\
  (forall lo hi m, el_get_entries (w_el w) (w_lr w) (w_st w) lo hi m = sp_entries sp lo hi m) /\
  el_to_save (w_el w) = sp_to_save sp /\
  (forall limit, el_to_apply (w_el w) (w_lr w) (w_st w) limit = sp_to_apply sp limit) /\
  el_has_to_apply (w_el w) (w_lr w) = sp_has_to_apply sp /\
  el_committed (w_el w) = sp_committed sp /\ el_processed (w_el w) = sp_processed sp.

Lemma R_views w sp : R w sp -> views_eq w sp.
Proof.
  intros HR. unfold views_eq. repeat split.
  - apply v_first; auto.
  - apply v_last; auto.
  - intros; apply v_term; auto.
  - intros; apply v_entries; auto.
  - apply v_to_save; [apply (r_si _ _ HR)|apply (R_win _ _ HR)].
  - intros; apply v_to_apply; auto.
  - apply v_has; auto.
  - apply (r_c _ _ HR).
  - apply (r_p _ _ HR).
Qed.

Lemma idle_inv sp : SI sp -> idle sp = true -> sp_pend sp = None /\ sp_persisted sp = false.
Proof.
  intros HS H. unfold idle in H. destruct (sp_pend sp) eqn:E; [discriminate|]. split; [reflexivity|].
  destruct (sp_persisted sp) eqn:Ep; [|reflexivity]. destruct (si_pers _ HS Ep E).
Qed.

Lemma q_idle w sp : R w sp -> sp_pend sp = None -> w_queue w = [].
Proof. intros HR E. pose proof (r_q _ _ HR) as Q. rewrite E in Q. exact Q. Qed.

Lemma with_el_id w : with_el w (w_el w) = w.
Proof. destruct w; reflexivity. Qed.

Lemma el_commit_to_R w sp k : R w sp -> idle sp = true -> k <= sp_last sp ->
  exists el', el_commit_to (w_el w) (w_lr w) k = Ok el' /\ R (with_el w el') (sp_commit_to sp k).
Proof.
  intros HR Hidle Hk. pose proof (r_si _ _ HR) as HS. destruct (idle_inv _ HS Hidle) as (Ep & _).
  unfold el_commit_to, sp_commit_to. rewrite (r_c _ _ HR), (v_last _ _ HR).
  destruct (k <=? sp_committed sp) eqn:E1.
  - exists (w_el w). rewrite with_el_id. auto.
  - replace (sp_last sp <? k) with false by lia. eexists; split; [reflexivity|].
    apply R_make; cbn [with_el w_el w_lr w_st w_queue el_im el_committed el_processed sp_committed sp_processed].
    + destruct HS. apply SI_make; unfold sp_last in *; auto; lia.
    + reflexivity.
    + apply (r_p _ _ HR).
    + apply (win_ok_frame _ sp); try reflexivity; [cbn; lia|apply (R_win _ _ HR)].
    + apply (rd_rel_frame _ _ sp); try reflexivity. apply (R_rd _ _ HR).
    + unfold q_rel. cbn [sp_pend]. rewrite Ep. apply (q_idle _ _ HR Ep).
Qed.

Lemma step_commit_to w sp k : R w sp -> wf_op sp (OCommitTo k) = true ->
  exists w', step w (OCommitTo k) = Ok w' /\ R w' (sp_commit_to sp k) /\ w_limit w' = w_limit w.
Proof.
  intros HR Hwf. cbn [wf_op] in Hwf. apply andb_true_iff in Hwf as [Hidle Hk].
  destruct (el_commit_to_R w sp k HR Hidle) as (el' & He & HR'); [lia|].
  cbn [step]. unfold w_commit_to. rewrite He. cbn [bind]. eauto.
Qed.

Lemma check_marker_hd im : log_ok (im_marker im) (im_ents im) -> im_check_marker im = true.
Proof.
  intros H. unfold im_check_marker. destruct (im_ents im) eqn:E; auto.
  pose proof (log_ok_hd _ _ _ H). lia.
Qed.

Section Append.
  Variables (sp : spec) (e0 : entry) (rest : list entry).
  Local Notation f := (e_index e0).
  Local Notation ents := (e0 :: rest).
  Local Notation sp' := (sp_append sp ents).
  Local Notation keep := (N.to_nat (f - sp_mi sp - 1)).
  Hypothesis Hm : sp_mi sp < f.
  Hypothesis Hl : f <= sp_last sp + 1.

  Lemma app_keep : length (firstn keep (sp_ents sp)) = keep.
  Proof. rewrite firstn_length. unfold sp_last, nlen in Hl. lia. Qed.

  Lemma sp_append_last : sp_last sp' = f - 1 + nlen ents.
  Proof. unfold sp_last. cbn [sp_append sp_mi sp_ents]. rewrite nlen_app. unfold nlen at 1. rewrite app_keep. lia. Qed.

  Lemma sp_append_old i : sp_mi sp < i -> i < f -> sp_get sp' i = sp_get sp i.
  Proof.
    intros H1 H2. unfold sp_get. cbn [sp_append sp_mi sp_ents]. destruct (i <=? sp_mi sp); [reflexivity|].
    rewrite nth_error_app1 by (rewrite app_keep; lia). apply nth_error_firstn_lt. lia.
  Qed.

  Lemma sp_append_new i : f <= i -> sp_get sp' i = nth_error ents (N.to_nat (i - f)).
  Proof.
    intros H. unfold sp_get. cbn [sp_append sp_mi sp_ents]. replace (i <=? sp_mi sp) with false by lia.
    rewrite nth_error_app2; rewrite app_keep; [f_equal|]; lia.
  Qed.

  Lemma sp_append_term i : sp_mi sp <= i -> i < f -> sp_term sp' i = sp_term sp i.
  Proof.
    intros H1 H2. unfold sp_term. cbn [sp_append sp_mi sp_mt]. destruct (N.eqb_spec i (sp_mi sp)); [reflexivity|].
    rewrite sp_append_old by lia. reflexivity.
  Qed.
End Append.

Definition app_pre (sp : spec) (e0 : entry) (rest : list entry) : Prop :=
  log_ok (e_index e0) (e0 :: rest) /\ sp_committed sp < e_index e0 /\ e_index e0 <= sp_last sp + 1 /\
  sp_term sp (e_index e0 - 1) <= e_term e0 /\ e_index e0 - 1 + nlen (e0 :: rest) < max_index.

Lemma sp_append_SI sp e0 rest : SI sp -> app_pre sp e0 rest -> SI (sp_append sp (e0 :: rest)).
Proof.
  intros HS (Hlog & Hc & Hl & Hj & Hmax).
  pose proof (si_mp _ HS). pose proof (si_pc _ HS). pose proof (si_cl _ HS). pose proof (si_ps _ HS). pose proof (si_sl _ HS).
  assert (Hm : sp_mi sp < e_index e0) by lia.
  pose proof (sp_append_last sp e0 rest Hm Hl) as L.
  constructor; rewrite ?L; cbn [sp_append sp_mi sp_mt sp_ents sp_committed sp_processed sp_saved sp_snap sp_pend sp_persisted];
    rewrite ?nlen_cons in *; try lia.
  - apply log_ok_splice; [apply (si_log _ HS)|unfold sp_last, nlen in Hl; lia| |].
    + replace (sp_mi sp + 1 + N.of_nat (N.to_nat (e_index e0 - sp_mi sp - 1))) with (e_index e0) by lia. exact Hlog.
    + intros e Hpos He. unfold sp_term, sp_get in Hj.
      replace (e_index e0 - 1 =? sp_mi sp) with false in Hj by lia. replace (e_index e0 - 1 <=? sp_mi sp) with false in Hj by lia.
      replace (N.to_nat (e_index e0 - 1 - sp_mi sp - 1)) with (N.to_nat (e_index e0 - sp_mi sp - 1) - 1)%nat in Hj by lia.
      rewrite He in Hj. exact Hj.
  - intros Es. destruct (si_snap _ HS Es). lia.
  - apply (si_pers _ HS).
Qed.

Lemma check_marker_ok im im' : (if im_check_marker im then Ok im else Panic PMarker) = Ok im' -> im' = im.
Proof. destruct (im_check_marker im); congruence. Qed.

Lemma im_merge_saved im e0 rest im' : im_merge im (e0 :: rest) = Ok im' ->
  im_saved im' = if e_index e0 =? im_marker im + nlen (im_ents im) then im_saved im
                 else if e_index e0 <=? im_marker im then e_index e0 - 1
                 else N.min (im_saved im) (e_index e0 - 1).
Proof.
  unfold im_merge. intros H. destruct (e_index e0 =? im_marker im + nlen (im_ents im)).
  - destruct (check_entries_to_append (im_ents im) (e0 :: rest)); cbn [bind] in H; [discriminate|].
    apply check_marker_ok in H. subst im'. reflexivity.
  - destruct (e_index e0 <=? im_marker im); cbn [bind] in H.
    + apply check_marker_ok in H. subst im'. reflexivity.
    + destruct (im_get_entries im (im_marker im) (e_index e0)) as [ex| |]; cbn [bind] in H; try discriminate.
      destruct (check_entries_to_append ex (e0 :: rest)); cbn [bind] in H; [discriminate|].
      apply check_marker_ok in H. subst im'. reflexivity.
Qed.

Lemma merge_saved_le_proved :
  forall im ents im', im_merge im ents = Ok im' -> im_saved im' <= im_saved im \/ im_saved im' < e_index (hd dummy_entry ents).
Proof.
  intros im [|e0 rest] im' H; [discriminate|]. rewrite (im_merge_saved _ _ _ _ H). cbn [hd].
  destruct (e_index e0 =? _); [lia|]. destruct (e_index e0 <=? _); lia.
Qed.

Lemma saved_log_to_only_on_match_proved :
  forall im i t im',
    im_saved_log_to im i t = Ok im' ->
    im' = im \/
    (exists e, nth_error (im_ents im) (N.to_nat (i - im_marker im)) = Some e /\ e_term e = t
               /\ im_marker im <= i /\ im' = im_with_saved im i).
Proof.
  intros im i t im' H. unfold im_saved_log_to in H.
  destruct (i <? im_marker im) eqn:E1; [left; congruence|].
  destruct (is_nil (im_ents im)); [left; congruence|].
  destruct (e_index (last_entry (im_ents im)) <? i); [left; congruence|].
  destruct (nth_error (im_ents im) (N.to_nat (i - im_marker im))) as [e|] eqn:E2; [|discriminate].
  destruct (e_term e =? t) eqn:E3; [|left; congruence].
  right. exists e. repeat split; auto; try lia. congruence.
Qed.

(* merge(): the window keeps what it had below the first new index f and continues with the new
   entries; its marker becomes min f markerIndex *)
Section Merge.
  Variables (im : inmem) (sp : spec) (e0 : entry) (rest : list entry).
  Local Notation f := (e_index e0).
  Local Notation P := (firstn (N.to_nat (f - im_marker im)) (im_ents im)).
  Local Notation m' := (N.min f (im_marker im)).
  Hypothesis Hw : win_ok im sp.
  Hypothesis Hm : sp_mi sp < f.
  Hypothesis Hl : f <= sp_last sp + 1.

  Lemma merge_keep : length P = N.to_nat (f - m').
  Proof using Hw Hm Hl. pose proof (wn_len _ _ Hw) as FL. rewrite firstn_length. unfold nlen in FL. lia. Qed.

  Lemma merge_log : log_ok f (e0 :: rest) -> sp_term sp (f - 1) <= e_term e0 -> log_ok m' (P ++ e0 :: rest).
  Proof using Hw Hm Hl.
    intros Hlog Hj. pose proof (wn_len _ _ Hw) as FL. destruct (N.le_gt_cases (im_marker im) f) as [Hle|Hgt].
    - rewrite N.min_r by exact Hle. apply log_ok_splice; [apply (wn_log _ _ Hw)|unfold nlen in FL; lia| |].
      + replace (im_marker im + N.of_nat (N.to_nat (f - im_marker im))) with f by lia. exact Hlog.
      + intros e Hpos He. rewrite (win_term _ _ Hw (f - 1) e); [exact Hj|lia|lia|].
        replace (N.to_nat (f - 1 - im_marker im)) with (N.to_nat (f - im_marker im) - 1)%nat by lia. exact He.
    - replace (N.to_nat (f - im_marker im)) with 0%nat by lia. rewrite N.min_l by lia. exact Hlog.
  Qed.

  Lemma merge_win sv rl : log_ok m' (P ++ e0 :: rest) -> sp_committed sp < f ->
    sv = N.min (sp_saved sp) (f - 1) -> (forall n, rl = Some n -> n = isize (P ++ e0 :: rest) mod 2 ^ 64) ->
    win_ok (mkIM (im_snap im) (P ++ e0 :: rest) sv m' (im_aidx im) (im_aterm im) rl) (sp_append sp (e0 :: rest)).
  Proof using Hw Hm Hl.
    intros Hnew Hc -> Hrl. pose proof merge_keep as HPl.
    constructor; cbn [im_saved im_snap im_marker im_ents im_aidx im_aterm im_rl].
    - reflexivity.
    - pose proof (wn_low _ _ Hw). cbn [sp_append sp_saved]. lia.
    - exact Hnew.
    - intros i Hi1 Hi2. change (sp_mi sp < i) in Hi1. destruct (N.lt_ge_cases i f).
      + rewrite sp_append_old by (auto; lia). rewrite nth_error_app1 by lia. rewrite nth_error_firstn_lt by lia.
        replace m' with (im_marker im) by lia. apply (wn_get _ _ Hw); lia.
      + rewrite sp_append_new by (auto; lia). rewrite nth_error_app2 by lia. f_equal. lia.
    - pose proof (wn_len _ _ Hw). rewrite sp_append_last, nlen_app by (auto; lia). unfold nlen at 1. rewrite HPl. lia.
    - change (m' <= sp_mi sp -> exists e, nth_error (P ++ e0 :: rest) (N.to_nat (sp_mi sp - m')) = Some e /\ e_term e = sp_mt sp).
      intros Hmm. destruct (wn_mt _ _ Hw) as (e & Ge & Gt); [lia|]. exists e. split; [|exact Gt].
      rewrite nth_error_app1 by lia. rewrite nth_error_firstn_lt by lia. replace m' with (im_marker im) by lia. exact Ge.
    - intros Es. pose proof (wn_snapm _ _ Hw Es). change (m' = sp_mi sp + 1). lia.
    - apply (wn_snap _ _ Hw).
    - apply (wn_a1 _ _ Hw).
    - intros A B. pose proof (wn_a1 _ _ Hw). rewrite sp_append_term by (auto; lia). apply (wn_a2 _ _ Hw A B).
    - exact Hrl.
  Qed.
End Merge.

(* the three branches of the Go code: append in place, replace everything when f is at or below
   markerIndex, cut and append *)
Lemma im_merge_win im sp e0 rest : SI sp -> win_ok im sp -> app_pre sp e0 rest ->
  exists im', im_merge im (e0 :: rest) = Ok im' /\ win_ok im' (sp_append sp (e0 :: rest)).
Proof.
  intros HS Hw (Hlog & Hc & Hl & Hj & _).
  assert (Hm : sp_mi sp < e_index e0) by (pose proof (si_mp _ HS); pose proof (si_pc _ HS); lia).
  pose proof (merge_log im sp e0 rest Hw Hm Hl Hlog Hj) as Hnew.
  pose proof (fun sv rl => merge_win im sp e0 rest Hw Hm Hl sv rl Hnew Hc) as Hwin. clear Hj Hc Hm.
  pose proof (wn_len _ _ Hw) as FL. pose proof (wn_saved _ _ Hw) as Hsv.
  set (f := e_index e0) in *. set (P := firstn (N.to_nat (f - im_marker im)) (im_ents im)) in *.
  set (m' := N.min f (im_marker im)) in *.
  unfold im_merge. fold f. rewrite FL.
  destruct (f =? sp_last sp + 1) eqn:E1; [|destruct (f <=? im_marker im) eqn:E2].
  - assert (HPe : im_ents im = P) by (unfold P; symmetry; apply firstn_all2; unfold nlen in FL; lia).
    eexists; split.
    + rewrite HPe. rewrite (check_append_ok m') by exact Hnew. cbn [bind].
      replace (im_marker im) with m' by lia. rewrite check_marker_hd by exact Hnew. reflexivity.
    + apply Hwin; [pose proof (si_sl _ HS); lia|]. rewrite <- HPe. apply rl_inc_ok, (wn_rl _ _ Hw).
  - assert (HPe : P = []) by (unfold P; replace (N.to_nat (f - im_marker im)) with 0%nat by lia; reflexivity).
    rewrite HPe in *. cbn [app] in *. assert (Hmf : f = m') by lia. eexists; split.
    + cbn [bind]. rewrite check_marker_hd by exact Hlog. reflexivity.
    + rewrite Hmf. apply Hwin; [pose proof (wn_low _ _ Hw); lia|]. intros n Hn. apply (rl_set_ok _ _ _ Hn).
  - eexists; split.
    + unfold im_get_entries. rewrite FL, N.ltb_irrefl, N.sub_diag.
      replace (f <? im_marker im) with false by lia. replace (sp_last sp + 1 <? f) with false by lia.
      cbn [orb bind skipn N.to_nat]. fold P.
      rewrite (check_append_ok m') by exact Hnew. cbn [bind]. replace (im_marker im) with m' by lia.
      rewrite check_marker_hd by exact Hnew. reflexivity.
    + apply Hwin; [rewrite Hsv; reflexivity|]. intros n Hn. rewrite (rl_set_ok _ _ _ Hn), isize_app. f_equal. lia.
Qed.

Lemma el_append_R w sp e0 rest : R w sp -> idle sp = true -> app_pre sp e0 rest ->
  exists el', el_append (w_el w) (e0 :: rest) = Ok el' /\ R (with_el w el') (sp_append sp (e0 :: rest)).
Proof.
  intros HR Hidle Hpre. pose proof (r_si _ _ HR) as HS. destruct (idle_inv _ HS Hidle) as (Ep & Epers).
  destruct (im_merge_win _ sp e0 rest HS (R_win _ _ HR) Hpre) as (im' & Hm & Hw').
  pose proof (sp_append_SI sp e0 rest HS Hpre) as HS'.
  destruct Hpre as (_ & Hc & Hl & _ & _). pose proof (si_mp _ HS). pose proof (si_pc _ HS).
  unfold el_append. rewrite (r_c _ _ HR). replace (e_index e0 <=? sp_committed sp) with false by lia.
  rewrite Hm. cbn [bind]. eexists; split; [reflexivity|].
  apply R_make; cbn [with_el w_el w_lr w_st w_queue el_im el_committed el_processed]; auto.
  - apply (r_p _ _ HR).
  - assert (Hcov : cover sp = sp_saved sp) by (unfold cover; rewrite Epers; reflexivity).
    assert (Hcov' : cover (sp_append sp (e0 :: rest)) = N.min (sp_saved sp) (e_index e0 - 1))
      by (unfold cover; cbn [sp_append sp_persisted sp_saved]; rewrite Epers; reflexivity).
    apply (rd_rel_le _ _ sp); try reflexivity; rewrite ?Hcov', ?Hcov; [apply (R_rd _ _ HR)|lia| |].
    + intros i H1 H2. apply sp_append_old; lia.
    + rewrite sp_append_last, nlen_cons by lia. lia.
  - unfold q_rel. cbn [sp_append sp_pend]. rewrite Ep. apply (q_idle _ _ HR Ep).
Qed.

Lemma step_append w sp ents : R w sp -> wf_op sp (OAppend ents) = true ->
  exists w', step w (OAppend ents) = Ok w' /\ R w' (sp_append sp ents) /\ w_limit w' = w_limit w.
Proof.
  intros HR Hwf. cbn [wf_op] in Hwf. destruct ents as [|e0 rest]; [discriminate|].
  rewrite !andb_true_iff in Hwf. destruct Hwf as (((((Hidle & Hcont) & Hc) & Hl) & Hterms) & Hmax).
  destruct (bool_log_ok _ _ _ Hcont Hterms) as (Hlog & Hge); [lia|].
  destruct (el_append_R w sp e0 rest HR Hidle) as (el' & He & HR').
  { specialize (Hge e0 (or_introl eq_refl)). split; [exact Hlog|]. split; [lia|]. split; [lia|]. split; lia. }
  cbn [step]. unfold w_append. rewrite He. eexists; split; [reflexivity|]. split; [exact HR'|reflexivity].
Qed.

Definition wf_init (mi mt : N) (ents : list entry) (c : N) : bool :=
  contiguous_from (mi + 1) ents && terms_from 1 ents && (c <=? mi + nlen ents)
  && (mi + nlen ents <? max_index) && ((0 <? mi) || (mt =? 0)).

Lemma st_save_get st b l i : log_ok b l -> l <> [] ->
  st_get (st_save st l) i =
  if (b <=? i) && (i <? b + nlen l) then nth_error l (N.to_nat (i - b)) else st_get st i.
Proof.
  intros H Hne. unfold st_save, st_get. destruct l as [|y l']; [congruence|]. clear Hne. cbn [st_ents].
  revert H. generalize (y :: l'). clear y l'. intros l. induction l as [|x l IH] using rev_ind; intros H.
  - cbn [rev app]. rewrite nlen_nil. replace ((b <=? i) && (i <? b + 0)) with false by lia. reflexivity.
  - pose proof (log_ok_prefix _ _ _ H) as Hl.
    destruct (H (length l) x) as (Hx & _); [rewrite nth_error_app2, Nat.sub_diag by lia; reflexivity|].
    rewrite rev_unit, nlen_app. cbn [app find]. rewrite (IH Hl). unfold nlen. cbn [length].
    destruct (e_index x =? i) eqn:E.
    + replace ((b <=? i) && (i <? b + (N.of_nat (length l) + N.of_nat 1))) with true by lia.
      replace (N.to_nat (i - b)) with (length l) by lia. rewrite nth_error_app2, Nat.sub_diag by lia. reflexivity.
    + destruct ((b <=? i) && (i <? b + N.of_nat (length l))) eqn:C.
      * replace ((b <=? i) && (i <? b + (N.of_nat (length l) + N.of_nat 1))) with true by lia.
        rewrite nth_error_app1 by lia. reflexivity.
      * replace ((b <=? i) && (i <? b + (N.of_nat (length l) + N.of_nat 1))) with false by lia. reflexivity.
Qed.

Lemma lr_set_range_ext lr first n : 0 < n -> lr_first lr <= first -> first - lr_marker lr <= lr_len lr ->
  lr_set_range lr first n = Ok (mkLR (lr_marker lr) (lr_mterm lr) (first - lr_marker lr + n) (lr_ssidx lr)).
Proof.
  intros Hn Hf Ho. unfold lr_set_range. replace (n =? 0) with false by lia.
  replace (first + n - 1 <? lr_first lr) with false by lia. replace (first <? lr_first lr) with false by lia.
  destruct (first - lr_marker lr <? lr_len lr) eqn:E; [reflexivity|].
  replace (lr_len lr =? first - lr_marker lr) with true by lia. do 2 f_equal. lia.
Qed.

Section Init.
  Variables (mi mt : N) (ents : list entry) (c : N).
  Local Notation sp0 := (sp_init mi mt ents c).
  Hypothesis Hlog : log_ok (mi + 1) ents.

  Lemma init_last : sp_last sp0 = mi + nlen ents.
  Proof using. reflexivity. Qed.

  Lemma init_win rl : c <= mi + nlen ents -> win_ok (im_new (mi + nlen ents) (if rl : bool then Some 0 else None)) sp0.
  Proof using.
    intros Hc. apply win_ok_empty; rewrite ?init_last;
      cbn [im_new im_saved im_marker im_ents im_snap im_aidx im_aterm im_rl sp_init sp_committed sp_saved sp_snap];
      try reflexivity; try discriminate; try lia.
    destruct rl; intros k Hk; inversion Hk. reflexivity.
  Qed.

  Lemma init_rd lr skip : lr_marker lr = mi -> lr_mterm lr = mt -> lr_len lr = 1 + nlen ents -> lr_ssidx lr <= mi ->
    rd_rel lr (st_save (mkSt [] 0 skip) ents) sp0.
  Proof using Hlog.
    intros L1 L2 L3 L4.
    assert (Hcov : cover sp0 = mi + nlen ents) by reflexivity.
    constructor; rewrite ?Hcov, ?init_last; cbn [sp_init sp_mi sp_mt].
    - intros _. unfold lr_last. rewrite L1, L3. repeat split; auto; lia.
    - intros i H3 H4. unfold sp_get. cbn [sp_init sp_mi sp_ents]. replace (i <=? mi) with false by lia.
      destruct ents as [|e0 ents'] eqn:Ee; [rewrite nlen_nil in H4; lia|]. rewrite <- Ee in *.
      rewrite (st_save_get _ (mi + 1)) by (auto; congruence).
      replace ((mi + 1 <=? i) && (i <? mi + 1 + nlen ents)) with true by lia. f_equal. lia.
    - intros H3. destruct ents as [|e0 ents'] eqn:Ee; [rewrite nlen_nil in H3; lia|]. rewrite <- Ee in *.
      unfold st_save. rewrite Ee. rewrite <- Ee. cbn [st_max]. rewrite (log_ok_last _ _ Hlog) by congruence. lia.
    - split; [lia|]. discriminate.
  Qed.
End Init.

(* node.replayLog: SetRange over the persisted entries on a fresh reader (or one at the snapshot) *)
Lemma lr_replay mi mt n : (0 <? mi) || (mt =? 0) = true ->
  let lr0 := if 0 <? mi then mkLR mi mt 1 mi else lr_new in
  exists lr, match lr_set_range lr0 (mi + 1) n with Ok l => l | _ => lr0 end = lr
    /\ lr_marker lr = mi /\ lr_mterm lr = mt /\ lr_len lr = 1 + n /\ lr_ssidx lr <= mi.
Proof.
  intros Hmt lr0.
  assert (L0 : lr_marker lr0 = mi /\ lr_mterm lr0 = mt /\ lr_len lr0 = 1 /\ lr_ssidx lr0 <= mi).
  { unfold lr0, lr_new, c19_logreader_init_length.
    destruct (0 <? mi) eqn:Em; cbn [lr_marker lr_mterm lr_len lr_ssidx]; repeat split; lia. }
  destruct L0 as (M0 & T0 & N0 & S0). clear Hmt. destruct (N.eqb_spec n 0) as [->|Hn0].
  - exists lr0. repeat split; auto; lia.
  - rewrite lr_set_range_ext by (unfold lr_first; lia). eexists; split; [reflexivity|].
    cbn [lr_marker lr_mterm lr_len lr_ssidx]. repeat split; auto; lia.
Qed.

Lemma R_init_opt skip rlon mi mt ents c limit : wf_init mi mt ents c = true ->
  R (w_init_opt skip rlon mi mt ents c limit) (sp_init mi mt ents c).
Proof.
  intros Hwf. unfold wf_init in Hwf. rewrite !andb_true_iff in Hwf. destruct Hwf as ((((Hcont & Hterms) & Hc) & Hmax) & Hmt).
  destruct (bool_log_ok _ _ _ Hcont Hterms) as (Hlog & _); [lia|].
  destruct (lr_replay mi mt (nlen ents) Hmt) as (lr & Elr & L1 & L2 & L3 & L4).
  unfold w_init_opt. rewrite Elr. unfold el_new, lr_first, lr_last. rewrite L1, L3.
  apply R_make; cbn [w_el w_lr w_st w_queue el_im el_committed el_processed].
  - apply SI_make; try lia; try discriminate. exact Hlog.
  - cbn [sp_init sp_committed im_new]. lia.
  - cbn [sp_init sp_processed]. lia.
  - replace (mi + (1 + nlen ents) - 1) with (mi + nlen ents) by lia. apply init_win. lia.
  - apply init_rd; assumption.
  - reflexivity.
Qed.

Lemma describe_ok w sp : R w sp -> describe w = Ok tt.
Proof. intros HR. unfold describe. rewrite (v_term _ _ _ HR). reflexivity. Qed.

Lemma step_restore w sp i t : R w sp -> wf_op sp (ORestore i t) = true ->
  exists w', step w (ORestore i t) = Ok w' /\ R w' (sp_restore sp i t) /\ w_limit w' = w_limit w.
Proof.
  intros HR Hwf. cbn [wf_op] in Hwf. rewrite !andb_true_iff in Hwf. destruct Hwf as ((Hidle & Ht) & Hi).
  pose proof (r_si _ _ HR) as HS.
  cbn [step]. unfold w_restore, sp_restore. rewrite (r_c _ _ HR).
  destruct (i <=? sp_committed sp) eqn:E1.
  - rewrite (describe_ok _ _ HR). cbn [bind]. eauto.
  - rewrite (v_term _ _ _ HR). cbn [bind]. destruct (sp_term sp i =? t) eqn:E2.
    + (* the snapshot's entry is in the log: only commit *)
      destruct (sp_term_in sp i HS) as (A & B); [lia|].
      destruct (el_commit_to_R w sp i HR Hidle B) as (el' & -> & HR'). cbn [bind]. eauto.
    + rewrite (describe_ok _ _ HR). cbn [bind]. unfold el_restore. rewrite (r_c _ _ HR).
      replace (i <? sp_committed sp) with false by lia. cbn [bind]. eexists; split; [reflexivity|]. split; [|reflexivity].
      destruct (idle_inv _ HS Hidle) as (Ep & Epers). rewrite Epers.
      pose proof (si_mp _ HS). pose proof (si_pc _ HS). destruct (rd_ss _ _ _ (R_rd _ _ HR)) as (Hss & _).
      assert (Hlast : forall p q, sp_last (mkSpec i t [] i i i true p q) = i) by (intros; unfold sp_last; cbn; lia).
      apply R_make; cbn [with_el w_el w_lr w_st w_queue el_im el_committed el_processed sp_committed sp_processed]; try reflexivity.
      * apply SI_make; rewrite ?nlen_nil; try lia; try discriminate. apply log_ok_nil.
      * apply win_ok_empty; rewrite ?Hlast; cbn [im_restore im_saved im_marker im_ents im_snap im_aidx im_aterm im_rl
                                          sp_mi sp_mt sp_committed sp_saved sp_snap]; try reflexivity.
        -- intros _ _. unfold sp_term. cbn [sp_mi sp_mt]. rewrite N.eqb_refl. split; [reflexivity|lia].
        -- intros n Hn. rewrite (rl_set_ok _ _ _ Hn). reflexivity.
      * constructor; unfold rd_ok, cover; cbn [sp_mi sp_saved sp_snap sp_persisted negb orb]; try (intros; lia).
      * unfold q_rel. cbn [sp_pend]. rewrite Ep. apply (q_idle _ _ HR Ep).
Qed.

Lemma sp_to_apply_ok sp limit : SI sp -> exists l, sp_to_apply sp limit = Ok l /\
  log_ok (sp_first_not_applied sp) l /\
  forall e, In e l -> sp_get sp (e_index e) = Some e /\ sp_processed sp < e_index e /\ e_index e <= sp_committed sp.
Proof.
  intros HS. unfold sp_to_apply, sp_has_to_apply.
  destruct (sp_first_not_applied sp <? sp_committed sp + 1) eqn:E.
  2:{ exists []. split; [reflexivity|]. split; [apply log_ok_nil|intros e []]. }
  pose proof (si_mp _ HS). pose proof (si_pc _ HS). pose proof (si_cl _ HS).
  unfold sp_first_not_applied, sp_first in *. set (lo := N.max (sp_processed sp + 1) (sp_mi sp + 1)) in *.
  unfold sp_entries, sp_first.
  destruct (sp_committed sp + 1 <? lo) eqn:E0; [lia|].
  assert (Hsn : sp_snap sp && is_nil (sp_ents sp) = false).
  { destruct (sp_snap sp); [|reflexivity]. destruct (sp_ents sp) eqn:Ee; [|reflexivity].
    exfalso. unfold sp_last in *. rewrite Ee in *. rewrite nlen_nil in *. lia. }
  rewrite Hsn. destruct (lo <? sp_mi sp + 1) eqn:E1; [lia|].
  destruct (sp_last sp + 1 <? sp_committed sp + 1) eqn:E2; [lia|].
  destruct (lo =? sp_committed sp + 1) eqn:E3; [lia|].
  eexists; split; [reflexivity|].
  set (A := sp_slice sp lo (sp_committed sp + 1)).
  assert (HL : length A = N.to_nat (sp_committed sp + 1 - lo)) by (apply slice_len; lia).
  assert (HA : A <> []) by (destruct A; cbn in HL; [lia|congruence]).
  destruct (limit_size_prefix A limit HA) as [n ->]. split.
  - apply log_ok_firstn, slice_log; auto; lia.
  - intros e He. assert (Hin : In e A) by (rewrite <- (firstn_skipn (S n) A); apply in_or_app; left; exact He).
    apply In_nth_error in Hin as [k K].
    assert (k < length A)%nat by (apply nth_error_Some; congruence).
    unfold A in K. rewrite slice_nth in K by lia.
    destruct (sp_get_some _ _ _ HS K) as (X & _). rewrite X. split; [exact K|]. lia.
Qed.

Lemma to_save_facts sp : SI sp ->
  log_ok (sp_saved sp + 1) (sp_to_save sp) /\
  (sp_to_save sp = [] /\ sp_saved sp = sp_last sp \/
   exists s0 S', sp_to_save sp = s0 :: S' /\ e_index s0 = sp_saved sp + 1 /\
     nlen (s0 :: S') = sp_last sp - sp_saved sp /\ sp_saved sp < sp_last sp /\
     e_index (last_entry (s0 :: S')) = sp_last sp /\ e_term (last_entry (s0 :: S')) = sp_term sp (sp_last sp)).
Proof.
  intros HS. pose proof (si_mp _ HS). pose proof (si_ps _ HS). pose proof (si_sl _ HS).
  assert (HL : log_ok (sp_saved sp + 1) (sp_to_save sp)).
  { unfold sp_to_save. replace (sp_saved sp + 1) with (sp_mi sp + 1 + N.of_nat (N.to_nat (sp_saved sp - sp_mi sp))) by lia.
    apply log_ok_skipn, (si_log _ HS). }
  assert (HN : nlen (sp_to_save sp) = sp_last sp - sp_saved sp).
  { unfold sp_to_save. rewrite nlen_skipn. unfold sp_last in *. lia. }
  split; [exact HL|]. destruct (sp_to_save sp) as [|s0 S'] eqn:Es.
  - left. rewrite nlen_nil in HN. split; [reflexivity|lia].
  - right. exists s0, S'. pose proof (log_ok_hd _ _ _ HL) as Hs0. rewrite nlen_cons in HN.
    assert (Hne : s0 :: S' <> []) by discriminate.
    pose proof (log_ok_last _ _ HL Hne) as HI. rewrite nlen_cons in *.
    split; [reflexivity|]. split; [exact Hs0|]. split; [exact HN|]. split; [lia|]. split; [lia|].
    pose proof (last_entry_nth _ Hne) as HLn. rewrite <- Es in HLn at 1. unfold sp_to_save in HLn. rewrite nth_error_skipn in HLn.
    unfold sp_term, sp_get. replace (sp_last sp =? sp_mi sp) with false by lia. replace (sp_last sp <=? sp_mi sp) with false by lia.
    replace (N.to_nat (sp_last sp - sp_mi sp - 1)) with (N.to_nat (sp_saved sp - sp_mi sp) + (length (s0 :: S') - 1))%nat
      by (unfold nlen in HN; cbn [length] in *; lia).
    rewrite HLn. reflexivity.
Qed.

Lemma get_update_ok w sp more la : R w sp ->
  exists ud, get_update w more la = Ok ud /\
    ud_save ud = sp_to_save sp /\
    (if more then sp_to_apply sp (w_limit w) else Ok []) = Ok (ud_apply ud) /\
    log_ok (sp_first_not_applied sp) (ud_apply ud) /\
    (forall e, In e (ud_apply ud) ->
       sp_get sp (e_index e) = Some e /\ sp_processed sp < e_index e /\ e_index e <= sp_committed sp) /\
    ud_snap ud = (if sp_snap sp then Some (sp_mi sp, sp_mt sp) else None) /\
    ud_uc ud = update_commit (ud_snap ud) (ud_apply ud) (ud_save ud) la /\
    ud_fast ud = fast_apply (ud_snap ud) (ud_apply ud) (ud_save ud).
Proof.
  intros HR. pose proof (r_si _ _ HR) as HS.
  destruct (sp_to_apply_ok sp (w_limit w) HS) as (l & Hl & Ll & Lm).
  set (apl := if more then l else []).
  assert (Happ : (if more then sp_to_apply sp (w_limit w) else Ok []) = Ok apl)
    by (unfold apl; destruct more; [exact Hl|reflexivity]).
  assert (Alog : log_ok (sp_first_not_applied sp) apl) by (unfold apl; destruct more; [exact Ll|apply log_ok_nil]).
  assert (Amem : forall e, In e apl ->
            sp_get sp (e_index e) = Some e /\ sp_processed sp < e_index e /\ e_index e <= sp_committed sp)
    by (unfold apl; destruct more; [exact Lm|intros e []]).
  clearbody apl. clear l Hl Ll Lm.
  unfold get_update, el_to_save. cbv zeta.
  rewrite (v_to_apply _ _ _ HR), Happ, (v_to_save _ _ HS (R_win _ _ HR)), (r_c _ _ HR). cbn [bind].
  assert (Hsnap : match im_snap (el_im (w_el w)) with Some (0, _) => None | s => s end
                  = if sp_snap sp then Some (sp_mi sp, sp_mt sp) else None).
  { rewrite (r_snap _ _ HR). destruct (sp_snap sp) eqn:Es; [|reflexivity].
    destruct (si_snap _ HS Es) as (_ & X). destruct (sp_mi sp); [lia|reflexivity]. }
  rewrite Hsnap.
  (* validateUpdate never fires: what is applied is committed, and committed entries are at or below the last one to save *)
  assert (HV : forall cm, cm = 0 \/ cm = sp_committed sp -> validate_update cm apl (sp_to_save sp) = None).
  { intros cm Hcm. unfold validate_update. destruct apl as [|a apl'].
    - cbn [is_nil negb]. rewrite !andb_false_r. reflexivity.
    - destruct (Amem _ (last_entry_in (a :: apl') ltac:(discriminate))) as (_ & _ & Hla).
      cbn [is_nil negb].
      replace ((0 <? cm) && true && (cm <? e_index (last_entry (a :: apl')))) with false by lia.
      destruct (to_save_facts sp HS) as (_ & [(-> & _)|(s0 & S' & -> & _ & _ & _ & F1 & _)]); [reflexivity|].
      cbn [is_nil negb andb]. rewrite F1.
      pose proof (si_cl _ HS). replace (sp_last sp <? e_index (last_entry (a :: apl'))) with false by lia.
      reflexivity. }
  rewrite HV by (destruct (sp_committed sp =? w_prev w); auto).
  eexists; split; [reflexivity|]. cbn [ud_save ud_apply ud_snap ud_uc ud_fast]. auto 8.
Qed.

Lemma update_commit_fields snap app save la :
  let uc := update_commit snap app save la in
  uc_last_applied uc = la /\
  uc_stable_snap uc = match snap with Some (i, _) => i | None => 0 end /\
  uc_stable_to uc = match save with [] => 0 | _ => e_index (last_entry save) end /\
  uc_stable_term uc = match save with [] => 0 | _ => e_term (last_entry save) end /\
  uc_processed uc = (let pr := match app with [] => 0 | _ => e_index (last_entry app) end in
                     match snap with Some (i, _) => N.max pr i | None => pr end).
Proof. unfold update_commit. destruct save, snap as [[]|]; repeat split. Qed.

Lemma step_get_update w sp more la : R w sp -> wf_op sp (OGetUpdate more la) = true ->
  exists w', step w (OGetUpdate more la) = Ok w' /\ R w' (sp_get_update sp more (w_limit w)) /\ w_limit w' = w_limit w.
Proof.
  intros HR Hwf. cbn [wf_op] in Hwf. apply andb_true_iff in Hwf as [Hidle Hla].
  pose proof (r_si _ _ HR) as HS. destruct (idle_inv _ HS Hidle) as (Ep & Epers).
  destruct (get_update_ok w sp more la HR) as (ud & Hud & U1 & U2 & _ & Amem & U3 & U4 & _).
  cbn [step]. unfold w_get_update. rewrite Hud, (q_idle _ _ HR Ep). cbn [bind app].
  eexists; split; [reflexivity|]. split; [|reflexivity].
  unfold sp_get_update. cbv zeta.
  replace (if more then match sp_to_apply sp (w_limit w) with Ok l => l | _ => @nil entry end else []) with (ud_apply ud)
    by (destruct more; [rewrite U2; reflexivity|congruence]).
  apply R_make; cbn [w_el w_lr w_st w_queue sp_committed sp_processed].
  - destruct HS. constructor; auto. discriminate.
  - apply (r_c _ _ HR).
  - apply (r_p _ _ HR).
  - apply (win_ok_frame _ sp); try reflexivity. apply (R_win _ _ HR).
  - apply (rd_rel_frame _ _ sp); try reflexivity; [unfold rd_ok|unfold cover| apply (R_rd _ _ HR)];
      cbn [sp_snap sp_persisted sp_saved]; rewrite Epers; reflexivity.
  - unfold q_rel. cbn [sp_pend sp_persisted]. exists ud. split; [reflexivity|].
    match goal with |- ud_rel _ _ ?p => change (ud_rel sp ud p) end.
    destruct (to_save_facts sp HS) as (_ & SF).
    destruct (update_commit_fields (ud_snap ud) (ud_apply ud) (ud_save ud) la) as (F1 & F2 & F3 & F4 & F5).
    unfold ud_rel. rewrite U4, F1, F2, F3, F4, F5, U3, U1. cbn [spd_save_last spd_processed spd_snap]. clear Hud U1 U2 U3 U4 F1 F2 F3 F4 F5 Hidle Ep Epers.
    set (apl := ud_apply ud) in *. clearbody apl.
    split; [reflexivity|]. split.
    { destruct SF as [(-> & E)|(s0 & S' & -> & _ & _ & Hlt & G1 & G2)]; [split; [reflexivity|exact E]|].
      repeat split; auto; rewrite G1; auto. }
    split; [destruct (sp_snap sp); reflexivity|]. split.
    { pose proof (si_mp _ HS). pose proof (si_pc _ HS). pose proof (si_ps _ HS). destruct apl as [|a apl'].
      - destruct (sp_snap sp) eqn:Es; [destruct (si_snap _ HS Es); right; lia|left; reflexivity].
      - destruct (Amem _ (last_entry_in (a :: apl') ltac:(discriminate))) as (_ & X1 & X2). right.
        destruct (sp_snap sp) eqn:Es; [destruct (si_snap _ HS Es)|]; lia. }
    split; [lia|]. split; [reflexivity|]. split; [|reflexivity]. destruct (sp_snap sp); reflexivity.
Qed.

Lemma lr_append_ok lr sp : SI sp ->
  lr_marker lr = sp_mi sp -> 1 <= lr_len lr -> sp_saved sp <= lr_last lr ->
  (sp_saved sp = sp_last sp -> lr_last lr = sp_last sp) ->
  exists lr2, lr_append lr (sp_to_save sp) = Ok lr2 /\ lr_marker lr2 = sp_mi sp /\ lr_mterm lr2 = lr_mterm lr
     /\ lr_ssidx lr2 = lr_ssidx lr /\ 1 <= lr_len lr2 /\ lr_last lr2 = sp_last sp.
Proof.
  intros HS Hm Hl Hc He. pose proof (si_mp _ HS). pose proof (si_ps _ HS).
  destruct (to_save_facts sp HS) as (_ & [(-> & E)|(s0 & S' & -> & H0i & HN & Hlt & F1 & _)]).
  - exists lr. cbn [lr_append]. repeat split; auto.
  - unfold lr_append. rewrite H0i, F1, HN.
    replace (sp_saved sp + 1 + (sp_last sp - sp_saved sp) - 1 =? sp_last sp) with true by lia. cbn [negb].
    unfold lr_last, lr_first in *. rewrite lr_set_range_ext by (unfold lr_first; lia).
    eexists; split; [reflexivity|]. cbn [lr_marker lr_mterm lr_len lr_ssidx]. repeat split; auto; lia.
Qed.

Lemma st_save_to_save st sp : SI sp ->
  (forall i, sp_mi sp < i -> i <= sp_saved sp -> st_get st i = sp_get sp i) ->
  (sp_mi sp < sp_saved sp -> sp_saved sp <= st_max st) ->
  (forall i, sp_mi sp < i -> i <= sp_last sp -> st_get (st_save st (sp_to_save sp)) i = sp_get sp i) /\
  (sp_mi sp < sp_last sp -> sp_last sp <= st_max (st_save st (sp_to_save sp))).
Proof.
  intros HS B C. pose proof (si_mp _ HS). pose proof (si_ps _ HS).
  destruct (to_save_facts sp HS) as (SL & [(Es & <-)|(s0 & S' & Es & _ & HN & Hlt & F1 & _)]).
  - rewrite Es. auto.
  - split.
    + intros i Hi1 Hi2. rewrite (st_save_get _ (sp_saved sp + 1)) by (auto; congruence).
      rewrite Es at 1. rewrite HN.
      destruct ((sp_saved sp + 1 <=? i) && (i <? sp_saved sp + 1 + (sp_last sp - sp_saved sp))) eqn:E; [|apply B; lia].
      unfold sp_to_save. rewrite nth_error_skipn. unfold sp_get. replace (i <=? sp_mi sp) with false by lia. f_equal. lia.
    + intros _. rewrite Es. cbn [st_save st_max]. lia.
Qed.

(* processSnapshot (if the update carries one), then LogReader.Append of the entries to save *)
Lemma lr_persist lr st sp : SI sp -> sp_persisted sp = false -> rd_rel lr st sp ->
  exists lr2,
    lr_append (match (if sp_snap sp then Some (sp_mi sp, sp_mt sp) else None) with
               | Some (i, t) => match lr_apply_snapshot lr i t with Ok l => l | _ => lr end
               | None => lr end) (sp_to_save sp) = Ok lr2 /\
    lr_marker lr2 = sp_mi sp /\ lr_mterm lr2 = sp_mt sp /\ 1 <= lr_len lr2 /\ lr_last lr2 = sp_last sp /\
    lr_ssidx lr2 <= sp_mi sp.
Proof.
  intros HS Hpers Hrd. pose proof (rd_lr _ _ _ Hrd) as A. destruct (rd_ss _ _ _ Hrd) as (D1 & D2).
  unfold cover, rd_ok in *. rewrite Hpers in *. clear Hrd.
  set (lr1 := match _ with Some _ => _ | None => lr end).
  assert (HL1 : lr_marker lr1 = sp_mi sp /\ lr_mterm lr1 = sp_mt sp /\ 1 <= lr_len lr1 /\ sp_saved sp <= lr_last lr1 /\
     (sp_saved sp = sp_last sp -> lr_last lr1 = sp_last sp) /\ lr_ssidx lr1 <= sp_mi sp).
  { unfold lr1. destruct (sp_snap sp) eqn:Es.
    - destruct (si_snap _ HS Es) as (X1 & X2). specialize (D2 eq_refl). clear A.
      unfold lr_apply_snapshot. replace (sp_mi sp <=? lr_ssidx lr) with false by lia.
      unfold lr_last. cbn [lr_marker lr_mterm lr_len lr_ssidx]. repeat split; lia.
    - destruct (A eq_refl) as (A1 & A2 & A3 & A4 & A5). repeat split; auto. }
  clearbody lr1. destruct HL1 as (A1 & A2 & A3 & A4 & A5 & A6).
  destruct (lr_append_ok lr1 sp HS A1 A3 A4 A5) as (lr2 & -> & B1 & B2 & B3 & B4 & B5).
  exists lr2. rewrite B2, B3. auto 7.
Qed.

Lemma step_persist w sp : R w sp -> wf_op sp OPersist = true ->
  exists w', step w OPersist = Ok w' /\ R w' (sp_persist sp) /\ w_limit w' = w_limit w.
Proof.
  intros HR Hwf. cbn [wf_op] in Hwf. apply andb_true_iff in Hwf as [Hidle Hnp].
  unfold idle in Hidle. destruct (sp_pend sp) as [p|] eqn:Ep; [|discriminate]. clear Hidle.
  apply negb_true_iff in Hnp. pose proof (r_si _ _ HR) as HS. pose proof (R_rd _ _ HR) as Hrd.
  pose proof (r_q _ _ HR) as Q. rewrite Ep, Hnp in Q. destruct Q as (ud & Hq & Hud).
  destruct (lr_persist _ _ sp HS Hnp Hrd) as (lr2 & Hap & B1 & B2 & B3 & B4 & B5).
  destruct (st_save_to_save (w_st w) sp HS) as (S1 & S2).
  { intros i H1 H2. apply (rd_st _ _ _ Hrd); [exact H1|]. unfold cover. rewrite Hnp. exact H2. }
  { pose proof (rd_stmax _ _ _ Hrd) as C. unfold cover in C. rewrite Hnp in C. exact C. }
  cbn [step]. unfold w_persist. rewrite Hq. cbn [persist_first p_persisted p_ud]. unfold persist_update.
  pose proof Hud as (U1 & _ & _ & _ & _ & _ & _ & U8). rewrite U1, U8, Hap. cbn [bind].
  eexists; split; [reflexivity|]. split; [|reflexivity].
  unfold sp_persist. rewrite Ep in *.
  apply R_make; cbn [w_el w_lr w_st w_queue sp_committed sp_processed].
  - destruct HS. constructor; auto. intros _. discriminate.
  - apply (r_c _ _ HR).
  - apply (r_p _ _ HR).
  - apply (win_ok_frame _ sp); try reflexivity. apply (R_win _ _ HR).
  - constructor; unfold cover, rd_ok, sp_last, sp_get; cbn [sp_mi sp_mt sp_ents sp_saved sp_snap sp_persisted];
      fold (sp_last sp); fold (sp_get sp); auto.
    + intros _. rewrite B4. repeat split; auto. apply N.le_refl.
    + split; [exact B5|]. rewrite orb_true_r. discriminate.
  - unfold q_rel. cbn [sp_pend sp_persisted]. exists ud. split; [reflexivity|exact Hud].
Qed.

Lemma im_saved_log_to_last im sp : SI sp -> win_ok im sp -> sp_saved sp < sp_last sp ->
  im_saved_log_to im (sp_last sp) (sp_term sp (sp_last sp)) = Ok (im_with_saved im (sp_last sp)).
Proof.
  intros HS Hw Hlt. pose proof (si_mp _ HS). pose proof (si_ps _ HS).
  pose proof (wn_len _ _ Hw) as FL. pose proof (wn_low _ _ Hw).
  unfold im_saved_log_to. replace (sp_last sp <? im_marker im) with false by lia.
  destruct (im_ents im) as [|x0 xs] eqn:Ee; [rewrite nlen_nil in FL; lia|]. rewrite <- Ee in *.
  replace (is_nil (im_ents im)) with false by (rewrite Ee; reflexivity).
  rewrite (win_last_entry _ _ Hw), N.ltb_irrefl by congruence.
  destruct (nth_error (im_ents im) (N.to_nat (sp_last sp - im_marker im))) as [e|] eqn:En.
  2:{ apply nth_error_None in En. unfold nlen in FL. lia. }
  rewrite (win_term _ _ Hw (sp_last sp) e ltac:(lia) ltac:(lia) En), N.eqb_refl. reflexivity.
Qed.

Lemma im_commit_update_win im sp ud p : SI sp -> win_ok im sp -> ud_rel sp ud p ->
  exists im1, im_commit_update im (uc_stable_to (ud_uc ud)) (uc_stable_term (ud_uc ud)) (uc_stable_snap (ud_uc ud)) = Ok im1 /\
    win_ok im1 (mkSpec (sp_mi sp) (sp_mt sp) (sp_ents sp) (sp_committed sp) (sp_processed sp) (sp_last sp) false
                       (sp_pend sp) (sp_persisted sp)).
Proof.
  intros HS Hw (_ & U2 & _ & _ & _ & _ & U7 & _).
  pose proof (wn_saved _ _ Hw) as Hs. pose proof (wn_snap _ _ Hw) as Hsn. pose proof (wn_len _ _ Hw) as FL.
  exists (mkIM None (im_ents im) (sp_last sp) (im_marker im) (im_aidx im) (im_aterm im) (im_rl im)). split.
  - unfold im_commit_update.
    assert (H0 : (if 0 <? uc_stable_to (ud_uc ud)
                  then im_saved_log_to im (uc_stable_to (ud_uc ud)) (uc_stable_term (ud_uc ud)) else Ok im)
                 = Ok (im_with_saved im (sp_last sp))).
    { destruct (spd_save_last p) as [[i t]|].
      - destruct U2 as (-> & -> & -> & -> & X). replace (0 <? sp_last sp) with true by lia.
        apply im_saved_log_to_last; assumption.
      - destruct U2 as (-> & X). rewrite <- X, <- Hs. destruct im; reflexivity. }
    rewrite H0, U7. cbn [bind]. unfold im_with_saved. destruct (sp_snap sp) eqn:Es.
    + destruct (si_snap _ HS Es) as (_ & X). replace (0 <? sp_mi sp) with true by lia.
      unfold im_saved_snapshot_to. cbn [im_snap im_ents im_saved im_marker im_aidx im_aterm im_rl].
      rewrite Hsn, N.eqb_refl. reflexivity.
    + rewrite Hsn. reflexivity.
  - destruct Hw as [W1 W2 W3 W4 W5 W6 W7 W8 W9 W10 W11].
    constructor; cbn [im_saved im_snap im_marker im_ents im_aidx im_aterm im_rl sp_saved sp_snap sp_mi sp_mt sp_committed];
      try assumption; try reflexivity; try discriminate. lia.
Qed.

Lemma im_applied_log_to_win im sp la : SI sp -> win_ok im sp -> la <= sp_processed sp ->
  exists im', im_applied_log_to im la = Ok im' /\ win_ok im' sp.
Proof.
  intros HS Hw Hla.
  assert (Hb : la <= sp_committed sp /\ la <= sp_saved sp /\ la <= sp_last sp)
    by (pose proof (si_pc _ HS); pose proof (si_ps _ HS); pose proof (si_sl _ HS); lia).
  clear Hla. destruct Hb as (Hlc & Hls & Hll).
  pose proof (wn_len _ _ Hw) as FL. pose proof (wn_log _ _ Hw) as FLog.
  unfold im_applied_log_to. destruct (la <? im_marker im) eqn:E3; [eauto|].
  destruct (im_ents im) as [|x0 xs] eqn:Ee; [rewrite nlen_nil in FL; lia|]. rewrite <- Ee in *.
  replace (is_nil (im_ents im)) with false by (rewrite Ee; reflexivity).
  rewrite (win_last_entry _ _ Hw) by congruence. replace (sp_last sp <? la) with false by lia.
  destruct (nth_error (im_ents im) (N.to_nat (la - im_marker im))) as [e|] eqn:En.
  2:{ apply nth_error_None in En. unfold nlen in FL. lia. }
  destruct (FLog _ _ En) as (I1 & I2 & _). assert (Hie : e_index e = la) by lia. clear I1.
  rewrite Hie, N.eqb_refl. cbn [negb].
  set (k := N.to_nat (la + 1 - im_marker im)).
  assert (W1' : log_ok (la + 1) (skipn k (im_ents im))).
  { replace (la + 1) with (im_marker im + N.of_nat k) by (unfold k; lia). apply log_ok_skipn, FLog. }
  rewrite check_marker_hd by exact W1'. eexists; split; [reflexivity|].
  constructor; cbn [im_saved im_snap im_marker im_ents im_aidx im_aterm im_rl].
  - apply (wn_saved _ _ Hw).
  - lia.
  - exact W1'.
  - intros i Hi1 Hi2. rewrite nth_error_skipn, <- (wn_get _ _ Hw i Hi1) by lia. f_equal. unfold k. lia.
  - rewrite nlen_skipn. unfold k, nlen in *. lia.
  - intros Hm. destruct (wn_mt _ _ Hw) as (e' & Ge' & Gt'); [lia|]. exists e'. split; [|exact Gt'].
    rewrite nth_error_skipn, <- Ge'. f_equal. unfold k. lia.
  - intros Es. destruct (si_snap _ HS Es). pose proof (wn_snapm _ _ Hw Es). lia.
  - apply (wn_snap _ _ Hw).
  - lia.
  - intros _ Hmi. split; [|lia]. apply (win_term _ _ Hw); [exact Hmi|lia|exact En].
  - apply rl_dec_ok, (wn_rl _ _ Hw).
Qed.

(* entryLog.commitUpdate when none of its three panics fires *)
Lemma el_commit_update_ok el cu im1 im2 :
  im_commit_update (el_im el) (uc_stable_to cu) (uc_stable_term cu) (uc_stable_snap cu) = Ok im1 ->
  let pr := if 0 <? uc_processed cu then uc_processed cu else el_processed el in
  el_processed el <= pr -> pr <= el_committed el -> uc_last_applied cu <= pr ->
  (if 0 <? uc_last_applied cu then im_applied_log_to im1 (uc_last_applied cu) else Ok im1) = Ok im2 ->
  el_commit_update el cu = Ok (mkEL im2 (el_committed el) pr).
Proof.
  intros H1 pr Hp1 Hp2 Hla H2. unfold el_commit_update. rewrite H1. cbn [bind]. fold pr.
  replace (if 0 <? uc_processed cu
           then if (uc_processed cu <? el_processed el) || (el_committed el <? uc_processed cu) then Panic PProcessed else Ok (uc_processed cu)
           else Ok (el_processed el)) with (@Ok N pr).
  2:{ unfold pr in *. destruct (0 <? uc_processed cu); [|reflexivity].
      replace ((uc_processed cu <? el_processed el) || (el_committed el <? uc_processed cu)) with false by lia. reflexivity. }
  cbn [bind]. replace (el_committed el <? uc_last_applied cu) with false by lia.
  replace (pr <? uc_last_applied cu) with false by lia.
  destruct (0 <? uc_last_applied cu); [rewrite H2; reflexivity|congruence].
Qed.

Lemma step_commit w sp : R w sp -> wf_op sp OCommit = true ->
  exists w', step w OCommit = Ok w' /\ R w' (sp_commit sp) /\ w_limit w' = w_limit w.
Proof.
  intros HR Hwf. cbn [wf_op] in Hwf. apply andb_true_iff in Hwf as [Hidle Hpers].
  unfold idle in Hidle. destruct (sp_pend sp) as [p|] eqn:Ep; [|discriminate]. clear Hidle.
  pose proof (r_si _ _ HR) as HS.
  pose proof (r_q _ _ HR) as Q. rewrite Ep, Hpers in Q. destruct Q as (ud & Hq & Hud).
  destruct (im_commit_update_win _ sp ud p HS (R_win _ _ HR) Hud) as (im1 & HA & Hw1).
  destruct Hud as (_ & U2 & U3 & U4 & U5 & U6 & _).
  set (pr' := if 0 <? spd_processed p then spd_processed p else sp_processed sp).
  assert (Hpr : sp_processed sp <= pr' /\ pr' <= sp_committed sp)
    by (pose proof (si_pc _ HS); unfold pr'; destruct (0 <? spd_processed p) eqn:E; lia).
  assert (Hsp' : sp_commit sp = mkSpec (sp_mi sp) (sp_mt sp) (sp_ents sp) (sp_committed sp) pr' (sp_last sp) false None false).
  { unfold sp_commit. rewrite Ep, Hpers. fold pr'. f_equal.
    - destruct (spd_save_last p) as [[i t]|].
      + destruct U2 as (_ & _ & -> & -> & X).
        replace ((sp_mi sp <? sp_last sp) && (sp_last sp <=? sp_last sp)) with true
          by (pose proof (si_mp _ HS); pose proof (si_ps _ HS); lia).
        rewrite N.eqb_refl. reflexivity.
      + destruct U2 as (_ & X). exact X.
    - rewrite U6. destruct (sp_snap sp); reflexivity. }
  rewrite Hsp'. set (sp' := mkSpec _ _ _ _ _ _ _ _ _).
  assert (HS' : SI sp').
  { destruct HS. apply SI_make; unfold sp_last in *; try assumption; try discriminate; lia. }
  apply (win_ok_frame _ _ sp') in Hw1; try reflexivity.
  set (la := uc_last_applied (ud_uc ud)) in *.
  assert (HC : exists im2, (if 0 <? la then im_applied_log_to im1 la else Ok im1) = Ok im2 /\ win_ok im2 sp').
  { destruct (0 <? la); [|eauto]. apply im_applied_log_to_win; auto. cbn [sp' sp_processed]. lia. }
  destruct HC as (im2 & HC & Hw2).
  pose proof (el_commit_update_ok (w_el w) (ud_uc ud) im1 im2 HA) as HE. cbv zeta in HE.
  rewrite U3, (r_p _ _ HR), (r_c _ _ HR) in HE. fold pr' la in HE.
  cbn [step]. unfold w_commit. rewrite Hq. cbn [p_persisted p_ud]. rewrite HE by (try exact HC; lia). cbn [bind].
  eexists; split; [reflexivity|]. split; [|reflexivity].
  apply R_make; cbn [w_el w_lr w_st w_queue el_im el_committed el_processed]; auto.
  - apply (rd_rel_frame _ _ sp); try reflexivity; [unfold rd_ok|unfold cover|apply (R_rd _ _ HR)];
      cbn [sp' sp_snap sp_persisted sp_saved]; rewrite Hpers, ?orb_true_r; reflexivity.
  - reflexivity.
Qed.

Lemma st_remove_get st k i : k < i -> st_get (st_remove_to st k) i = st_get st i.
Proof.
  intros H. unfold st_get, st_remove_to. cbn [st_ents]. induction (st_ents st) as [|x l IH]; [reflexivity|].
  cbn [filter find]. destruct (k <? e_index x) eqn:E.
  - cbn [find]. destruct (e_index x =? i); [reflexivity|exact IH].
  - destruct (e_index x =? i) eqn:E2; [lia|exact IH].
Qed.

(* the logical log after a compaction to k: the same entries above k *)
Section Compact.
  Variables (sp : spec) (k : N).
  Local Notation sp' := (mkSpec k (sp_term sp k) (skipn (N.to_nat (k - sp_mi sp)) (sp_ents sp))
                           (sp_committed sp) (sp_processed sp) (sp_saved sp) (sp_snap sp) (sp_pend sp) (sp_persisted sp)).
  Hypothesis Hk : sp_mi sp < k.
  Hypothesis Hl : k <= sp_last sp.

  Lemma compact_last : sp_last sp' = sp_last sp.
  Proof using Hk Hl. unfold sp_last in *. cbn [sp_mi sp_ents]. rewrite nlen_skipn. lia. Qed.

  Lemma compact_get i : k < i -> sp_get sp' i = sp_get sp i.
  Proof using Hk Hl.
    intros Hi. unfold sp_get. cbn [sp_mi sp_ents].
    replace (i <=? k) with false by lia. replace (i <=? sp_mi sp) with false by lia.
    rewrite nth_error_skipn. f_equal. lia.
  Qed.

  Lemma compact_term i : k <= i -> sp_term sp' i = sp_term sp i.
  Proof using Hk Hl.
    intros Hi. unfold sp_term at 1. cbn [sp_mi sp_mt]. destruct (N.eqb_spec i k) as [->|]; [reflexivity|].
    rewrite compact_get by lia. unfold sp_term. replace (i =? sp_mi sp) with false by lia. reflexivity.
  Qed.

  Lemma compact_to_save : k <= sp_saved sp -> sp_to_save sp' = sp_to_save sp.
  Proof using Hk Hl. intros H. unfold sp_to_save. cbn [sp_mi sp_ents sp_saved]. rewrite skipn_skipn. f_equal. lia. Qed.
End Compact.

Section CompactInv.
  Variables (sp : spec) (k : N).
  Local Notation sp' := (mkSpec k (sp_term sp k) (skipn (N.to_nat (k - sp_mi sp)) (sp_ents sp))
                           (sp_committed sp) (sp_processed sp) (sp_saved sp) (sp_snap sp) (sp_pend sp) (sp_persisted sp)).
  Hypothesis HS : SI sp.
  Hypothesis Hk : sp_mi sp < k.
  Hypothesis Hp : k <= sp_processed sp.

  Lemma compact_in : k <= sp_saved sp /\ k <= sp_last sp /\ sp_snap sp = false.
  Proof using HS Hk Hp.
    pose proof (si_ps _ HS). pose proof (si_sl _ HS). repeat split; try lia.
    destruct (sp_snap sp) eqn:Es; [destruct (si_snap _ HS Es); lia|reflexivity].
  Qed.

  Lemma compact_SI : SI sp'.
  Proof using HS Hk Hp.
    destruct compact_in as (H1 & H2 & Es). pose proof (compact_last sp k Hk H2) as L. pose proof (si_pc _ HS).
    constructor; rewrite ?L; cbn [sp_mi sp_mt sp_ents sp_committed sp_processed sp_saved sp_snap sp_pend sp_persisted];
      try apply HS; try lia.
    - replace (k + 1) with (sp_mi sp + 1 + N.of_nat (N.to_nat (k - sp_mi sp))) by lia. apply log_ok_skipn, HS.
    - rewrite Es. discriminate.
  Qed.

  Lemma compact_win im : win_ok im sp -> win_ok im sp'.
  Proof using HS Hk Hp.
    intros Hw. destruct compact_in as (H1 & H2 & Es). pose proof (si_pc _ HS).
    constructor; rewrite ?(compact_last sp k Hk H2); cbn [sp_mi sp_mt sp_saved sp_snap sp_committed]; try apply Hw.
    - intros i Hi1 Hi2. rewrite compact_get by assumption. apply (wn_get _ _ Hw); lia.
    - intros Hm. destruct (sp_get_in sp k Hk H2) as [e Ge].
      exists e. split; [rewrite (wn_get _ _ Hw) by lia; exact Ge|].
      unfold sp_term. replace (k =? sp_mi sp) with false by lia. rewrite Ge. reflexivity.
    - rewrite Es. discriminate.
    - rewrite (wn_snap _ _ Hw), Es. reflexivity.
    - intros Ha Hka. rewrite compact_term by assumption. apply (wn_a2 _ _ Hw); [exact Ha|lia].
  Qed.

  (* LogReader.Compact moves the marker to k, RemoveEntriesTo drops what is at or below it *)
  Lemma compact_rd lr st : rd_rel lr st sp -> rd_ok sp = true ->
    rd_rel (mkLR k (sp_term sp k) (lr_len lr - (k - sp_mi sp)) (lr_ssidx lr)) (st_remove_to st k) sp'.
  Proof using HS Hk Hp.
    intros Hrd Hok. destruct compact_in as (H1 & H2 & _). destruct (rd_lr _ _ _ Hrd Hok) as (A & B & C & D & E).
    pose proof (cover_ge_saved _ HS). pose proof (compact_last sp k Hk H2) as L.
    assert (Hcov : cover sp' = cover sp) by (unfold cover; rewrite L; reflexivity).
    constructor; rewrite ?Hcov, ?L; cbn [sp_mi sp_mt]; change (rd_ok sp') with (rd_ok sp).
    - intros _. unfold lr_last in *. cbn [lr_marker lr_mterm lr_len].
      split; [reflexivity|]. split; [reflexivity|]. split; [lia|]. split; [lia|]. intros X. specialize (E X). lia.
    - intros i Hi1 Hi2. rewrite st_remove_get, compact_get by assumption. apply (rd_st _ _ _ Hrd); lia.
    - cbn [st_remove_to st_max]. intros X. apply (rd_stmax _ _ _ Hrd). lia.
    - cbn [lr_ssidx]. destruct (rd_ss _ _ _ Hrd) as (X & _). split; [lia|]. rewrite Hok. discriminate.
  Qed.

  Lemma compact_q q : q_rel q sp -> q_rel q sp'.
  Proof using HS Hk Hp.
    unfold q_rel. cbn [sp_pend sp_persisted]. destruct (sp_pend sp) as [p|] eqn:Ep; [|trivial].
    intros (ud & Hq & U1 & U2 & U3 & U4 & U5 & U6 & U7 & U8). exists ud. split; [exact Hq|]. rewrite <- Ep.
    destruct compact_in as (H1 & H2 & Es).
    unfold ud_rel. rewrite (compact_to_save sp k Hk H2 H1), (compact_last sp k Hk H2). split; [exact U1|]. split.
    { destruct (spd_save_last p) as [[i t]|]; [|exact U2]. destruct U2 as (X1 & X2 & X3 & X4 & X5).
      repeat split; auto. rewrite compact_term by (auto; lia). exact X4. }
    cbn [sp_committed sp_processed sp_saved sp_snap sp_mi sp_mt]. rewrite Es in *. repeat split; auto.
  Qed.
End CompactInv.

Lemma step_compact w sp k : R w sp -> wf_op sp (OCompact k) = true ->
  exists w', step w (OCompact k) = Ok w' /\ R w' (sp_compact sp k) /\ w_limit w' = w_limit w.
Proof.
  intros HR Hwf. cbn [wf_op] in Hwf. apply andb_true_iff in Hwf as [Hk Hok]. fold (rd_ok sp) in Hok.
  pose proof (r_si _ _ HR) as HS. pose proof (R_rd _ _ HR) as Hrd.
  pose proof (si_ps _ HS). pose proof (cover_ge_saved _ HS). pose proof (cover_le_last _ HS).
  destruct (rd_lr _ _ _ Hrd Hok) as (A & B & C & D & _).
  cbn [step]. unfold w_compact, lr_compact, sp_compact. rewrite A.
  destruct (k <? sp_mi sp) eqn:E1.
  - (* already compacted further: only the store removal happens *)
    eexists; split; [reflexivity|]. split; [|reflexivity].
    replace ((sp_mi sp <? k) && (k <=? sp_last sp)) with false by lia.
    apply R_make; try apply HR; [apply (R_win _ _ HR)|]. cbn [w_lr w_st].
    apply (rd_rel_same _ _ _ _ _ Hrd); auto. intros; apply st_remove_get; lia.
  - replace (lr_last (w_lr w) <? k) with false by lia.
    rewrite (v_lr_term _ _ _ _ HS Hrd Hok) by lia. cbn [bind].
    eexists; split; [reflexivity|]. split; [|reflexivity].
    destruct (N.eqb_spec k (sp_mi sp)) as [->|Hne].
    + (* k is the marker itself *)
      replace ((sp_mi sp <? sp_mi sp) && (sp_mi sp <=? sp_last sp)) with false by lia.
      apply R_make; try apply HR; [apply (R_win _ _ HR)|]. cbn [w_lr w_st].
      apply (rd_rel_same _ _ _ _ _ Hrd); cbn [lr_marker lr_mterm lr_len lr_ssidx]; auto; try lia.
      * unfold sp_term. rewrite N.eqb_refl. congruence.
      * intros; apply st_remove_get; assumption.
    + assert (Hmk : sp_mi sp < k) by lia. assert (Hkp : k <= sp_processed sp) by lia. replace ((sp_mi sp <? k) && (k <=? sp_last sp)) with true by lia.
      apply R_make; cbn [w_el w_lr w_st w_queue]; try apply HR.
      * apply compact_SI; assumption.
      * apply compact_win; [assumption..|apply (R_win _ _ HR)].
      * apply compact_rd; assumption.
      * apply compact_q; [assumption..|apply (r_q _ _ HR)].
Qed.

Lemma el_conflict_eq w sp l : R w sp ->
  el_conflict_index (w_el w) (w_lr w) (w_st w) l = Ok (sp_conflict sp l).
Proof.
  intros HR. induction l as [|e r IH]; [reflexivity|]. cbn [el_conflict_index sp_conflict].
  rewrite (v_term _ _ _ HR). cbn [bind]. destruct (sp_term sp (e_index e) =? e_term e); [exact IH|reflexivity].
Qed.

Lemma conflict_zero sp l : (forall e, In e l -> e_index e <> 0) -> sp_conflict sp l = 0 ->
  forall e, In e l -> sp_term sp (e_index e) = e_term e.
Proof.
  induction l as [|x r IH]; intros Hnz H0 e He; [destruct He|]. cbn [sp_conflict] in H0.
  destruct (sp_term sp (e_index x) =? e_term x) eqn:E.
  - destruct He as [<-|He]; [lia|]. apply IH; auto. intros y Hy. apply Hnz. right. exact Hy.
  - destruct (Hnz x (or_introl eq_refl) H0).
Qed.

Lemma conflict_first sp l : sp_conflict sp l <> 0 ->
  exists k e, nth_error l k = Some e /\ e_index e = sp_conflict sp l /\
    forall k' e', (k' < k)%nat -> nth_error l k' = Some e' -> sp_term sp (e_index e') = e_term e'.
Proof.
  induction l as [|x r IH]; cbn [sp_conflict]; [congruence|].
  destruct (sp_term sp (e_index x) =? e_term x) eqn:E; intros Hc.
  - destruct (IH Hc) as (k & e & K1 & K2 & K4). exists (S k), e. repeat split; auto.
    intros [|k'] e' Hk' Hn; [injection Hn as <-; lia|]. apply (K4 k'); [lia|exact Hn].
  - exists 0%nat, x. repeat split; auto. intros k' e' Hk'. lia.
Qed.

Lemma skipn_nth {A} k (l : list A) e : nth_error l k = Some e -> skipn k l = e :: skipn (S k) l.
Proof.
  revert l. induction k; intros l H; destruct l; try discriminate.
  - cbn in H. inversion H. reflexivity.
  - cbn in H. cbn [skipn]. rewrite (IHk _ H). reflexivity.
Qed.

Lemma conflict_none_last sp li ents : SI sp -> log_ok (li + 1) ents ->
  sp_conflict sp ents = 0 -> li <= sp_last sp -> li + nlen ents <= sp_last sp.
Proof.
  intros HS Hlog Hc Hli. destruct ents as [|x r] eqn:Ee; [rewrite nlen_nil; lia|]. rewrite <- Ee in *.
  assert (Hne : ents <> []) by congruence. pose proof (last_entry_in _ Hne) as Hin.
  assert (Hnz : forall e, In e ents -> e_index e <> 0).
  { intros e He. apply In_nth_error in He as [k K]. destruct (Hlog _ _ K) as (X & _). lia. }
  pose proof (conflict_zero sp ents Hnz Hc _ Hin) as HT.
  apply In_nth_error in Hin as [k K]. destruct (Hlog _ _ K) as (_ & X & _).
  destruct (sp_term_in sp (e_index (last_entry ents)) HS) as (_ & Y); [lia|].
  rewrite (log_ok_last _ _ Hlog Hne) in Y. assert (1 <= nlen ents) by (rewrite Ee, nlen_cons; lia). lia.
Qed.

Lemma conflict_app_pre sp li ents : SI sp -> log_ok (li + 1) ents ->
  (forall e, In e ents -> sp_term sp li <= e_term e) ->
  li <= sp_last sp -> li + nlen ents < max_index -> sp_committed sp < sp_conflict sp ents ->
  exists e0, nth_error ents (N.to_nat (sp_conflict sp ents - li - 1)) = Some e0 /\ e_index e0 = sp_conflict sp ents /\
             app_pre sp e0 (skipn (S (N.to_nat (sp_conflict sp ents - li - 1))) ents).
Proof.
  intros HS Hlog Hge Hl2 Hmax Hcc.
  destruct (conflict_first sp ents) as (k0 & e0 & K1 & K2 & K4); [lia|]. rewrite <- K2 in *.
  destruct (Hlog _ _ K1) as (I1 & I2 & I3).
  assert (Hk0 : (k0 < length ents)%nat) by (apply nth_error_Some; congruence).
  replace (N.to_nat (e_index e0 - li - 1)) with k0 by lia. exists e0. split; [exact K1|]. split; [reflexivity|].
  unfold app_pre. rewrite <- (skipn_nth _ _ _ K1), nlen_skipn.
  split. { replace (e_index e0) with (li + 1 + N.of_nat k0) by lia. apply log_ok_skipn, Hlog. }
  split; [exact Hcc|].
  assert (Hprev : e_index e0 - 1 <= sp_last sp /\ sp_term sp (e_index e0 - 1) <= e_term e0).
  { destruct k0 as [|k1].
    - replace (e_index e0 - 1) with li by lia. split; [exact Hl2|]. apply Hge. eapply nth_error_In, K1.
    - destruct (nth_error ents k1) as [e1|] eqn:K5.
      2:{ apply nth_error_None in K5. lia. }
      destruct (Hlog _ _ K5) as (J1 & J2 & J3).
      pose proof (K4 k1 e1 ltac:(lia) K5) as HT.
      replace (e_index e0 - 1) with (e_index e1) by lia.
      destruct (sp_term_in sp (e_index e1) HS) as (_ & X); [lia|]. split; [exact X|].
      rewrite HT. apply (J3 (S k1)); auto. }
  split; [lia|]. split; [apply Hprev|]. unfold nlen in *. lia.
Qed.

Lemma step_replicate w sp li lt commit ents : R w sp -> wf_op sp (OReplicate li lt commit ents) = true ->
  exists w', step w (OReplicate li lt commit ents) = Ok w' /\ R w' (sp_replicate sp li lt commit ents) /\ w_limit w' = w_limit w.
Proof.
  intros HR Hwf. cbn [wf_op] in Hwf. cbv zeta in Hwf. rewrite !andb_true_iff in Hwf.
  destruct Hwf as (((((Hidle & Hcont) & Hterms) & Hlt) & Hmax) & Hconf).
  pose proof (r_si _ _ HR) as HS. pose proof (si_mp _ HS) as S1. pose proof (si_pc _ HS) as S2.
  cbn [step]. unfold w_replicate, sp_replicate. rewrite (r_c _ _ HR).
  destruct (li <? sp_committed sp) eqn:E1; [eauto|].
  rewrite (v_term _ _ _ HR). cbn [bind].
  destruct (sp_term sp li =? lt) eqn:E2.
  2:{ rewrite (describe_ok _ _ HR). cbn [bind]. eauto. }
  destruct (bool_log_ok _ _ _ Hcont Hterms) as (Hlog & Hge); [lia|]. clear Hcont Hterms.
  assert (Hli : sp_mi sp <= li /\ li <= sp_last sp).
  { destruct (N.eq_dec lt 0) as [Hz|Hnz]; [lia|]. apply sp_term_in; auto. lia. }
  clear Hlt S1 S2.
  unfold el_try_append. rewrite (el_conflict_eq _ _ _ HR), ?(r_c _ _ HR). cbn [bind].
  set (k := N.min (li + nlen ents) commit).
  destruct (sp_conflict sp ents =? 0) eqn:Ec.
  - (* everything matches: only the commit index moves *)
    clear Hconf. cbn [bind]. pose proof (conflict_none_last sp li ents HS Hlog ltac:(lia) ltac:(lia)).
    destruct (el_commit_to_R w sp k HR Hidle) as (el' & -> & HR'); [lia|]. cbn [bind]. eauto.
  - (* a conflict above committed: truncate and append, then commit *)
    set (c := sp_conflict sp ents) in *. assert (Hcc : sp_committed sp < c) by lia. clear Hconf.
    destruct (conflict_app_pre sp li ents HS Hlog) as (e0 & K1 & K2 & Hpre); try lia.
    { intros e He. specialize (Hge e He). lia. }
    fold c in K1, K2, Hpre. clear E1 E2 Ec Hge.
    assert (Hk0 : (N.to_nat (c - li - 1) < length ents)%nat) by (apply nth_error_Some; congruence).
    destruct (Hlog _ _ K1) as (I1 & _).
    replace (c <=? sp_committed sp) with false by lia.
    replace ((c <=? li) || (nlen ents <? c - li - 1)) with false by (unfold nlen; lia).
    rewrite (skipn_nth _ _ _ K1).
    destruct (el_append_R w sp e0 _ HR Hidle Hpre) as (el1 & -> & HR1). cbn [bind].
    destruct Hpre as (_ & Hc1 & Hl1 & _).
    destruct (el_commit_to_R (with_el w el1) _ k HR1 Hidle) as (el2 & He & HR2).
    { rewrite sp_append_last, nlen_cons, nlen_skipn by lia. unfold k, nlen in *. lia. }
    cbn [with_el w_el w_lr] in He. rewrite He. cbn [bind]. eauto.
Qed.

Lemma step_all w sp o : R w sp -> wf_op sp o = true ->
  exists w', step w o = Ok w' /\ R w' (sp_step (w_limit w) sp o) /\ w_limit w' = w_limit w.
Proof.
  intros HR Hwf. destruct o; cbn [sp_step].
  - apply step_append; assumption.
  - apply step_replicate; assumption.
  - apply step_commit_to; assumption.
  - apply step_get_update; assumption.
  - apply step_persist; assumption.
  - apply step_commit; assumption.
  - apply step_restore; assumption.
  - apply step_compact; assumption.
Qed.

Lemma run_all ops : forall w sp, R w sp -> wf_ops (w_limit w) sp ops = true ->
  exists w', run w ops = Ok w' /\ R w' (sp_run (w_limit w) sp ops) /\ w_limit w' = w_limit w.
Proof.
  induction ops as [|o ops IH]; intros w sp HR Hwf; [exists w; split; [reflexivity|split; [exact HR|reflexivity]]|].
  cbn [wf_ops] in Hwf. apply andb_true_iff in Hwf as [Hw1 Hw2].
  destruct (step_all w sp o HR Hw1) as (w1 & Hs & HR1 & Hl1). rewrite <- Hl1 in *.
  destruct (IH w1 _ HR1 Hw2) as (w' & Hr & HR' & Hl').
  exists w'. cbn [run]. rewrite Hs. auto.
Qed.

Lemma run_init skip rlon limit mi mt ents c ops :
  wf_init mi mt ents c = true -> wf_ops limit (sp_init mi mt ents c) ops = true ->
  exists w', run (w_init_opt skip rlon mi mt ents c limit) ops = Ok w' /\ R w' (sp_run limit (sp_init mi mt ents c) ops).
Proof.
  intros Hi Hwf. destruct (run_all ops (w_init_opt skip rlon mi mt ents c limit) _ (R_init_opt _ _ _ _ _ _ _ Hi) Hwf) as (w' & Hr & HR & _).
  eauto.
Qed.

Lemma run_init_R skip rlon limit mi mt ents c ops w' :
  wf_init mi mt ents c = true -> wf_ops limit (sp_init mi mt ents c) ops = true ->
  run (w_init_opt skip rlon mi mt ents c limit) ops = Ok w' -> R w' (sp_run limit (sp_init mi mt ents c) ops).
Proof.
  intros Hi Hwf Hr. destruct (run_init skip rlon limit mi mt ents c ops Hi Hwf) as (w'' & Hr' & HR). congruence.
Qed.

Lemma R_saved_persisted w sp i : R w sp -> sp_mi sp < i -> i <= im_saved (el_im (w_el w)) ->
  exists e, st_get (w_st w) i = Some e /\ sp_get sp i = Some e /\ e_index e = i.
Proof.
  intros HR H1 H2. pose proof (r_si _ _ HR) as HS. rewrite (r_s _ _ HR) in H2.
  pose proof (cover_ge_saved _ HS). pose proof (si_sl _ HS).
  destruct (sp_get_in sp i) as [e Ge]; [lia|lia|].
  exists e. rewrite (r_st _ _ HR) by lia. repeat split; auto. apply (sp_get_some _ _ _ HS Ge).
Qed.

Lemma get_update_sound w sp : R w sp -> forall more la, exists ud, get_update w more la = Ok ud /\
    (forall e, In e (ud_apply ud) ->
       e_index e <= el_committed (w_el w) /\ sp_get sp (e_index e) = Some e /\
       (e_index e <= im_saved (el_im (w_el w)) \/ In e (ud_save ud))) /\
    (ud_fast ud = true -> forall e, In e (ud_apply ud) -> e_index e <= im_saved (el_im (w_el w))).
Proof.
  intros HR more la. pose proof (r_si _ _ HR) as HS.
  destruct (get_update_ok w sp more la HR) as (ud & Hud & U1 & U2 & Alog & Amem & U3 & _ & U5).
  destruct (to_save_facts sp HS) as (_ & SF). pose proof (si_cl _ HS) as Hcl.
  exists ud. split; [exact Hud|]. rewrite (r_c _ _ HR), (r_s _ _ HR), U1. split.
  - intros e He. destruct (Amem e He) as (G1 & G2 & G3). repeat split; auto.
    destruct (N.le_gt_cases (e_index e) (sp_saved sp)) as [X|X]; [left; exact X|right].
    pose proof (si_mp _ HS). pose proof (si_ps _ HS).
    unfold sp_to_save. unfold sp_get in G1. destruct (e_index e <=? sp_mi sp) eqn:E; [discriminate|].
    apply (nth_error_In _ (N.to_nat (e_index e - sp_mi sp - 1) - N.to_nat (sp_saved sp - sp_mi sp))%nat).
    rewrite nth_error_skipn. rewrite <- G1. f_equal. lia.
  - rewrite U5, U3, U1. clear Hud U1 U2 U3 U5. set (apl := ud_apply ud) in *. clearbody apl.
    unfold fast_apply. destruct (sp_snap sp); [discriminate|].
    destruct apl as [|a apl'] eqn:Ea; [intros _ e []|]. rewrite <- Ea in *.
    assert (Hne : apl <> []) by congruence. destruct (Amem _ (last_entry_in _ Hne)) as (_ & _ & Hla).
    assert (Hle : forall e, In e apl -> e_index e <= e_index (last_entry apl)).
    { intros e He. apply In_nth_error in He as [k K]. destruct (Alog _ _ K) as (X & _).
      assert (k < length apl)%nat by (apply nth_error_Some; congruence).
      rewrite (log_ok_last _ _ Alog Hne). unfold nlen. lia. }
    destruct SF as [(-> & E)|(s0 & S' & -> & H0i & _ & _ & F1 & _)].
    + intros _ e He. specialize (Hle e He). lia.
    + rewrite Ea. rewrite <- Ea. rewrite H0i, F1. intros Hf e He. specialize (Hle e He).
      destruct ((sp_saved sp + 1 <=? e_index (last_entry apl)) && (e_index (last_entry apl) <=? sp_last sp)) eqn:C; [discriminate|]. lia.
Qed.

(* the operations the _partial theorems of Props/C19.v are restricted to *)
Definition core_op (o : op) : bool :=
  match o with OAppend _ | OCommitTo _ => true | _ => false end.

Lemma nlen_firstn {A} n (l : list A) : nlen (firstn n l) = N.min (N.of_nat n) (nlen l).
Proof. unfold nlen. rewrite firstn_length. lia. Qed.
Lemma is_nil_skipn0 {A} (l : list A) : skipn 0 l = l. Proof. reflexivity. Qed.
Lemma skipn_firstn_app {A} k n (l x : list A) : (k <= n)%nat -> (n <= length l)%nat ->
  skipn k (firstn n l ++ x) = firstn (n - k) (skipn k l) ++ x.
Proof.
  intros H1 H2. rewrite skipn_app. rewrite firstn_length. replace (k - Nat.min n (length l))%nat with 0%nat by lia.
  cbn [skipn]. f_equal. apply skipn_firstn_comm.
Qed.
Lemma last_entry_app a b : b <> [] -> last_entry (a ++ b) = last_entry b.
Proof.
  intros H. unfold last_entry. induction a as [|x a IH]; [reflexivity|].
  cbn [app]. destruct (a ++ b) eqn:E; [destruct a; destruct b; cbn in E; congruence|].
  exact IH.
Qed.
Lemma R_init mi mt ents c limit : wf_init mi mt ents c = true ->
  R (w_init mi mt ents c limit) (sp_init mi mt ents c).
Proof. apply R_init_opt. Qed.
