(* C10 — tan record framing: a log of several records cut at an arbitrary byte.  The cut falls
   inside the bytes of exactly one record; Proofs/TanRecord.v says what replay makes of the
   complete records before it and of the torn one. *)
From Coq Require Import List NArith Bool Lia.
From DB Require Import Base.Bytes Proofs.Bytes Gen.GenC10 Model.TanRecord Proofs.TanRecord.
Import ListNotations.
Open Scope N_scope.

Lemma ty_vals : ty_full = 1 /\ ty_first = 2 /\ ty_middle = 3 /\ ty_last = 4.
Proof. repeat split; reflexivity. Qed.

Section TanMulti.
Variable ck : bytes -> N.
Variable lognum : N.
Hypothesis ck_u32 : forall b, ck b < 2 ^ 32.

Lemma frame_from_app : forall a b pos,
  frame_from ck pos (a ++ b) = frame_from ck pos a ++ frame_from ck (pos + nlen (frame_from ck pos a)) b.
Proof.
  induction a as [|r t IH]; intros b pos; cbn [app frame_from].
  - change (nlen (@nil N)) with 0. now rewrite N.add_0_r.
  - cbv zeta. rewrite IH, <- app_assoc, nlen_app, N.add_assoc. reflexivity.
Qed.

Lemma cut_decompose : forall rs pos cut, cut < nlen (frame_from ck pos rs) ->
  exists rs1 r rs2 c, rs = rs1 ++ r :: rs2 /\
    c < nlen (write_record ck (pos + nlen (frame_from ck pos rs1)) r) /\
    takeN cut (frame_from ck pos rs)
    = frame_from ck pos rs1 ++ takeN c (write_record ck (pos + nlen (frame_from ck pos rs1)) r).
Proof.
  induction rs as [|r t IH]; intros pos cut H; cbn [frame_from] in *.
  - change (nlen (@nil N)) with 0 in H. lia.
  - cbv zeta in *. rewrite nlen_app in H.
    destruct (N.lt_ge_cases cut (nlen (write_record ck pos r))) as [C|C].
    + exists [], r, t, cut. cbn [frame_from app]. change (nlen (@nil N)) with 0. rewrite N.add_0_r.
      split; [reflexivity|]. split; [exact C|]. apply takeN_app_le. lia.
    + destruct (IH (pos + nlen (write_record ck pos r)) (cut - nlen (write_record ck pos r)))
        as (rs1 & r' & rs2 & c & E & HC & HT); [lia|].
      exists (r :: rs1), r', rs2, c. cbn [frame_from app]. cbv zeta.
      rewrite nlen_app, N.add_assoc. split; [now rewrite E|]. split; [exact HC|].
      rewrite takeN_app_ge by lia. rewrite HT, <- app_assoc. reflexivity.
Qed.

Theorem tan_replay_ignores_torn_tail_proved : forall rs cut,
  exists k v, replay ck lognum (takeN cut (frame ck rs)) = (firstn k rs, v) /\
              recoverable v = true /\
              nlen (frame ck (firstn k rs)) <= cut /\
              ((k < length rs)%nat -> cut < nlen (frame ck (firstn (S k) rs))).
Proof.
  intros rs cut. destruct (N.lt_ge_cases cut (nlen (frame ck rs))) as [C|C].
  - unfold frame in *. destruct (cut_decompose rs 0 cut C) as (rs1 & r & rs2 & c & E & HC & HT).
    rewrite N.add_0_l in *.
    destruct (tan_replay_torn_record_proved ck lognum ck_u32 rs1 r c HC) as (v & ER & RV).
    exists (length rs1), v. unfold frame in *. rewrite HT, ER.
    assert (F : firstn (length rs1) rs = rs1).
    { rewrite E, firstn_app, Nat.sub_diag, firstn_all. cbn. apply app_nil_r. }
    assert (F2 : firstn (S (length rs1)) rs = rs1 ++ [r]).
    { rewrite E, firstn_app, firstn_all2 by lia.
      replace (S (length rs1) - length rs1)%nat with 1%nat by lia. reflexivity. }
    rewrite F, F2. split; [reflexivity|]. split; [exact RV|].
    apply (f_equal (@nlen N)) in HT. rewrite nlen_takeN in HT by lia.
    rewrite nlen_app in HT. rewrite nlen_takeN in HT by lia.
    split; [lia|]. intros _.
    rewrite frame_from_app, nlen_app. cbn [frame_from]. cbv zeta. rewrite app_nil_r, N.add_0_l. lia.
  - exists (length rs), VEof. rewrite firstn_all, takeN_all by exact C.
    split; [now apply tan_replay_roundtrip_proved|]. split; [reflexivity|]. split; [exact C|lia].
Qed.

End TanMulti.
