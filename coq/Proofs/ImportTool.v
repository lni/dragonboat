From DB Require Import Base.Bytes Base.CRC32 Gen.GenC20 Model.ImportTool Proofs.Bytes Proofs.CRC32.
From Coq Require Import Lia.
Open Scope N_scope.

Lemma bytes_eqb_eq a : forall b, bytes_eqb a b = true <-> a = b.
Proof.
  induction a as [|x a IH]; intros [|y b]; cbn [bytes_eqb]; split; intros H;
    try reflexivity; try discriminate.
  - apply andb_true_iff in H as [H1 H2]. apply N.eqb_eq in H1. apply IH in H2. congruence.
  - injection H as -> ->. rewrite N.eqb_refl. cbn. apply IH. reflexivity.
Qed.

Lemma bytes_eqb_refl a : bytes_eqb a a = true.
Proof. apply bytes_eqb_eq. reflexivity. Qed.

Lemma bytes_eqb_neq a b : bytes_eqb a b = false <-> a <> b.
Proof.
  split.
  - intros H E. apply bytes_eqb_eq in E. congruence.
  - intros H. destruct (bytes_eqb a b) eqn:E; [|reflexivity]. apply bytes_eqb_eq in E. contradiction.
Qed.

Lemma alookup_minsert k k' v m :
  alookup k (minsert k' v m) = if k' =? k then Some v else alookup k m.
Proof.
  induction m as [|[k0 v0] r IH]; cbn [minsert alookup].
  - reflexivity.
  - destruct (k' <? k0) eqn:Hlt; cbn [alookup].
    + reflexivity.
    + destruct (k' =? k0) eqn:Heq; cbn [alookup].
      * apply N.eqb_eq in Heq. subst k0. destruct (k' =? k); reflexivity.
      * rewrite IH. destruct (k0 =? k) eqn:H0; [|reflexivity].
        apply N.eqb_eq in H0. subst k0. rewrite Heq. reflexivity.
Qed.

Lemma alookup_mnorm k m : alookup k (mnorm m) = alookup k m.
Proof.
  induction m as [|[k0 v0] r IH]; [reflexivity|].
  unfold mnorm in *. cbn [fold_right fst snd]. rewrite alookup_minsert, IH. reflexivity.
Qed.

Lemma amem_mnorm k m : amem k (mnorm m) = amem k m.
Proof. unfold amem. rewrite alookup_mnorm. reflexivity. Qed.

Lemma alookup_In k m v : alookup k m = Some v -> In (k, v) m.
Proof.
  induction m as [|[k0 v0] r IH]; cbn [alookup]; [discriminate|].
  destruct (k0 =? k) eqn:E.
  - apply N.eqb_eq in E. intros [= ->]. left. congruence.
  - intros H. right. apply IH, H.
Qed.

Lemma In_amem k v m : In (k, v) m -> amem k m = true.
Proof.
  unfold amem. induction m as [|[k0 v0] r IH]; cbn [alookup In]; [tauto|].
  intros [[= -> ->]|H].
  - rewrite N.eqb_refl. reflexivity.
  - destruct (k0 =? k); [reflexivity|apply IH, H].
Qed.

Lemma amem_keys k m : amem k m = true <-> In k (akeys m).
Proof.
  unfold amem, akeys. induction m as [|[k0 v0] r IH]; cbn [alookup map In fst].
  - split; [discriminate|tauto].
  - destruct (k0 =? k) eqn:E.
    + apply N.eqb_eq in E. split; [intros _; left; exact E|reflexivity].
    + apply N.eqb_neq in E. rewrite IH. split; [intros H; right; exact H|intros [H|H]; [contradiction|exact H]].
Qed.

Lemma smem_In k s : smem k s = true <-> In k s.
Proof.
  unfold smem. rewrite existsb_exists. split.
  - intros (x & Hx & E). apply N.eqb_eq in E. subst. exact Hx.
  - intros H. exists k. split; [exact H|apply N.eqb_refl].
Qed.

Lemma In_sinsert x k s : In x (sinsert k s) <-> x = k \/ In x s.
Proof.
  induction s as [|y r IH]; cbn [sinsert In].
  - split; [intros [H|[]]; auto | intros [H|[]]; auto].
  - destruct (k <? y); cbn [In]; [split; [intros [H|H] | intros [H|H]]; auto|].
    destruct (k =? y) eqn:E; cbn [In].
    + apply N.eqb_eq in E. subst. split; [intros [H|H] | intros [H|[H|H]]]; subst; auto.
    + rewrite IH. tauto.
Qed.

Lemma In_sadd_all x ks : forall s, In x (sadd_all ks s) <-> In x ks \/ In x s.
Proof.
  unfold sadd_all. induction ks as [|k r IH]; intros s; cbn [fold_left In].
  - tauto.
  - rewrite IH, In_sinsert. split; [intros [H|[H|H]] | intros [[H|H]|H]]; auto.
Qed.

Lemma In_not_listed x members ids :
  In x (not_listed members ids) <-> In x ids /\ amem x members = false.
Proof.
  unfold not_listed. rewrite filter_In. rewrite negb_true_iff. reflexivity.
Qed.

Definition old_member (old : membership) (id : N) : Prop :=
  amem id (m_addresses old) = true \/ amem id (m_nonvotings old) = true \/ amem id (m_witnesses old) = true.

Lemma In_processed_removed old members id :
  In id (processed_removed old members) <->
  In id (m_removed old) \/ (old_member old id /\ amem id members = false).
Proof.
  unfold processed_removed, old_member.
  rewrite !In_sadd_all, !In_not_listed, <- !amem_keys. cbn [In]. tauto.
Qed.

Lemma check_members_none old members :
  check_members old members = None <->
  forall id a, In (id, a) members -> check_member old id a = None.
Proof.
  induction members as [|[k v] r IH]; cbn [check_members In].
  - split; [intros _ ? ? []|reflexivity].
  - destruct (check_member old k v) eqn:E.
    + split; [discriminate|]. intros H. rewrite <- E. apply H. left. reflexivity.
    + rewrite IH. split.
      * intros H id a [[= -> ->]|Hin]; [exact E|apply H, Hin].
      * intros H id a Hin. apply H. right. exact Hin.
Qed.

Lemma check_members_perm old m1 m2 :
  (forall kv, In kv m1 <-> In kv m2) ->
  (check_members old m1 = None <-> check_members old m2 = None).
Proof.
  intros H. rewrite !check_members_none. split; intros G id a Hin; apply G, H, Hin.
Qed.

Definition bad_member (old : membership) (id : N) (a : addr) : Prop :=
  (exists v, alookup id (m_addresses old) = Some v /\ v <> a) \/
  amem id (m_nonvotings old) = true \/
  amem id (m_witnesses old) = true \/
  In id (m_removed old).

Lemma check_member_rest_none old id a :
  check_member_rest old id a = None <->
  ~ (amem id (m_nonvotings old) = true \/ amem id (m_witnesses old) = true \/ In id (m_removed old)).
Proof.
  unfold check_member_rest, amem. rewrite <- smem_In.
  destruct (alookup id (m_nonvotings old)) as [v|];
    [split; [destruct (negb (bytes_eqb v a)); discriminate | intros H; destruct H; auto]|].
  destruct (alookup id (m_witnesses old)) as [v|];
    [split; [destruct (negb (bytes_eqb v a)); discriminate | intros H; destruct H; auto]|].
  destruct (smem id (m_removed old)); split; try discriminate; try reflexivity.
  - intros H. destruct H. auto.
  - intros _ [H|[H|H]]; discriminate.
Qed.

Lemma check_member_none old id a :
  check_member old id a = None <-> ~ bad_member old id a.
Proof.
  unfold check_member, bad_member. destruct (alookup id (m_addresses old)) as [v|].
  - destruct (bytes_eqb v a) eqn:B; cbn [negb].
    + apply bytes_eqb_eq in B. subst v. rewrite check_member_rest_none.
      split; [intros H [(v & [= <-] & Hne)|H']; tauto | tauto].
    + apply bytes_eqb_neq in B. split; [discriminate|]. intros H. destruct H. left. exists v. auto.
  - rewrite check_member_rest_none. split; [intros H [(v & [=] & _)|H']; tauto | tauto].
Qed.

Lemma check_members_iff_proved old members :
  check_members old members = None <->
  forall id a, In (id, a) members -> ~ bad_member old id a.
Proof.
  rewrite check_members_none. split; intros H id a Hin; apply check_member_none, H, Hin.
Qed.

Lemma check_member_kinds old id a e :
  check_member old id a = Some e ->
  match e with
  | EAddrChanged => exists v, v <> a /\
      (alookup id (m_addresses old) = Some v \/ alookup id (m_nonvotings old) = Some v \/
       alookup id (m_witnesses old) = Some v)
  | ENonVotingAsRegular => alookup id (m_nonvotings old) = Some a
  | EWitnessAsRegular => alookup id (m_witnesses old) = Some a
  | EAddingRemoved => In id (m_removed old)
  end.
Proof.
  match goal with |- _ -> ?Q => assert (R : check_member_rest old id a = Some e -> Q) end.
  { unfold check_member_rest.
    destruct (alookup id (m_nonvotings old)) as [v|] eqn:E1.
    - destruct (bytes_eqb v a) eqn:B; cbn [negb]; intros [= <-].
      + apply bytes_eqb_eq in B. congruence.
      + apply bytes_eqb_neq in B. exists v. auto.
    - destruct (alookup id (m_witnesses old)) as [v|] eqn:E2.
      + destruct (bytes_eqb v a) eqn:B; cbn [negb]; intros [= <-].
        * apply bytes_eqb_eq in B. congruence.
        * apply bytes_eqb_neq in B. exists v. auto.
      + destruct (smem id (m_removed old)) eqn:S; intros [= <-]. apply smem_In, S. }
  unfold check_member. destruct (alookup id (m_addresses old)) as [v|] eqn:E; [|exact R].
  destruct (bytes_eqb v a) eqn:B; cbn [negb]; [exact R|].
  intros [= <-]. apply bytes_eqb_neq in B. exists v. auto.
Qed.

(* members that pass the check and were members before are voting members at
   the same address; no accepted member is removed afterwards *)
Lemma accepted_member_facts old members id a :
  check_members old members = None -> In (id, a) members ->
  (forall v, alookup id (m_addresses old) = Some v -> v = a) /\
  amem id (m_nonvotings old) = false /\ amem id (m_witnesses old) = false /\
  ~ In id (m_removed old).
Proof.
  intros H Hin. rewrite check_members_none in H. specialize (H id a Hin).
  apply check_member_none in H. unfold bad_member in H. repeat split.
  - intros v Hv. destruct (bytes_eqb v a) eqn:B; [apply bytes_eqb_eq, B|].
    apply bytes_eqb_neq in B. exfalso. apply H. left. exists v. auto.
  - destruct (amem id (m_nonvotings old)) eqn:X; [|reflexivity]. exfalso. apply H. auto.
  - destruct (amem id (m_witnesses old)) eqn:X; [|reflexivity]. exfalso. apply H. auto.
  - intros X. apply H. auto.
Qed.

Lemma import_no_member_removed_proved dst old members :
  check_members (s_membership old) members = None ->
  forall id, amem id members = true ->
  ~ In id (m_removed (s_membership (get_processed dst old members))).
Proof.
  intros Hc id Hm Hin. apply In_processed_removed in Hin as [Hin|[_ Hn]]; [|congruence].
  unfold amem in Hm. destruct (alookup id members) as [a|] eqn:E; [|discriminate].
  apply alookup_In in E.
  destruct (accepted_member_facts _ _ _ _ Hc E) as (_ & _ & _ & Hx). contradiction.
Qed.

Lemma check_import_settings_ok raddr members replica :
  check_import_settings raddr members replica = SettingsOk <-> alookup replica members = Some raddr.
Proof.
  unfold check_import_settings. destruct (alookup replica members) as [a|].
  - destruct (bytes_eqb raddr a) eqn:B.
    + apply bytes_eqb_eq in B. subst. tauto.
    + apply bytes_eqb_neq in B. split; [discriminate|]. intros [= ->]. contradiction.
  - split; discriminate.
Qed.

Lemma is_complete_image_spec file recorded :
  is_complete_image file recorded = ImageComplete <-> payload_checksum file = CkOk recorded.
Proof.
  unfold is_complete_image. destruct (payload_checksum file) as [sum| |].
  - destruct (bytes_eqb sum recorded) eqn:B.
    + apply bytes_eqb_eq in B. subst. tauto.
    + apply bytes_eqb_neq in B. split; [discriminate|]. intros [= ->]. contradiction.
  - split; discriminate.
  - split; discriminate.
Qed.

(* what the recorded checksum covers: only the bytes at the block-CRC offsets *)
Lemma read_crcs_ext f1 f2 offs :
  (forall o, In o offs -> read_at4 f1 o = read_at4 f2 o) -> read_crcs f1 offs = read_crcs f2 offs.
Proof.
  induction offs as [|o r IH]; intros H; cbn [read_crcs]; [reflexivity|].
  rewrite (H o (or_introl eq_refl)), IH; [reflexivity|]. intros o' Ho. apply H. right. exact Ho.
Qed.

Lemma be4_inj x y : x < 2 ^ 32 -> y < 2 ^ 32 -> be 4 x = be 4 y -> x = y.
Proof.
  intros Hx Hy H. rewrite <- (be_dec_be 4 x), <- (be_dec_be 4 y), H; [reflexivity|exact Hy|exact Hx].
Qed.

Lemma crc_field_byte_change_detected_proved f1 f2 offs pre post b1 b2 recorded :
  crc_offsets (nlen f1) = Some offs -> crc_offsets (nlen f2) = Some offs ->
  read_crcs f1 offs = Some (pre ++ b1 :: post) ->
  read_crcs f2 offs = Some (pre ++ b2 :: post) ->
  wf_bytes pre -> wf_bytes post -> b1 < 256 -> b2 < 256 -> b1 <> b2 ->
  is_complete_image f1 recorded = ImageComplete ->
  is_complete_image f2 recorded = ImageIncomplete.
Proof.
  intros O1 O2 R1 R2 Wp Wq B1 B2 Hne H.
  apply is_complete_image_spec in H. unfold payload_checksum in H. rewrite O1, R1 in H.
  injection H as <-.
  unfold is_complete_image, payload_checksum. rewrite O2, R2.
  destruct (bytes_eqb _ _) eqn:E; [|reflexivity]. exfalso.
  apply bytes_eqb_eq in E. apply be4_inj in E.
  - symmetry in E. revert E. apply crc32_single_byte_detected; assumption.
  - apply crc32_lt. apply Forall_app. split; [exact Wp|constructor; assumption].
  - apply crc32_lt. apply Forall_app. split; [exact Wp|constructor; assumption].
Qed.

Lemma locate_ok src entries f :
  locate_snapshot_file src entries = LocOk f <-> src = true /\ snapshot_files entries = [f].
Proof.
  unfold locate_snapshot_file. destruct src; cbn [negb].
  - destruct (snapshot_files entries) as [|x [|y r]]; split; try discriminate;
      try (intros [_ [=]]; fail).
    + intros [= ->]. auto.
    + intros [_ [= ->]]. reflexivity.
  - split; [discriminate|]. intros [[=] _].
Qed.

(* the program is the checks, then the steps that write *)
Definition checks : list op :=
  [OCheckSettings; OLocate; OReadMeta; OCheckComplete; OCheckExtFiles; OCheckMembers].
Definition writes : list op :=
  [ONewEnv; OCreateNodeHostDir; OOpenLogDB; OCheckNodeHostDir; OCleanup; OCreateSSDir;
   OCreateTemp; OProcess; OCopy; OFinalize; OLogDBImport].
(* those of them a run executes, by whether the snapshot directory exists *)
Definition writes_of (ssdir_exists : bool) : list op :=
  [ONewEnv; OCreateNodeHostDir; OOpenLogDB; OCheckNodeHostDir;
   if ssdir_exists then OCleanup else OCreateSSDir;
   OCreateTemp; OProcess; OCopy; OFinalize; OLogDBImport].

Lemma import_prog_eq : import_prog = checks ++ writes.
Proof. vm_compute. reflexivity. Qed.

(* structural form of "every check precedes the first mutating step" *)
Definition is_check (o : op) : bool :=
  match o with
  | OCheckSettings | OLocate | OReadMeta | OCheckComplete | OCheckExtFiles | OCheckMembers => true
  | _ => false
  end.

Fixpoint before_first_mutation (prog : list op) : list op :=
  match prog with
  | [] => []
  | o :: r => if mutating o then [] else o :: before_first_mutation r
  end.

Definition safe_trace (tr : list op) : Prop := forall o, In o tr -> mutating o = false.

Definition all_checks_pass (inp : input) (old : snapshot) : Prop :=
  check_import_settings (in_raft_address inp) (in_members inp) (in_replica inp) = SettingsOk /\
  (exists f, locate_snapshot_file (in_src_exists inp) (in_entries inp) = LocOk f) /\
  in_meta inp = MetaOk old /\
  is_complete_image (in_file inp) (s_checksum old) = ImageComplete /\
  has_all_external_files (s_files old) (in_entries inp) = true /\
  check_members (s_membership old) (in_members inp) = None.

(* refusals that are verdicts of the checks (not I/O errors of later steps) *)
Definition check_refusal (r : refusal) : Prop :=
  match r with
  | RInvalidMembers _ | RPathNotExist | RIncompleteFiles | RMetaErr | RMetaPanic
  | RImageErr | RIncompleteImage | RIncompleteExt | RMembers _ => True
  | REnv o => o = OLocate \/ o = OCheckExtFiles
  | RBadProgram => False
  end.

Lemma run_step_fail inp st o r st' rf :
  exec_op inp st o = (st', Some rf) -> op_guard o = true ->
  run_ops inp st (o :: r) = (st', Refused rf).
Proof. intros H G. cbn [run_ops]. rewrite H, G. reflexivity. Qed.

Lemma run_step_ok inp st o r st' :
  exec_op inp st o = (st', None) -> o <> OLogDBImport ->
  run_ops inp st (o :: r) = run_ops inp st' r.
Proof. intros H G. cbn [run_ops]. rewrite H. destruct o; try reflexivity. contradiction. Qed.

Lemma run_step_last inp st r st' ss :
  exec_op inp st OLogDBImport = (st', None) -> st_processed st' = Some ss ->
  run_ops inp st (OLogDBImport :: r) = (st', Imported ss).
Proof. intros H G. cbn [run_ops]. rewrite H, G. reflexivity. Qed.

Local Opaque check_import_settings locate_snapshot_file is_complete_image check_members
  get_processed has_all_external_files.

(* one step of run_ops that succeeds / fails; E and F are the equations that
   decide the tests exec_op makes at this step *)
Ltac exec_with E F := unfold exec_op; cbn [st_old st_trace st_processed push]; rewrite ?E, ?F; reflexivity.
Ltac step_ok E F := erewrite run_step_ok; [|exec_with E F|discriminate].
Ltac step_fail E F := erewrite run_step_fail; [|exec_with E F|reflexivity].

(* the checks: all pass and the run goes on with the metadata read, or one of
   them refuses and only checks have run *)
Lemma run_checks inp rest :
  (exists old, all_checks_pass inp old /\
     run_ops inp init_state (checks ++ rest) = run_ops inp (mkSt (rev checks) (Some old) None) rest) \/
  (exists st r, run_ops inp init_state (checks ++ rest) = (st, Refused r) /\ check_refusal r /\
                incl (st_trace st) checks).
Proof.
  unfold all_checks_pass, init_state, checks. cbn [app].
  assert (REF : forall (P : Prop) st r, check_refusal r -> forallb is_check (st_trace st) = true ->
            P \/ exists st' r', (st, Refused r) = (st', Refused r') /\ check_refusal r' /\ incl (st_trace st') checks).
  { intros P st r Hr Ht. right. exists st, r. split; [reflexivity|]. split; [exact Hr|]. intros o Ho.
    rewrite forallb_forall in Ht. specialize (Ht o Ho). destruct o; try discriminate; cbn; auto 10. }
  destruct (check_import_settings (in_raft_address inp) (in_members inp) (in_replica inp)) eqn:E1;
    [|step_fail E1 E1; apply REF; cbn; auto..].
  step_ok E1 E1.
  destruct (locate_snapshot_file (in_src_exists inp) (in_entries inp)) as [f| |] eqn:E2;
    [|step_fail E2 E2; apply REF; cbn; auto..].
  destruct (env_fails inp OLocate) eqn:F2; [step_fail E2 F2; apply REF; cbn; auto|].
  step_ok E2 F2.
  destruct (in_meta inp) as [old| |] eqn:E3; [|step_fail E3 E3; apply REF; cbn; auto..].
  step_ok E3 E3.
  destruct (is_complete_image (in_file inp) (s_checksum old)) eqn:E4; [|step_fail E4 E4; apply REF; cbn; auto..].
  step_ok E4 E4.
  destruct (has_all_external_files (s_files old) (in_entries inp)) eqn:E6; [|step_fail E6 E6; apply REF; cbn; auto].
  destruct (env_fails inp OCheckExtFiles) eqn:F6; [step_fail E6 F6; apply REF; cbn; auto|].
  step_ok E6 F6.
  destruct (check_members (s_membership old) (in_members inp)) eqn:E5; [step_fail E5 E5; apply REF; cbn; auto|].
  step_ok E5 E5. left. exists old. repeat split; eauto.
Qed.

Lemma import_run_checks inp tr out :
  import_run inp = (tr, out) ->
  (exists old, all_checks_pass inp old) \/
  (safe_trace tr /\ exists r, out = Refused r /\ check_refusal r).
Proof.
  unfold import_run. rewrite import_prog_eq.
  destruct (run_checks inp writes) as [(old & Hp & _)|(st & r & -> & Hr & Hs)]; [eauto|].
  intros [= <- <-]. right. split; [|eauto]. intros o Ho. apply in_rev, Hs in Ho.
  cbn in Ho. repeat (destruct Ho as [<-|Ho]; [reflexivity|]). contradiction.
Qed.

Local Transparent has_all_external_files.
Lemma has_all_external_files_spec files entries :
  has_all_external_files files entries = true <->
  forall f, In f files -> ext_file_present entries f = true.
Proof. unfold has_all_external_files. apply forallb_forall. Qed.
Local Opaque has_all_external_files.

Lemma failed_check_refused inp :
  ~ (exists old, all_checks_pass inp old) ->
  exists tr r, import_run inp = (tr, Refused r) /\ check_refusal r /\ safe_trace tr.
Proof.
  intros Hn. destruct (import_run inp) as [tr out] eqn:E.
  destruct (import_run_checks _ _ _ E) as [Hp|(Hs & r & -> & Hr)]; [contradiction|].
  exists tr, r. auto.
Qed.

(* the refusal conditions of the property, one by one *)
Definition refusal_condition (inp : input) : Prop :=
  (* the importing replica is not listed, or not at its own address *)
  alookup (in_replica inp) (in_members inp) <> Some (in_raft_address inp) \/
  (* the export directory is missing, or does not hold exactly one snapshot file *)
  in_src_exists inp = false \/ length (snapshot_files (in_entries inp)) <> 1%nat \/
  (* the metadata file is unreadable or corrupt *)
  (forall old, in_meta inp <> MetaOk old) \/
  (* the recorded checksum is not the checksum of the file *)
  (exists old, in_meta inp = MetaOk old /\ payload_checksum (in_file inp) <> CkOk (s_checksum old)) \/
  (* an external file named in the metadata is missing, a directory, or of another size *)
  (exists old f, in_meta inp = MetaOk old /\ In f (s_files old) /\
                 ext_file_present (in_entries inp) f = false) \/
  (* the list changes the address or kind of a member or re-admits a removed replica *)
  (exists old id a, in_meta inp = MetaOk old /\ In (id, a) (in_members inp) /\
                    bad_member (s_membership old) id a).

Lemma import_refused_when_proved inp :
  refusal_condition inp ->
  exists tr r, import_run inp = (tr, Refused r) /\ check_refusal r /\ safe_trace tr.
Proof.
  intros Hc. apply failed_check_refused. intros (old & H1 & (f & H2) & H3 & H4 & H6 & H5).
  apply check_import_settings_ok in H1. apply locate_ok in H2 as [H2 H2'].
  apply is_complete_image_spec in H4.
  destruct Hc as [Hc|[Hc|[Hc|[Hc|[Hc|[Hc|Hc]]]]]].
  - contradiction.
  - congruence.
  - rewrite H2' in Hc. apply Hc. reflexivity.
  - exact (Hc old H3).
  - destruct Hc as (old' & Hm & Hne). rewrite H3 in Hm. injection Hm as <-. contradiction.
  - destruct Hc as (old' & xf & Hm & Hin & Hp). rewrite H3 in Hm. injection Hm as <-.
    pose proof (proj1 (has_all_external_files_spec _ _) H6 xf Hin) as H6'. rewrite H6' in Hp. discriminate.
  - destruct Hc as (old' & id & a & Hm & Hin & Hbad). rewrite H3 in Hm. injection Hm as <-.
    exact (proj1 (check_members_iff_proved _ _) H5 id a Hin Hbad).
Qed.

Lemma checks_pass_when inp old :
  alookup (in_replica inp) (in_members inp) = Some (in_raft_address inp) ->
  in_src_exists inp = true -> (exists f, snapshot_files (in_entries inp) = [f]) ->
  in_meta inp = MetaOk old ->
  payload_checksum (in_file inp) = CkOk (s_checksum old) ->
  (forall f, In f (s_files old) -> ext_file_present (in_entries inp) f = true) ->
  (forall id a, In (id, a) (in_members inp) -> ~ bad_member (s_membership old) id a) ->
  all_checks_pass inp old.
Proof.
  intros H1 H2 (f & H3) H4 H5 H7 H6. unfold all_checks_pass. repeat split.
  - apply check_import_settings_ok, H1.
  - exists f. apply locate_ok. auto.
  - exact H4.
  - apply is_complete_image_spec, H5.
  - apply has_all_external_files_spec, H7.
  - apply check_members_iff_proved, H6.
Qed.

(* the writing steps, after the checks: an I/O error stops the run, or the
   processed record reaches the log store *)
Lemma env_fails_nil inp o : in_env_fail inp = [] -> env_fails inp o = false.
Proof. unfold env_fails. intros ->. reflexivity. Qed.

Ltac step_env inp o :=
  let F := fresh "F" in destruct (env_fails inp o) eqn:F; [step_fail F F; eauto | step_ok F F]; clear F.

Lemma run_writes inp old :
  let ss := get_processed (in_final_dir inp) old (in_members inp) in
  (exists o st, env_fails inp o = true /\
     run_ops inp (mkSt (rev checks) (Some old) None) writes = (st, Refused (REnv o))) \/
  run_ops inp (mkSt (rev checks) (Some old) None) writes =
    (mkSt (rev (checks ++ writes_of (in_ssdir_exists inp))) (Some old) (Some ss), Imported ss).
Proof.
  cbn zeta. unfold writes, checks. cbn [rev app].
  step_env inp ONewEnv. step_env inp OCreateNodeHostDir. step_env inp OOpenLogDB. step_env inp OCheckNodeHostDir.
  (* one of Cleanup / CreateSnapshotDir runs; the rest is the same *)
  destruct (in_ssdir_exists inp) eqn:Ex;
    [destruct (env_fails inp OCleanup) eqn:F; [step_fail Ex F; eauto|step_ok Ex F]; step_ok Ex Ex
    |step_ok Ex Ex; destruct (env_fails inp OCreateSSDir) eqn:F; [step_fail Ex F; eauto|step_ok Ex F]];
    clear F; step_env inp OCreateTemp; step_ok Ex Ex; step_env inp OCopy; step_env inp OFinalize;
    (destruct (env_fails inp OLogDBImport) eqn:F; [step_fail F F; eauto|]);
    (erewrite run_step_last; [|exec_with F F|reflexivity]); right; reflexivity.
Qed.

Lemma import_run_success inp old :
  all_checks_pass inp old -> in_env_fail inp = [] ->
  import_run inp = (checks ++ writes_of (in_ssdir_exists inp),
                    Imported (get_processed (in_final_dir inp) old (in_members inp))).
Proof.
  intros (H1 & (f & H2) & H3 & H4 & H6 & H5) He. pose proof (env_fails_nil inp) as Hf.
  unfold import_run. rewrite import_prog_eq. unfold init_state, checks. cbn [app].
  step_ok H1 H1. step_ok H2 (Hf OLocate He). step_ok H3 H3. step_ok H4 H4.
  step_ok H6 (Hf OCheckExtFiles He). step_ok H5 H5.
  change (run_ops inp _ writes) with (run_ops inp (mkSt (rev checks) (Some old) None) writes).
  destruct (run_writes inp old) as [(o & st & F & _)| ->]; [rewrite Hf in F by exact He; discriminate|].
  destruct (in_ssdir_exists inp); reflexivity.
Qed.

(* whatever the I/O oracle: a successful import passed all checks and recorded
   exactly the processed record, after copying and finalising *)
Lemma import_run_imported inp tr ss :
  import_run inp = (tr, Imported ss) ->
  exists old, all_checks_pass inp old /\
              ss = get_processed (in_final_dir inp) old (in_members inp) /\
              In OCopy tr /\ In OFinalize tr /\ In OLogDBImport tr.
Proof.
  unfold import_run. rewrite import_prog_eq.
  destruct (run_checks inp writes) as [(old & Hp & ->)|(st & r & -> & _)]; [|intros [=]].
  destruct (run_writes inp old) as [(o & st & _ & ->)| ->]; [intros [=]|].
  intros [= <- <-]. exists old. split; [exact Hp|]. split; [reflexivity|].
  destruct (in_ssdir_exists inp); cbn; auto 20.
Qed.

Local Transparent get_processed.

Definition del_indices (is : list N) (l : list snapshot) : list snapshot :=
  filter (fun s => negb (existsb (N.eqb (s_index s)) is)) l.

Lemma apply_deletes cs : forall ls,
  apply_wb (map (fun c => WDelete (KSnapshot (s_index c))) cs) ls =
  mkLS (ls_state ls) (ls_bootstrap ls) (ls_maxindex ls)
       (del_indices (map s_index cs) (ls_snapshots ls)) (ls_entries ls).
Proof.
  unfold apply_wb, del_indices. induction cs as [|c r IH]; intros ls; cbn [map fold_left].
  - destruct ls as [a b c d e]; cbn. f_equal. induction d as [|x l IHl]; cbn; [reflexivity|]. f_equal. exact IHl.
  - rewrite IH. cbn [apply_wop ls_state ls_bootstrap ls_maxindex ls_snapshots ls_entries]. f_equal.
    unfold snap_delete. induction (ls_snapshots ls) as [|x l IHl]; cbn [filter]; [reflexivity|].
    cbn [existsb]. destruct (s_index x =? s_index c) eqn:E; cbn [negb orb].
    + exact IHl.
    + cbn [filter]. destruct (negb (existsb (N.eqb (s_index x)) (map s_index r))); [f_equal|]; exact IHl.
Qed.

Lemma apply_wb_app a b ls : apply_wb (a ++ b) ls = apply_wb b (apply_wb a ls).
Proof. unfold apply_wb. apply fold_left_app. Qed.

Lemma filter_filter_nil {A} (f g : A -> bool) l :
  (forall x, In x l -> f x = false \/ g x = false) -> filter g (filter f l) = [].
Proof.
  induction l as [|x r IH]; intros H; cbn [filter]; [reflexivity|].
  assert (Hr : filter g (filter f r) = []) by (apply IH; intros y Hy; apply H; right; exact Hy).
  destruct (f x) eqn:Fx; [|exact Hr]. cbn [filter].
  destruct (H x (or_introl eq_refl)) as [Hx|Hx]; [congruence|]. rewrite Hx. exact Hr.
Qed.

Lemma existsb_index_in (x : snapshot) l :
  In x l -> existsb (N.eqb (s_index x)) (map s_index l) = true.
Proof.
  intros H. apply existsb_exists. exists (s_index x). split; [apply in_map, H|apply N.eqb_refl].
Qed.


Lemma import_wb_effect ls ss :
  s_index ss <> 0 ->
  apply_wb (import_wb ls ss) ls =
  mkLS (Some (mkHS (s_term ss) 0 (s_index ss)))
       (Some (mkBS true (s_type ss) []))
       (Some (s_index ss))
       [ss]
       (ls_entries ls).
Proof.
  intros Hi. unfold import_wb, save_snapshot_wb.
  apply N.eqb_neq in Hi. rewrite Hi. change logdb_bootstrap_join with true. change logdb_state_is_term_commit_index with true. cbv iota.
  rewrite !apply_wb_app. rewrite apply_deletes.
  change (apply_wb [WDelete KState; WDelete KBootstrap; WDelete KMaxIndex] ls) with
    (mkLS None None None (ls_snapshots ls) (ls_entries ls)).
  cbn [ls_state ls_bootstrap ls_maxindex ls_snapshots ls_entries].
  match goal with |- context [apply_wb [WPutBootstrap ?b; WPutState ?h] ?l] =>
    change (apply_wb [WPutBootstrap b; WPutState h] l) with
      (mkLS (Some h) (Some b) (ls_maxindex l) (ls_snapshots l) (ls_entries l)) end.
  cbn [ls_state ls_bootstrap ls_maxindex ls_snapshots ls_entries].
  rewrite apply_deletes.
  cbn [ls_state ls_bootstrap ls_maxindex ls_snapshots ls_entries].
  unfold del_indices at 1. unfold del_indices at 1.
  rewrite filter_filter_nil.
  - reflexivity.
  - intros x Hx. destruct (s_index ss <=? s_index x) eqn:Hle.
    + left. apply negb_false_iff. apply existsb_index_in. apply filter_In. auto.
    + right. apply negb_false_iff. apply existsb_index_in. apply filter_In. split; [exact Hx|].
      apply N.leb_gt in Hle. apply N.ltb_lt. exact Hle.
Qed.

(* nothing is visible at or above the max index *)
Lemma visible_above_max ls i lo : ls_maxindex ls = Some i -> i <= lo -> ls_visible_entries ls lo = [].
Proof.
  intros Hm Hlo. unfold ls_visible_entries. rewrite Hm. apply filter_nil. intros e _.
  destruct (lo <? fst e) eqn:E1; [|reflexivity]. apply N.ltb_lt in E1.
  destruct (fst e <=? i) eqn:E2; [|reflexivity]. apply N.leb_le in E2. lia.
Qed.

Lemma logstore_after_import_proved ls ss :
  s_index ss <> 0 -> s_type ss <> sm_unknown ->
  exists ls', logdb_import ls ss = LOk ls' /\
    ls_state ls' = Some (mkHS (s_term ss) 0 (s_index ss)) /\
    ls_snapshots ls' = [ss] /\ ls_get_snapshot ls' = Some ss /\
    ls_maxindex ls' = Some (s_index ss) /\
    ls_bootstrap ls' = Some (mkBS true (s_type ss) []) /\
    (forall lo, s_index ss <= lo -> ls_visible_entries ls' lo = []) /\
    ls_entries ls' = ls_entries ls.
Proof.
  intros Hi Ht. unfold logdb_import. apply N.eqb_neq in Ht. rewrite Ht.
  rewrite import_wb_effect by exact Hi. eexists. split; [reflexivity|].
  cbn [ls_state ls_bootstrap ls_maxindex ls_snapshots ls_entries]. repeat split.
  intros lo. apply visible_above_max. reflexivity.
Qed.

Lemma logdb_import_unknown_type_panics ls ss : s_type ss = sm_unknown -> logdb_import ls ss = LPanic.
Proof. intros H. unfold logdb_import. rewrite H, N.eqb_refl. reflexivity. Qed.

Lemma tan_matches_pebble_proved ls ss ls' :
  s_index ss <> 0 -> logdb_import ls ss = LOk ls' ->
  let t := tan_import ls ss in
  ls_state t = ls_state ls' /\ ls_bootstrap t = ls_bootstrap ls' /\
  ls_snapshots t = ls_snapshots ls' /\ ls_maxindex t = ls_maxindex ls' /\
  (forall lo, s_index ss <= lo -> ls_visible_entries t lo = ls_visible_entries ls' lo).
Proof.
  intros Hi H. unfold logdb_import in H. destruct (s_type ss =? sm_unknown); [discriminate|].
  rewrite import_wb_effect in H by exact Hi. injection H as <-.
  cbn zeta. unfold tan_import. change tan_bootstrap_join with true. apply N.eqb_neq in Hi. rewrite Hi.
  repeat split. intros lo Hlo. rewrite !(visible_above_max _ (s_index ss) lo) by (reflexivity || exact Hlo).
  reflexivity.
Qed.

(* an imported record is loaded on the initial recovery, whatever the state
   machine kind and whatever the on-disk state machine reports as applied *)
Lemma restart_loads_imported_image dst old members on_disk_sm last_applied ondisk_init ondisk :
  s_dummy old = false -> last_applied < s_index old ->
  do_recover on_disk_sm false last_applied ondisk_init ondisk (get_processed dst old members) true = RcLoaded.
Proof.
  intros Hd Hl. unfold do_recover.
  unfold get_processed. cbn [s_index s_witness s_dummy s_imported s_ondisk].
  rewrite Hd. cbn [orb].
  destruct (s_index old <=? last_applied) eqn:E; [apply N.leb_le in E; lia|].
  destruct on_disk_sm; cbn [negb]; [|reflexivity].
  unfold recover_required, check_recover_on_disk. cbn [s_imported s_ondisk].
  reflexivity.
Qed.

Lemma first_restart_loads dst old members on_disk_sm ondisk_init :
  s_dummy old = false -> 0 < s_index old ->
  restart_recover on_disk_sm false ondisk_init (get_processed dst old members) = RcLoaded.
Proof.
  intros Hd Hi. unfold restart_recover.
  assert (Hs : is_shrunk_snapshot on_disk_sm false (get_processed dst old members) = false).
  { unfold is_shrunk_snapshot, get_processed. cbn [s_witness s_dummy]. rewrite Hd.
    destruct on_disk_sm; reflexivity. }
  rewrite Hs. apply restart_loads_imported_image; assumption.
Qed.

(* every later start while the imported record is still the newest one: an
   on-disk state machine has shrunk the image after its first recovery - the
   shrunk image is NOT loaded (and nothing panics): the state machine keeps the
   state it opened with. Regular / concurrent state machines never shrink and
   load the intact image again (the log is replayed on top). *)
Lemma later_restart_skips_shrunk_image dst old members ondisk_init :
  s_dummy old = false -> 0 < s_index old ->
  restart_recover true true ondisk_init (get_processed dst old members) = RcSkipped.
Proof.
  intros Hd Hi. unfold restart_recover, is_shrunk_snapshot, do_recover, get_processed.
  cbn [s_index s_witness s_dummy s_imported s_ondisk negb orb]. rewrite Hd. cbn [orb].
  destruct (s_index old <=? 0) eqn:E; [apply N.leb_le in E; lia|].
  change shrunk_check_inspects_imported with true. cbn [orb andb].
  unfold check_partial_on_disk. cbn [s_ondisk].
  destruct (ondisk_init <? 0) eqn:E2; [apply N.ltb_lt in E2; lia|]. reflexivity.
Qed.

Lemma filter_mk_entries_all n : forall first term lo mx,
  lo < first -> first + N.of_nat n <= mx + 1 ->
  filter (fun e => (lo <? fst e) && (fst e <=? mx)) (mk_entries n first term) = mk_entries n first term.
Proof.
  induction n as [|n IH]; intros first term lo mx Hlo Hmx; cbn [mk_entries filter]; [reflexivity|].
  cbn [fst].
  assert (E1 : lo <? first = true) by (apply N.ltb_lt; exact Hlo).
  assert (E2 : first <=? mx = true) by (apply N.leb_le; lia).
  rewrite E1, E2. cbn [andb]. f_equal. apply IH; lia.
Qed.

Lemma mk_entries_above n : forall first term e, In e (mk_entries n first term) -> first <= fst e.
Proof.
  induction n as [|n IH]; intros first term e; cbn [mk_entries In]; [tauto|].
  intros [<-|H]; [cbn; lia|]. apply IH in H. lia.
Qed.

(* a store whose max index is i, whatever entries it holds: k entries appended
   right above i are exactly what is visible above i afterwards *)
Lemma visible_after_append ls i k term :
  ls_maxindex ls = Some i ->
  ls_visible_entries (apply_lsop ls (LSaveEntries (i + 1) k term)) i = mk_entries (N.to_nat k) (i + 1) term.
Proof.
  intros Hm. cbn [apply_lsop]. destruct (k =? 0) eqn:Hk.
  - apply N.eqb_eq in Hk. subst k. apply (visible_above_max ls i i Hm), N.le_refl.
  - apply N.eqb_neq in Hk. unfold ls_visible_entries. cbn [ls_maxindex ls_entries]. rewrite filter_app, filter_nil.
    + apply filter_mk_entries_all; [lia|]. rewrite N2Nat.id. lia.
    + intros e He. apply filter_In in He as [_ He]. apply N.ltb_lt in He.
      destruct (i <? fst e) eqn:E1; [|reflexivity]. apply N.ltb_lt in E1. lia.
Qed.

Lemma entries_after_import_readable_proved ls ss ls' k term :
  s_index ss <> 0 -> logdb_import ls ss = LOk ls' ->
  ls_visible_entries (apply_lsop ls' (LSaveEntries (s_index ss + 1) k term)) (s_index ss) =
  mk_entries (N.to_nat k) (s_index ss + 1) term.
Proof.
  intros Hi H. unfold logdb_import in H. destruct (s_type ss =? sm_unknown); [discriminate|].
  rewrite import_wb_effect in H by exact Hi. injection H as <-. apply visible_after_append. reflexivity.
Qed.

(* Tan: nothing of the new entries is hidden, the compaction point was reset *)
Lemma tan_entries_after_import_readable_proved t ss k term :
  s_index ss <> 0 ->
  ts_visible_entries (apply_tsop (tan_import_t t ss) (LSaveEntries (s_index ss + 1) k term)) (s_index ss) =
  mk_entries (N.to_nat k) (s_index ss + 1) term.
Proof.
  intros Hi. unfold tan_import_t. change tan_remove_all_resets_compaction with true. cbn iota.
  unfold apply_tsop, ts_visible_entries. cbn [ts_ls ts_compacted].
  rewrite visible_after_append by reflexivity. apply filter_all. intros e He. apply mk_entries_above in He.
  apply N.ltb_lt. lia.
Qed.

(* the snapshot directory of the replica does not exist: nothing is in it *)
Definition host_consistent_with (ssdir_exists : bool) (st : hstate) : Prop :=
  ssdir_exists = false -> h_old_images st = false /\ h_temp st = false /\ h_final st = false.

(* running the tool again after a power failure at any step (or on any other
   leftover state) ends in the completely repaired host *)
Lemma import_rerunnable_proved b st :
  host_consistent_with b st ->
  host_after (success_trace b) st = mkH false false false true true.
Proof.
  intros Hc. destruct st as [o t tc f r]. unfold host_consistent_with in Hc. cbn in Hc.
  destruct b.
  - destruct o, t, tc, f, r; reflexivity.
  - destruct (Hc eq_refl) as (-> & -> & ->). destruct tc, r; reflexivity.
Qed.

(* only logdb.ImportSnapshot writes the record *)
Lemma host_after_record tr : ~ In OLogDBImport tr ->
  forall st, h_record_imported (host_after tr st) = h_record_imported st.
Proof.
  unfold host_after. induction tr as [|o r IH]; intros N st; [reflexivity|]. cbn [fold_left].
  rewrite IH by (intros H; apply N; right; exact H).
  destruct o; try reflexivity; [cbn; destruct (_ && _ && _); reflexivity | destruct N; left; reflexivity].
Qed.

(* a host on which the export has not been imported yet: after ANY number of
   steps of a run, a power failure never leaves the log store naming the
   imported image without the finalised image being there: the record is
   written by the last step, when the image is in place *)
Lemma crash_never_half_imported_proved b k st :
  host_consistent_with b st -> h_record_imported st = false ->
  half_imported (host_after (firstn k (success_trace b)) st) = false.
Proof.
  intros Hc Hr. destruct (Nat.le_gt_cases (length (success_trace b)) k) as [L|L].
  - rewrite firstn_all2, import_rerunnable_proved by assumption. reflexivity.
  - unfold half_imported. rewrite host_after_record, Hr; [reflexivity|].
    replace (success_trace b) with (removelast (success_trace b) ++ [OLogDBImport]) by (destruct b; reflexivity).
    rewrite firstn_app.
    replace (k - length (removelast (success_trace b)))%nat with 0%nat by (destruct b; cbn in *; lia).
    rewrite app_nil_r. intros H.
    assert (I : In OLogDBImport (removelast (success_trace b))).
    { rewrite <- (firstn_skipn k). apply in_or_app. left. exact H. }
    destruct b; cbn in I; repeat (destruct I as [I|I]; [discriminate|]); exact I.
Qed.
