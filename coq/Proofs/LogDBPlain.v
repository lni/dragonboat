(* C09: the plain-format log db model (Model/LogDBPlain.v) refines the log store spec
   (Model/LogStoreSpec.v). RnG relates what the store answers on the keys of one replica, and the
   replica's cache entry, to its logical state; Section Store lifts a relation of that shape to whole
   stores, to SaveRaftState over several replicas and to runs (the batched format,
   Proofs/LogDBBatched.v, instantiates it too); then one lemma per operation and per query. *)
From Coq Require Import List NArith Bool Lia.
From DB Require Import Base.Bytes Gen.GenC09 Model.LogStoreSpec Model.KV Model.LogDBPlain
  Proofs.LogStoreSpec Proofs.LogDBKV.
Import ListNotations.
Open Scope N_scope.

Definition wt (k : key) (v : value) : Prop :=
  (k_tag k = c09_tag_entry -> exists e, v = VEntry e /\ e_index e = k_index k /\ 0 < k_index k) /\
  (k_tag k = c09_tag_snapshot -> exists ss, v = VSnap ss /\ ss_index ss = k_index k) /\
  (k_tag k = c09_tag_state -> exists st, v = VState st) /\
  (k_tag k = c09_tag_max_index -> exists i, v = VMax i).
Definition WT (m : kv) : Prop := forall k v, kv_get m k = Some v -> wt k v.

Lemma WT_snap : forall m n i v, WT m -> kv_get m (KSnapshot n i) = Some v ->
  exists ss, v = VSnap ss /\ ss_index ss = i.
Proof. intros m n i v HW G. destruct (HW _ _ G) as (_ & W & _). exact (W eq_refl). Qed.

Lemma wt_entry : forall n e, 0 < e_index e -> wt (KEntry n (e_index e)) (VEntry e).
Proof. intros n e H. repeat split; intros X; try discriminate X. now exists e. Qed.
Lemma wt_snap : forall n ss, wt (KSnapshot n (ss_index ss)) (VSnap ss).
Proof. intros n ss. repeat split; intros X; try discriminate X. now exists ss. Qed.
Lemma wt_state : forall n st, wt (KState n) (VState st).
Proof. intros n st. repeat split; intros X; try discriminate X. now exists st. Qed.
Lemma wt_max : forall n i, wt (KMaxIndex n) (VMax i).
Proof. intros n i. repeat split; intros X; try discriminate X. now exists i. Qed.
Lemma wt_untyped : forall k v, k_tag k = c09_tag_bootstrap \/ k_tag k = c09_tag_entry_batch -> wt k v.
Proof. intros k v [H|H]; repeat split; intros X; rewrite H in X; discriminate X. Qed.

Definition key_node (k : key) : nid := (k_shard k, k_replica k).

Lemma key_node_mk : forall t (n : nid) i, key_node (mkKey t (fst n) (snd n) i) = n.
Proof. now intros t [a b] i. Qed.

Lemma KEntry_inj : forall n i j, KEntry n i = KEntry n j -> i = j.
Proof. intros n i j H. unfold KEntry in H. now inversion H. Qed.
Lemma KSnapshot_inj : forall n i j, KSnapshot n i = KSnapshot n j -> i = j.
Proof. intros n i j H. unfold KSnapshot in H. now inversion H. Qed.

Definition gfun := key -> option value.
Definition gapply (w : wb) (g : gfun) : gfun :=
  fun k => match wb_last w k with Some r => r | None => g k end.

Lemma gapply_app : forall a b g k, gapply (a ++ b) g k = gapply b (gapply a g) k.
Proof. intros. unfold gapply. rewrite wb_last_app. now destruct (wb_last b k). Qed.

Lemma get_commit_g : forall w m k, sorted m -> kv_get (kv_commit m w) k = gapply w (kv_get m) k.
Proof. intros. unfold gapply. now apply get_commit. Qed.
Lemma gapply_snoc_put : forall w k0 v g k,
  gapply (w ++ [WPut k0 v]) g k = if key_eqb k k0 then Some v else gapply w g k.
Proof. intros. unfold gapply. rewrite wb_last_app. cbn [wb_last wkey]. now destruct (key_eqb k k0). Qed.

Record RnG (g : gfun) (cn : cnode) (nd : rnode) (n : nid) : Prop := mkRnG {
  g_contig : contig (n_marker nd + 1) (n_ents nd);
  g_ents : forall e, In e (n_ents nd) -> g (KEntry n (e_index e)) = Some (VEntry e);
  g_max : g (KMaxIndex n) = Some (VMax (n_last nd)) \/ (g (KMaxIndex n) = None /\ n_last nd = 0);
  g_cmax : forall v, c_max cn = Some v -> v = n_last nd;
  g_state : g (KState n) = option_map VState (n_st nd);
  g_cstate : forall st, c_state cn = Some st -> n_st nd = Some st;
  g_snap_hi : forall i, n_ssidx nd < i -> g (KSnapshot n i) = None;
  g_snap : match n_ss nd with
           | Some ss => g (KSnapshot n (ss_index ss)) = Some (VSnap ss) /\ 0 < ss_index ss
           | None => forall i, g (KSnapshot n i) = None
           end;
  g_csnap : forall v, c_snap cn = Some v -> v <= n_ssidx nd;
  g_ssb : n_ssidx nd < max_index;
  g_lastb : n_last nd < max_index
}.

Lemma RnG_ext : forall g g' cn nd n, RnG g cn nd n ->
  (forall k, key_node k = n -> k_tag k <> c09_tag_entry_batch -> g' k = g k) -> RnG g' cn nd n.
Proof.
  intros g g' cn nd n H HF.
  assert (HF' : forall t i, t <> c09_tag_entry_batch ->
            g' (mkKey t (fst n) (snd n) i) = g (mkKey t (fst n) (snd n) i)).
  { intros t i Ht. apply HF; [apply key_node_mk | exact Ht]. }
  destruct H. constructor; auto; unfold KEntry, KMaxIndex, KState, KSnapshot in *.
  - intros e HI. rewrite HF' by discriminate. auto.
  - rewrite !HF' by discriminate. auto.
  - rewrite HF' by discriminate. auto.
  - intros i Hi. rewrite HF' by discriminate. auto.
  - destruct (n_ss nd); [|intros i]; rewrite HF' by discriminate; auto.
Qed.

Lemma RnG_cache_snap : forall g cn nd n v, RnG g cn nd n -> v <= n_ssidx nd ->
  RnG g (mkC (c_state cn) (c_max cn) (Some v) (c_batch cn)) nd n.
Proof.
  intros g cn nd n v H Hv. destruct H. constructor; auto. cbn. intros v' E. inversion E; subst; auto.
Qed.

Lemma RnG_cache_empty : forall g cn nd n, RnG g cn nd n -> RnG g cnode_empty nd n.
Proof. intros g cn nd n H. destruct H. constructor; auto; cbn; intros; discriminate. Qed.

(* hard state and snapshot records, their cache fields and logical values untouched: the log side
   (entries, max index) is all there is to show *)
Lemma RnG_log : forall g g' cn cn' nd nd' n, RnG g cn nd n ->
  (forall k, k_tag k = c09_tag_state \/ k_tag k = c09_tag_snapshot -> key_node k = n -> g' k = g k) ->
  c_state cn' = c_state cn -> c_snap cn' = c_snap cn -> n_st nd' = n_st nd -> n_ss nd' = n_ss nd ->
  contig (n_marker nd' + 1) (n_ents nd') ->
  (forall e, In e (n_ents nd') -> g' (KEntry n (e_index e)) = Some (VEntry e)) ->
  (g' (KMaxIndex n) = Some (VMax (n_last nd')) \/ (g' (KMaxIndex n) = None /\ n_last nd' = 0)) ->
  (forall v, c_max cn' = Some v -> v = n_last nd') -> n_last nd' < max_index -> RnG g' cn' nd' n.
Proof.
  intros g g' cn cn' nd nd' n [_ _ _ _ G5 G6 G7 G8 G9 G10 _] HF Hs1 Hs2 Hst Hss HC HE HM HCm HL.
  assert (HF' : forall t i, t = c09_tag_state \/ t = c09_tag_snapshot ->
            g' (mkKey t (fst n) (snd n) i) = g (mkKey t (fst n) (snd n) i)).
  { intros t i Ht. apply HF; [exact Ht | apply key_node_mk]. }
  constructor; auto; unfold n_ssidx in *; rewrite ?Hst, ?Hss, ?Hs1, ?Hs2; auto; unfold KState, KSnapshot.
  - rewrite HF' by now left. exact G5.
  - intros i Hi. rewrite HF' by now right. now apply G7.
  - destruct (n_ss nd); [|intros i]; rewrite HF' by (now right); apply G8.
Qed.

Definition wb_in_node (w : wb) (n : nid) : Prop := forall o, In o w -> key_node (wkey o) = n.
Definition wb_wt (w : wb) : Prop := forall k v, In (WPut k v) w -> wt k v.
Lemma wb_in_node_app : forall a b n, wb_in_node a n -> wb_in_node b n -> wb_in_node (a ++ b) n.
Proof. intros a b n Ha Hb o HI. apply in_app_or in HI. destruct HI; auto. Qed.
Lemma wb_wt_app : forall a b, wb_wt a -> wb_wt b -> wb_wt (a ++ b).
Proof. intros a b Ha Hb k v HI. apply in_app_or in HI. destruct HI; [eapply Ha | eapply Hb]; eauto. Qed.

Definition wb_no_batch (w : wb) : Prop := forall o, In o w -> k_tag (wkey o) <> c09_tag_entry_batch.
Definition wb_ok (w : wb) (n : nid) : Prop := wb_in_node w n /\ wb_wt w /\ wb_no_batch w.

Lemma wb_ok_nil : forall n, wb_ok [] n.
Proof. intros n. split; [|split]; intros ? **; contradiction. Qed.
Lemma wb_ok_cons : forall o w n, key_node (wkey o) = n -> k_tag (wkey o) <> c09_tag_entry_batch ->
  (forall k v, o = WPut k v -> wt k v) -> wb_ok w n -> wb_ok (o :: w) n.
Proof.
  intros o w n H1 H2 H3 (A & B & C). split; [|split].
  - intros x [<-|HI]; auto.
  - intros k v [X|HI]; [now apply H3 | eapply B; eauto].
  - intros x [<-|HI]; auto.
Qed.
Lemma wb_ok_app : forall a b n, wb_ok a n -> wb_ok b n -> wb_ok (a ++ b) n.
Proof.
  intros a b n (A1 & A2 & A3) (B1 & B2 & B3). split; [now apply wb_in_node_app|]. split; [now apply wb_wt_app|].
  intros o HI. apply in_app_or in HI. destruct HI; auto.
Qed.
Lemma wb_ok_dels : forall {A} (f : A -> N) t n l, t <> c09_tag_entry_batch ->
  wb_ok (map (fun x => WDel (mkKey t (fst n) (snd n) (f x))) l) n.
Proof.
  intros A f t n l Ht. induction l as [|x l IH]; [apply wb_ok_nil|]. cbn [map].
  apply wb_ok_cons; [apply key_node_mk | exact Ht | intros k v X; discriminate X | exact IH].
Qed.
Definition wb_in_nodes (w : wb) (ns : list nid) : Prop := forall o, In o w -> In (key_node (wkey o)) ns.
Lemma wb_in_nodes_cons : forall a b n ns, wb_in_node a n -> wb_in_nodes b ns -> wb_in_nodes (a ++ b) (n :: ns).
Proof.
  intros a b n ns Ha Hb o HI. apply in_app_or in HI. destruct HI as [HI|HI]; [left; symmetry; now apply Ha | right; now apply Hb].
Qed.
Lemma wb_last_not_node : forall w ns k, wb_in_nodes w ns -> ~ In (key_node k) ns -> wb_last w k = None.
Proof.
  intros w ns k H Hk. apply wb_last_none. intros o HI X. apply Hk. rewrite <- X. now apply H.
Qed.
Lemma cupd_same : forall c n v, cupd c n v n = v.
Proof. intros. unfold cupd. now rewrite nid_eqb_refl. Qed.
Lemma cupd_other : forall c n v m, m <> n -> cupd c n v m = c m.
Proof. intros. unfold cupd. now rewrite nid_eqb_neq. Qed.
Lemma WT_commit : forall w m, sorted m -> WT m ->
  (forall k v, In (WPut k v) w -> wt k v) -> WT (kv_commit m w).
Proof.
  induction w as [|o w IH]; intros m HS HW HP; [exact HW|].
  change (kv_commit m (o :: w)) with (kv_commit (kv_apply m o) w). apply IH.
  - destruct o; cbn; [now apply sorted_put | now apply sorted_del].
  - intros k v. destruct o as [k0 v0|k0]; cbn [kv_apply].
    + rewrite get_put by auto. destruct (key_eqb k k0) eqn:E.
      * apply key_eqb_eq in E. subst. intros H; inversion H; subst. apply HP. now left.
      * apply HW.
    + rewrite get_del by auto. destruct (key_eqb k k0); [discriminate | apply HW].
  - intros k v HI. apply HP. now right.
Qed.

Section Store.
  Variable P : gfun -> cnode -> rnode -> nid -> Prop.
  Hypothesis P_ext : forall g g' cn nd n, P g cn nd n -> (forall k, key_node k = n -> g' k = g k) -> P g' cn nd n.

  Definition Rel (d : pdb) (s : sstate) : Prop :=
    sorted (p_kv d) /\ WT (p_kv d) /\ forall n, P (kv_get (p_kv d)) (p_cache d n) (s n) n.

  Lemma Rel_node : forall d s n m' c' s', Rel d s -> sorted m' -> WT m' ->
    (forall k, key_node k <> n -> kv_get m' k = kv_get (p_kv d) k) ->
    (forall n', n' <> n -> c' n' = p_cache d n' /\ s' n' = s n') ->
    P (kv_get m') (c' n) (s' n) n -> Rel (mkDB m' c') s'.
  Proof using P_ext.
    intros d s n m' c' s' (_ & _ & HR) HS' HW' HK HO HP. split; [exact HS' | split; [exact HW'|]].
    intros n'. cbn [p_kv p_cache]. destruct (nid_dec n' n) as [->|HN]; [exact HP|].
    destruct (HO n' HN) as [-> ->]. eapply P_ext; [apply HR|]. intros k Hk. apply HK. now rewrite Hk.
  Qed.

  (* SaveRaftState: what one update does to its replica, first loop (hard state, snapshot) then the
     second loop (entries, [tail]) started from any cache that agrees on the replica *)
  Variable tail : kv -> cache -> update -> option (cache * wb).
  Hypothesis node_save : forall m c nd n u, sorted m -> WT m ->
    P (kv_get m) (c n) nd n -> u_node u = n -> update_wf nd u = true ->
    exists c1 wh, save_head m c u = Some (c1, wh) /\
      (forall n', n' <> n -> c1 n' = c n') /\ wb_in_node wh n /\ wb_wt wh /\
      forall ct, ct n = c1 n ->
        exists ct' wt_, tail m ct u = Some (ct', wt_) /\
        (forall n', n' <> n -> ct' n' = ct n') /\ wb_in_node wt_ n /\ wb_wt wt_ /\
        P (gapply (wh ++ wt_) (kv_get m)) (ct' n) (update_step nd u) n.

  Fixpoint tails (m : kv) (c : cache) (us : list update) : option (cache * wb) :=
    match us with
    | [] => Some (c, [])
    | u :: t =>
      match tail m c u with
      | None => None
      | Some (c1, w1) =>
        match tails m c1 t with
        | None => None
        | Some (c2, w2) => Some (c2, w1 ++ w2)
        end
      end
    end.

  Lemma save_list : forall m, sorted m -> WT m -> forall us c s,
    nodes_distinct (map u_node us) = true ->
    (forall n, In n (map u_node us) -> P (kv_get m) (c n) (s n) n) ->
    forallb (fun u => update_wf (s (u_node u)) u) us = true ->
    exists c1 Wh, save_heads m c us = Some (c1, Wh) /\
      (forall n, ~ In n (map u_node us) -> c1 n = c n) /\
      wb_in_nodes Wh (map u_node us) /\ wb_wt Wh /\
      forall ct, (forall n, In n (map u_node us) -> ct n = c1 n) ->
        exists c2 Wt, tails m ct us = Some (c2, Wt) /\
        (forall n, ~ In n (map u_node us) -> c2 n = ct n) /\
        wb_in_nodes Wt (map u_node us) /\ wb_wt Wt /\
        forall n, In n (map u_node us) ->
          P (gapply (Wh ++ Wt) (kv_get m)) (c2 n) (save_step s us n) n.
  Proof using P_ext node_save.
    intros m HS HW. induction us as [|u us IH]; intros c s HD HR Hwf.
    - exists c, []. split; [reflexivity|]. split; [auto|]. split; [intros o []|]. split; [intros k v []|].
      intros ct _. exists ct, []. split; [reflexivity|]. split; [auto|]. split; [intros o []|].
      split; [intros k v []|]. intros n [].
    - cbn [map] in HD, HR. destruct (nodes_distinct_cons _ _ HD) as [Hnin HD'].
      cbn [forallb] in Hwf. apply andb_true_iff in Hwf. destruct Hwf as [Wu Wus].
      set (n0 := u_node u) in *.
      destruct (node_save m c (s n0) n0 u HS HW (HR n0 (or_introl eq_refl)) eq_refl Wu)
        as (c1a & wh & EH & O1 & Kh & Th & Tail).
      set (s' := supd s n0 (update_step (s n0) u)).
      destruct (IH c1a s' HD') as (c1 & Whr & EHr & Or & Khr & Thr & Tailr).
      { intros n HI. assert (n <> n0) by (intros ->; contradiction).
        rewrite O1 by auto. unfold s'. rewrite supd_other by auto. apply HR. now right. }
      { rewrite forallb_forall in *. intros x HI. unfold s'. rewrite supd_other; auto.
        intros X. apply Hnin. rewrite <- X. now apply in_map. }
      exists c1, (wh ++ Whr). cbn [save_heads]. rewrite EH, EHr. split; [reflexivity|].
      split; [|split; [|split]].
      + intros n Hn. cbn [map In] in Hn. rewrite Or by tauto. apply O1. intros ->. apply Hn. now left.
      + now apply wb_in_nodes_cons.
      + now apply wb_wt_app.
      + intros ct Hct. cbn [tails].
        assert (Hct0 : ct n0 = c1a n0).
        { rewrite Hct by (cbn [map]; now left). now apply Or. }
        destruct (Tail ct Hct0) as (cta & wt_ & ET & Ot & Kt & Tt & Rt). rewrite ET.
        destruct (Tailr cta) as (c2 & Wtr & ETr & Otr & Ktr & Ttr & Rtr).
        { intros n HI. assert (n <> n0) by (intros ->; contradiction).
          rewrite Ot by auto. apply Hct. cbn [map]. now right. }
        rewrite ETr. exists c2, (wt_ ++ Wtr). split; [reflexivity|].
        split; [|split; [|split]].
        * intros n Hn. cbn [map In] in Hn. rewrite Otr by tauto. apply Ot. intros ->. apply Hn. now left.
        * now apply wb_in_nodes_cons.
        * now apply wb_wt_app.
        * intros n Hn. cbn [map In] in Hn. destruct (nid_dec n n0) as [->|Hne].
          -- (* the first update's replica: the later updates write none of its keys *)
             rewrite Otr by auto.
             assert (save_step s (u :: us) n0 = update_step (s n0) u) as ->.
             { change (save_step s (u :: us) n0) with (save_step s' us n0).
               rewrite save_step_other by auto. unfold s'. apply supd_same. }
             eapply P_ext; [exact Rt|]. intros k Hk. unfold gapply.
             rewrite !wb_last_app.
             rewrite (wb_last_not_node Wtr _ k Ktr) by (rewrite Hk; auto).
             rewrite (wb_last_not_node Whr _ k Khr) by (rewrite Hk; auto).
             reflexivity.
          -- destruct Hn as [Hn|Hn]; [exfalso; apply Hne; symmetry; exact Hn|].
             assert (save_step s (u :: us) n = save_step s' us n) as -> by reflexivity.
             eapply P_ext; [exact (Rtr n Hn)|]. intros k Hk. unfold gapply.
             rewrite !wb_last_app.
             assert (wb_last wt_ k = None) as ->.
             { apply wb_last_none. intros o HI X. apply Hne. rewrite <- Hk, <- X. now apply Kt. }
             assert (wb_last wh k = None) as ->.
             { apply wb_last_none. intros o HI X. apply Hne. rewrite <- Hk, <- X. now apply Kh. }
             destruct (wb_last Wtr k); destruct (wb_last Whr k); reflexivity.
  Qed.

  Lemma save_Rel : forall d s us, Rel d s -> spec_wf_op s (OSave us) = true ->
    exists c1 Wh c2 Wt, save_heads (p_kv d) (p_cache d) us = Some (c1, Wh) /\
      tails (p_kv d) c1 us = Some (c2, Wt) /\
      Rel (mkDB (kv_commit (p_kv d) (Wh ++ Wt)) c2) (save_step s us).
  Proof using P_ext node_save.
    intros d s us (HS & HW & HR) Hwf. cbn [spec_wf_op] in Hwf. apply andb_true_iff in Hwf.
    destruct Hwf as [HD Hwf].
    destruct (save_list (p_kv d) HS HW us (p_cache d) s HD) as (c1 & Wh & EH & O1 & Kh & Th & Tail); auto.
    destruct (Tail c1 (fun n _ => eq_refl)) as (c2 & Wt & ET & O2 & Kt & Tt & RT).
    exists c1, Wh, c2, Wt. split; [exact EH|]. split; [exact ET|].
    split; [now apply sorted_commit | split].
    - apply WT_commit; auto. now apply wb_wt_app.
    - intros n. cbn [p_kv p_cache]. destruct (in_dec nid_dec n (map u_node us)) as [HI|HI].
      + eapply P_ext; [exact (RT n HI)|]. intros k _. now apply get_commit_g.
      + rewrite O2, O1 by auto. rewrite save_step_other by auto.
        eapply P_ext; [apply HR|]. intros k Hk. rewrite get_commit by auto.
        rewrite wb_last_app.
        rewrite (wb_last_not_node Wt _ k Kt) by (rewrite Hk; auto).
        rewrite (wb_last_not_node Wh _ k Kh) by (rewrite Hk; auto). reflexivity.
  Qed.

  Variables (step : pdb -> op -> option pdb) (query : pdb -> query -> ranswer * pdb).
  Hypothesis step_Rel : forall d s o, Rel d s -> spec_wf_op s o = true ->
    exists d', step d o = Some d' /\ Rel d' (spec_step s o).
  Hypothesis query_Rel : forall d s q, Rel d s -> Rel (snd (query d q)) s.

  Definition pstep (d : option pdb) (p : pop) : option pdb :=
    match d with
    | None => None
    | Some d => match p with PMut o => step d o | PQry q => Some (snd (query d q)) end
    end.

  Lemma run_Rel : forall l d s, Rel d s -> wf_ops s (muts l) = true ->
    exists d', fold_left pstep l (Some d) = Some d' /\ Rel d' (spec_run s (muts l)).
  Proof using step_Rel query_Rel.
    induction l as [|p l IH]; intros d s HR Hwf.
    - exists d. split; auto.
    - destruct p as [o|q].
      + cbn [muts flat_map app] in *. fold (muts l) in *. cbn [wf_ops] in Hwf.
        apply andb_true_iff in Hwf. destruct Hwf as [W1 W2].
        destruct (step_Rel d s o HR W1) as (d1 & E1 & R1).
        cbn [fold_left pstep]. rewrite E1. unfold spec_run. cbn [fold_left]. now apply IH.
      + cbn [muts flat_map app] in *. fold (muts l) in *. cbn [fold_left pstep].
        apply IH; auto.
  Qed.
End Store.

Definition R : pdb -> sstate -> Prop := Rel RnG.

Lemma RnG_node_ext : forall g g' cn nd n, RnG g cn nd n -> (forall k, key_node k = n -> g' k = g k) -> RnG g' cn nd n.
Proof. intros g g' cn nd n H HF. eapply RnG_ext; [exact H|]. intros k Hk _. now apply HF. Qed.

Lemma get_max_index_R : forall d s n, R d s ->
  get_max_index d n = Some (Some (n_last (s n))) \/
  (get_max_index d n = Some None /\ n_last (s n) = 0).
Proof.
  intros d s n (HS & HW & HR). specialize (HR n). unfold get_max_index.
  destruct (c_max (p_cache d n)) eqn:E.
  - left. now rewrite (g_cmax _ _ _ _ HR _ E).
  - destruct (g_max _ _ _ _ HR) as [H|[H H']]; rewrite H; auto.
Qed.

Lemma plain_scan_contig : forall (kf : entry -> key) F expected size maxsz, contig expected F ->
  plain_scan (map (fun e => (kf e, VEntry e)) F) expected size maxsz = Some (take_size maxsz size F).
Proof.
  induction F as [|e F IH]; intros expected size maxsz HC; [reflexivity|].
  destruct HC as [HC1 HC2]. cbn [map plain_scan take_size]. rewrite HC1, N.eqb_refl.
  destruct (maxsz <? size + esize e); auto.
  rewrite (IH (expected + 1) (size + esize e) maxsz HC2).
  now destruct (take_size maxsz (size + esize e) F).
Qed.

Lemma iterate_with_refines : forall iter d s n low high maxsz,
  contig (n_marker (s n) + 1) (n_ents (s n)) ->
  get_max_index d n = Some (Some (n_last (s n))) \/ (get_max_index d n = Some None /\ n_last (s n) = 0) ->
  spec_wf_query s (QIter n low high maxsz) = true ->
  (let F := filter (in_range low high) (n_ents (s n)) in
   n_marker (s n) < low <= high -> contig low F ->
   low + nlen F = N.max low (N.min high (n_last (s n) + 1)) ->
   iter (p_kv d) n (n_last (s n)) low high maxsz = let (es, sz) := take_size maxsz 0 F in RIter es sz) ->
  canon (QIter n low high maxsz) (p_iterate_with iter d n low high maxsz) = spec_answer s (QIter n low high maxsz).
Proof.
  intros iter d s n low high maxsz HC HMax Hwf Hiter.
  destruct (proj1 (wf_q_iter _ _ _ _ _) Hwf) as (W & _).
  cbn [spec_answer]. unfold p_iterate_with.
  destruct (filter_range_contig _ _ low high HC ltac:(lia)) as [FC FL].
  destruct HMax as [HM|[HM HL]]; rewrite HM.
  - rewrite (Hiter W FC) by (unfold n_last; lia).
    now destruct (take_size maxsz 0 (filter (in_range low high) (n_ents (s n)))).
  - unfold n_last in HL. assert (n_ents (s n) = []) as -> by (apply nlen_zero; lia). reflexivity.
Qed.

Lemma iterate_refines : forall d s n low high maxsz, R d s ->
  spec_wf_query s (QIter n low high maxsz) = true ->
  canon (QIter n low high maxsz) (p_iterate d n low high maxsz) = spec_answer s (QIter n low high maxsz).
Proof.
  intros d s n low high maxsz HR Hwf. pose proof HR as (HS & HW & HRn). specialize (HRn n).
  pose proof (g_contig _ _ _ _ HRn) as HC.
  apply iterate_with_refines; [exact HC | now apply get_max_index_R | exact Hwf|].
  intros F (W1 & W2) FC FL. unfold plain_iterate.
  destruct ((low + 1 =? high) && (low <=? n_last (s n))) eqn:E.
  - apply andb_true_iff in E. destruct E as [E1 E2]. apply N.eqb_eq in E1. apply N.leb_le in E2.
    destruct (contig_nth _ _ low HC) as (e & He1 & He2); [unfold n_last in *; lia|].
    rewrite <- He2. rewrite (g_ents _ _ _ _ HRn e He1).
    assert (F = [e]) as ->.
    { assert (nlen F = 1) by (unfold n_last in *; lia). destruct F as [|e' [|e'' F']] eqn:EF;
        try (rewrite ?nlen_cons in H; unfold nlen in H; cbn in H; lia).
      destruct FC as [FC _]. f_equal.
      assert (In e' (filter (in_range low high) (n_ents (s n)))) as HI by (fold F; rewrite EF; now left).
      apply filter_In in HI. destruct HI as [HI _]. eapply contig_inj; eauto. lia. }
    cbn [take_size]. replace (0 + esize e) with (esize e) by lia.
    now destruct (maxsz <? esize e).
  - set (high' := if n_last (s n) + 1 <? high then n_last (s n) + 1 else high).
    assert (high' = N.min high (n_last (s n) + 1)) as Hh.
    { unfold high'. destruct (n_last (s n) + 1 <? high) eqn:X;
        [apply N.ltb_lt in X | apply N.ltb_ge in X]; lia. }
    assert (kv_range (p_kv d) (KEntry n low) (KEntry n high') false
            = map (fun e => (KEntry n (e_index e), VEntry e)) F) as ->.
    { destruct (N.le_gt_cases high' low) as [X|X].
      - assert (F = []) as -> by (apply nlen_zero; unfold n_last in *; lia).
        cbn [map]. unfold KEntry. apply range_none; auto. intros x Hx. lia.
      - replace high' with (low + nlen F) by (unfold n_last in *; lia).
        unfold KEntry. apply range_contig; auto.
        intros e HI. apply filter_In in HI. destruct HI as [HI _].
        apply (g_ents _ _ _ _ HRn e HI). }
    rewrite (plain_scan_contig _ F low 0 maxsz FC).
    now destruct (take_size maxsz 0 F).
Qed.

Lemma get_state_R : forall d s n, R d s -> get_state (p_kv d) n = Some (n_st (s n)).
Proof.
  intros d s n (HS & HW & HR). unfold get_state. rewrite (g_state _ _ _ _ (HR n)).
  now destruct (n_st (s n)).
Qed.

Lemma plain_get_range_R : forall d s n arg, R d s ->
  n_marker (s n) <= arg -> arg < n_last (s n) ->
  exists first, plain_get_range (p_kv d) n arg (n_last (s n)) = Some (first, n_last (s n) - first + 1)
                /\ arg <= first <= arg + 1 /\ 0 < first.
Proof.
  intros d s n arg (HS & HW & HR) H1 H2. specialize (HR n).
  pose proof (g_contig _ _ _ _ HR) as HC. unfold n_last in *.
  unfold plain_get_range. unfold KEntry at 2. rewrite range_inc.
  unfold KEntry. rewrite range_step by (auto; lia).
  destruct (kv_get (p_kv d) (mkKey c09_tag_entry (fst n) (snd n) arg)) eqn:G.
  - destruct (HW _ _ G) as (W1 & _). destruct (W1 eq_refl) as (e & -> & We & Wp). cbn in We, Wp.
    cbn [app]. rewrite We. assert (arg =? 0 = false) as -> by (apply N.eqb_neq; lia).
    exists arg. repeat split; auto; lia.
  - cbn [app].
    destruct (filter_range_contig _ _ (arg + 1) (n_marker (s n) + nlen (n_ents (s n)) + 1) HC ltac:(lia)) as [FC FL].
    set (F := filter (in_range (arg + 1) (n_marker (s n) + nlen (n_ents (s n)) + 1)) (n_ents (s n))) in *.
    assert (mkKey c09_tag_entry (fst n) (snd n) (n_marker (s n) + nlen (n_ents (s n)) + 1)
            = mkKey c09_tag_entry (fst n) (snd n) (arg + 1 + nlen F)) as -> by (f_equal; lia).
    rewrite (range_contig F); auto.
    2:{ intros e HI. apply filter_In in HI. destruct HI as [HI _]. apply (g_ents _ _ _ _ HR e HI). }
    destruct F as [|e F'] eqn:EF; [change (nlen (@nil entry)) with 0 in FL; lia|].
    destruct FC as [FC1 FC2]. cbn [map]. rewrite FC1.
    assert (arg + 1 =? 0 = false) as -> by (apply N.eqb_neq; lia).
    exists (arg + 1). repeat split; auto; lia.
Qed.

Lemma read_state_with_refines : forall get_range d s n arg,
  get_state (p_kv d) n = Some (n_st (s n)) ->
  get_max_index d n = Some (Some (n_last (s n))) \/ (get_max_index d n = Some None /\ n_last (s n) = 0) ->
  (arg < n_last (s n) ->
   exists first, get_range (p_kv d) n arg (n_last (s n)) = Some (first, n_last (s n) - first + 1)
                 /\ arg <= first <= arg + 1 /\ 0 < first) ->
  spec_wf_query s (QState n arg) = true ->
  canon (QState n arg) (p_read_raft_state_with get_range d n arg) = spec_answer s (QState n arg).
Proof.
  intros get_range d s n arg HSt HMax HRange Hwf. apply wf_q_state in Hwf. destruct Hwf as [W1 W2].
  cbn [spec_answer]. unfold p_read_raft_state_with. rewrite HSt.
  destruct HMax as [HM|[HM HL]]; rewrite HM.
  - destruct (arg =? n_last (s n)) eqn:E.
    + apply N.eqb_eq in E. destruct (n_st (s n)); cbn [canon]; auto.
      assert (arg <? n_last (s n) = false) as -> by (apply N.ltb_ge; lia). reflexivity.
    + apply N.eqb_neq in E. destruct HRange as (first & -> & Hf & Hp); [lia|].
      destruct (n_st (s n)); cbn [canon]; auto.
      assert (arg <? n_last (s n) = true) as -> by (apply N.ltb_lt; lia).
      assert (0 <? n_last (s n) - first + 1 = true) as -> by (apply N.ltb_lt; lia).
      cbn [andb]. destruct (first <? arg + 1) eqn:X.
      * apply N.ltb_lt in X. assert (first = arg) by lia. subst first.
        replace (arg + 1 - arg) with 1 by lia.
        assert (n_last (s n) - arg + 1 <=? 1 = false) as -> by (apply N.leb_gt; lia).
        f_equal. lia.
      * apply N.ltb_ge in X. assert (first = arg + 1) by lia. subst first.
        assert (n_last (s n) - (arg + 1) + 1 =? 0 = false) as -> by (apply N.eqb_neq; lia).
        f_equal. lia.
  - destruct (n_st (s n)); cbn [canon]; auto.
    assert (arg <? n_last (s n) = false) as -> by (apply N.ltb_ge; lia). reflexivity.
Qed.

Lemma read_state_refines : forall d s n arg, R d s ->
  spec_wf_query s (QState n arg) = true ->
  canon (QState n arg) (p_read_raft_state d n arg) = spec_answer s (QState n arg).
Proof.
  intros d s n arg HR Hwf. apply read_state_with_refines; auto using get_state_R, get_max_index_R.
  intros H. apply plain_get_range_R; auto. now apply wf_q_state in Hwf.
Qed.

Definition snaps_of (l : kv) : option (list snapshot) :=
  fold_right (fun kv acc =>
      match acc, snd kv with
      | Some l, VSnap ss => Some (ss :: l)
      | _, _ => None
      end) (Some []) l.

Lemma list_snapshots_eq : forall m n,
  list_snapshots m n = snaps_of (kv_range m (KSnapshot n 0) (KSnapshot n (u64max + 1)) false).
Proof. intros. unfold list_snapshots, snaps_of. unfold KSnapshot at 2. now rewrite range_inc. Qed.

Lemma snaps_of_app : forall a b x y, snaps_of a = Some x -> snaps_of b = Some y ->
  snaps_of (a ++ b) = Some (x ++ y).
Proof.
  induction a as [|[k v] a IH]; cbn [app]; intros b x y H1 H2.
  - cbn in H1. inversion H1. auto.
  - cbn [snaps_of fold_right snd] in *. fold (snaps_of a) in H1. fold (snaps_of (a ++ b)).
    destruct (snaps_of a) as [xa|] eqn:EA; [|discriminate].
    destruct v; try discriminate. inversion H1; subst.
    rewrite (IH b xa y eq_refl H2). reflexivity.
Qed.

Lemma snaps_of_all : forall l, (forall k v, In (k, v) l -> exists ss, v = VSnap ss) ->
  exists x, snaps_of l = Some x /\ forall ss, In ss x <-> exists k, In (k, VSnap ss) l.
Proof.
  induction l as [|[k v] l IH]; intros H.
  - exists []. split; auto. intros ss. split; [contradiction | intros [k []]].
  - destruct IH as (x & Hx & Hin); [intros; eapply H; right; eauto|].
    destruct (H k v (or_introl eq_refl)) as (ss0 & ->).
    exists (ss0 :: x). split.
    + cbn [snaps_of fold_right snd]. fold (snaps_of l). now rewrite Hx.
    + intros ss. cbn [In]. rewrite Hin. split.
      * intros [->|[k' H']]; [exists k; now left | exists k'; now right].
      * intros [k' [H'|H']]; [inversion H'; now left | right; now exists k'].
Qed.

Lemma snap_range_elems : forall m n i j k v, sorted m -> WT m ->
  In (k, v) (kv_range m (KSnapshot n i) (KSnapshot n j) false) ->
  exists ss, v = VSnap ss /\ k = KSnapshot n (ss_index ss) /\ i <= ss_index ss < j /\
             kv_get m (KSnapshot n (ss_index ss)) = Some (VSnap ss).
Proof.
  intros m n i j k v HS HW HI. unfold kv_range in HI. apply filter_In in HI. destruct HI as [HI HR].
  cbn [fst] in HR. unfold in_rangeb in HR. apply andb_true_iff in HR. destruct HR as [R1 R2].
  apply key_leb_spec in R1. apply key_ltb_spec in R2. unfold KSnapshot in *.
  destruct (pre_between _ _ _ _ _ _ R1 R2) as (x & -> & Hx).
  apply get_in in HI; auto. destruct (HW _ _ HI) as (_ & W & _).
  destruct (W eq_refl) as (ss & -> & Wi). cbn in Wi. subst x. exists ss. auto.
Qed.

Lemma list_snapshots_spec : forall m n, sorted m -> WT m ->
  exists l, list_snapshots m n = Some l /\
    forall ss, In ss l <-> (kv_get m (KSnapshot n (ss_index ss)) = Some (VSnap ss) /\ ss_index ss <= u64max).
Proof.
  intros m n HS HW. rewrite list_snapshots_eq.
  destruct (snaps_of_all (kv_range m (KSnapshot n 0) (KSnapshot n (u64max + 1)) false)) as (x & Hx & Hin).
  { intros k v HI. destruct (snap_range_elems _ _ _ _ _ _ HS HW HI) as (ss & -> & _). eauto. }
  exists x. split; auto. intros ss. rewrite Hin. split.
  - intros [k HI]. destruct (snap_range_elems _ _ _ _ _ _ HS HW HI) as (ss' & E & _ & Hb & HG).
    inversion E; subst ss'. split; auto. lia.
  - intros [HG Hb]. exists (KSnapshot n (ss_index ss)). unfold kv_range. apply filter_In. split.
    + now apply get_in.
    + cbn [fst]. unfold in_rangeb. apply andb_true_iff. split.
      * apply key_leb_spec. unfold KSnapshot. apply pre_kle. lia.
      * apply key_ltb_spec. unfold KSnapshot. apply pre_klt. lia.
Qed.

Lemma last_opt_snoc : forall {A} (l : list A) a, last_opt (l ++ [a]) = Some a.
Proof.
  induction l as [|b l IH]; intros a; [reflexivity|].
  cbn [app last_opt]. rewrite IH. destruct (l ++ [a]) eqn:E; auto. destruct l; discriminate.
Qed.

Lemma list_snapshots_last : forall m n ss, sorted m -> WT m ->
  kv_get m (KSnapshot n (ss_index ss)) = Some (VSnap ss) -> ss_index ss <= u64max ->
  (forall i, ss_index ss < i -> kv_get m (KSnapshot n i) = None) ->
  exists l1, list_snapshots m n = Some (l1 ++ [ss]).
Proof.
  intros m n ss HS HW HG Hb HN. rewrite list_snapshots_eq. unfold KSnapshot in *.
  rewrite (range_split _ _ (mkKey c09_tag_snapshot (fst n) (snd n) (ss_index ss))) by (auto; apply pre_kle; lia).
  rewrite (range_step _ _ _ _ (ss_index ss)) by (auto; lia).
  rewrite HG. rewrite (range_none _ _ _ _ (ss_index ss + 1)); auto.
  2:{ intros x Hx. apply HN. lia. }
  destruct (snaps_of_all (kv_range m (mkKey c09_tag_snapshot (fst n) (snd n) 0)
                                     (mkKey c09_tag_snapshot (fst n) (snd n) (ss_index ss)) false)) as (x & Hx & _).
  { intros k v HI. destruct (snap_range_elems m n 0 (ss_index ss) k v HS HW HI) as (ss' & -> & _). eauto. }
  exists x. apply snaps_of_app; auto.
Qed.

Lemma list_snapshots_none : forall m n, sorted m ->
  (forall i, kv_get m (KSnapshot n i) = None) -> list_snapshots m n = Some [].
Proof.
  intros m n HS HN. rewrite list_snapshots_eq. unfold KSnapshot.
  rewrite range_none; [reflexivity | auto | intros; apply HN].
Qed.

Lemma max_index_u64 : max_index <= u64max.
Proof. unfold max_index, u64max. lia. Qed.

Lemma get_snapshot_refines : forall d s n, R d s ->
  canon (QSnap n) (fst (p_get_snapshot d n)) = spec_answer s (QSnap n) /\ R (snd (p_get_snapshot d n)) s.
Proof.
  intros d s n HR. pose proof HR as (HS & HW & HRn). pose proof (HRn n) as Hn.
  cbn [spec_answer]. unfold p_get_snapshot. pose proof (g_snap _ _ _ _ Hn) as Hs.
  pose proof max_index_u64 as HU. pose proof (g_ssb _ _ _ _ Hn) as Hb.
  destruct (n_ss (s n)) as [ss|] eqn:E.
  - destruct Hs as [Hs Hp].
    assert (n_ssidx (s n) = ss_index ss) as Hidx by (unfold n_ssidx; now rewrite E).
    destruct (list_snapshots_last _ n ss HS HW Hs) as (l1 & ->); [lia | |].
    { intros i Hi. apply (g_snap_hi _ _ _ _ Hn). lia. }
    rewrite last_opt_snoc. cbn [fst snd canon]. split; auto.
    split; [exact HS | split; [exact HW|]]. cbn [p_kv p_cache]. intros n'. unfold cs_set_snapshot_index, cupd.
    destruct (nid_eqb n' n) eqn:EN; auto. apply nid_eqb_eq in EN. subst n'.
    apply RnG_cache_snap; auto. lia.
  - rewrite (list_snapshots_none _ n HS Hs). cbn. auto.
Qed.

Lemma WT_del_range : forall m fk lk, sorted m -> WT m -> WT (kv_del_range m fk lk).
Proof.
  intros m fk lk HS HW k v. rewrite get_del_range by auto.
  destruct (in_rangeb fk lk false k); [discriminate | apply HW].
Qed.

Lemma del_range_other : forall m n idx k, sorted m ->
  (forall x, x < idx -> k <> KEntry n x) ->
  kv_get (kv_del_range m (KEntry n 0) (KEntry n idx)) k = kv_get m k.
Proof.
  intros m n idx k HS H. rewrite get_del_range by auto.
  destruct (in_rangeb (KEntry n 0) (KEntry n idx) false k) eqn:E; auto.
  apply in_range_prefix in E. destruct E as (x & -> & Hx). exfalso. eapply H; eauto.
Qed.

Lemma reopen_R : forall d s, R d s -> R (p_reopen d) s.
Proof.
  intros d s (HS & HW & HR). split; [exact HS | split; [exact HW|]]. intros n. cbn.
  eapply RnG_cache_empty. apply HR.
Qed.

Lemma key_node_neq : forall (k k' : key), key_node k <> key_node k' -> k <> k'.
Proof. intros k k' H E. apply H. now subst. Qed.

Lemma remove_entries_to_R : forall d s n idx, R d s -> spec_wf_op s (ORemTo n idx) = true ->
  R (p_remove_entries_to d n idx) (spec_step s (ORemTo n idx)).
Proof.
  intros d s n idx HR Hwf. pose proof HR as (HS & HW & HRn). apply wf_rem_to in Hwf.
  assert (HO : forall k, (forall x, x < idx -> k <> KEntry n x) ->
            kv_get (kv_del_range (p_kv d) (KEntry n 0) (KEntry n idx)) k = kv_get (p_kv d) k)
    by (intros; now apply del_range_other).
  apply (Rel_node RnG RnG_node_ext d s n);
    [exact HR | now apply sorted_del_range | now apply WT_del_range | | |].
  - intros k Hk. apply HO. intros x _ ->. apply Hk, key_node_mk.
  - intros n' Hn'. split; [reflexivity | now apply rem_to_other].
  - pose proof (HRn n) as Hn. cbn [p_cache].
    destruct (rem_to_node s n idx (g_contig _ _ _ _ Hn) Hwf) as (E1 & E2 & E3 & E4 & _ & C').
    eapply RnG_log; [exact Hn | | reflexivity | reflexivity | exact E1 | exact E2 | exact C' | | | |];
      rewrite ?E3.
    + intros k Hk _. apply HO. intros x _ ->. destruct Hk; discriminate.
    + intros e HI. rewrite E4 in HI. apply filter_In in HI. destruct HI as [A B]. apply N.ltb_lt in B.
      rewrite HO; [exact (g_ents _ _ _ _ Hn e A)|]. intros x Hx X. apply KEntry_inj in X. lia.
    + rewrite HO by (intros; discriminate). exact (g_max _ _ _ _ Hn).
    + exact (g_cmax _ _ _ _ Hn).
    + exact (g_lastb _ _ _ _ Hn).
Qed.

Lemma wb_last_dels : forall ks k,
  wb_last (map WDel ks) k = if existsb (key_eqb k) ks then Some None else None.
Proof.
  induction ks as [|k0 ks IH]; intros k; cbn [map wb_last existsb]; auto.
  rewrite IH. cbn [wkey]. destruct (existsb (key_eqb k) ks); [now rewrite orb_true_r|].
  rewrite orb_false_r. now destruct (key_eqb k k0).
Qed.

Lemma save_snapshot_wb_some : forall m n ss l, list_snapshots m n = Some l -> ss_emptyb ss = false ->
  save_snapshot_wb m n ss =
  Some (map WDel (map (fun old => KSnapshot n (ss_index old)) (filter (fun old => ss_index old <? ss_index ss) l))
        ++ [WPut (KSnapshot n (ss_index ss)) (VSnap ss)]).
Proof. intros m n ss l H E. unfold save_snapshot_wb. rewrite E, H. now rewrite map_map. Qed.

Lemma existsb_snap_keys : forall n (l : list snapshot) k,
  existsb (key_eqb k) (map (fun old => KSnapshot n (ss_index old)) l) = true <->
  exists old, In old l /\ k = KSnapshot n (ss_index old).
Proof.
  intros n l k. rewrite existsb_exists. split.
  - intros (x & HI & HE). apply in_map_iff in HI. destruct HI as (old & <- & HI).
    apply key_eqb_eq in HE. eauto.
  - intros (old & HI & ->). exists (KSnapshot n (ss_index old)). split; [|apply key_eqb_refl].
    apply in_map_iff. eauto.
Qed.

Lemma try_save_snapshot_spec : forall c n idx,
  let (c1, ok) := cs_try_save_snapshot c n idx in
  (forall n', n' <> n -> c1 n' = c n') /\
  c1 n = mkC (c_state (c n)) (c_max (c n)) (c_snap (c1 n)) (c_batch (c n)) /\
  match c_snap (c n) with
  | Some v => c1 = c /\ ok = (v <? idx)
  | None => c_snap (c1 n) = Some idx /\ ok = true
  end.
Proof.
  intros c n idx. unfold cs_try_save_snapshot. destruct (c_snap (c n)) as [v|] eqn:E.
  - split; [auto|]. split; [|auto]. rewrite E. destruct (c n); cbn in *; now subst.
  - rewrite cupd_same. split; [intros; now apply cupd_other|]. auto.
Qed.

Lemma save_snapshot_wb_ok : forall m n ss w, save_snapshot_wb m n ss = Some w -> wb_ok w n.
Proof.
  intros m n ss w H. unfold save_snapshot_wb in H. destruct (ss_emptyb ss); [inversion H; apply wb_ok_nil|].
  destruct (list_snapshots m n); [|discriminate]. inversion H. apply wb_ok_app.
  - apply (wb_ok_dels ss_index c09_tag_snapshot). discriminate.
  - apply wb_ok_cons; [apply key_node_mk | discriminate | | apply wb_ok_nil].
    intros k v X. inversion X. apply wt_snap.
Qed.

Lemma wb_ok_max : forall n i, wb_ok [WPut (KMaxIndex n) (VMax i)] n.
Proof.
  intros n i. apply wb_ok_cons; [apply key_node_mk | discriminate | | apply wb_ok_nil].
  intros k v X. inversion X. apply wt_max.
Qed.

Lemma snap_wb_effect : forall m n ss l, WT m ->
  (forall old, In old l <-> (kv_get m (KSnapshot n (ss_index old)) = Some (VSnap old) /\ ss_index old <= u64max)) ->
  ss_index ss <= u64max ->
  let w := map WDel (map (fun old => KSnapshot n (ss_index old)) (filter (fun old => ss_index old <? ss_index ss) l))
           ++ [WPut (KSnapshot n (ss_index ss)) (VSnap ss)] in
  wb_last w (KSnapshot n (ss_index ss)) = Some (Some (VSnap ss)) /\
  (forall i, i < ss_index ss -> wb_last w (KSnapshot n i) = Some None \/
                               (wb_last w (KSnapshot n i) = None /\ kv_get m (KSnapshot n i) = None)) /\
  (forall k, (forall i, i <= ss_index ss -> k <> KSnapshot n i) -> wb_last w k = None).
Proof.
  intros m n ss l HW Hl Hb w. subst w. repeat split.
  - rewrite wb_last_app. cbn [wb_last wkey]. now rewrite key_eqb_refl.
  - intros i Hi. rewrite wb_last_app. cbn [wb_last wkey].
    rewrite key_eqb_neq by (intros E; apply KSnapshot_inj in E; lia).
    rewrite wb_last_dels.
    destruct (existsb _ _) eqn:E; [now left | right; split; auto].
    destruct (kv_get m (KSnapshot n i)) eqn:G; auto. exfalso.
    destruct (WT_snap _ _ _ _ HW G) as (old & -> & Wi).
    assert (In old l) as HI by (apply Hl; rewrite Wi; split; [auto | lia]).
    apply not_true_iff_false in E. apply E. apply existsb_snap_keys. exists old. split; [|now rewrite Wi].
    apply filter_In. split; auto. apply N.ltb_lt. lia.
  - intros k Hk. rewrite wb_last_app. cbn [wb_last wkey].
    rewrite key_eqb_neq by (apply Hk; lia). rewrite wb_last_dels.
    destruct (existsb _ _) eqn:E; auto. exfalso. apply existsb_snap_keys in E.
    destruct E as (old & HI & ->). apply filter_In in HI. destruct HI as [_ HI]. apply N.ltb_lt in HI.
    eapply (Hk (ss_index old)); [lia | reflexivity].
Qed.

Definition oidx (o : option snapshot) : N := match o with Some ss => ss_index ss | None => 0 end.

(* db.saveSnapshot on a replica related to its logical state: the batch, and the snapshot records as any
   read function shows them that sees the batch applied *)
Lemma snapshot_saved : forall m g cn nd n ss, sorted m -> WT m -> RnG g cn nd n ->
  ss_emptyb ss = false -> ss_index ss < max_index -> (ss_index ss = n_ssidx nd -> n_ss nd = Some ss) ->
  exists w, save_snapshot_wb m n ss = Some w /\ wb_ok w n /\
    (forall k, (forall i, k <> KSnapshot n i) -> wb_last w k = None) /\
    forall g', (forall i, g' (KSnapshot n i) = gapply w g (KSnapshot n i)) ->
      let cur' := if n_ssidx nd <? ss_index ss then Some ss else n_ss nd in
      (forall i, oidx cur' < i -> g' (KSnapshot n i) = None) /\
      match cur' with
      | Some c => g' (KSnapshot n (ss_index c)) = Some (VSnap c) /\ 0 < ss_index c
      | None => forall i, g' (KSnapshot n i) = None
      end /\ oidx cur' < max_index.
Proof.
  intros m g cn nd n ss HS HW H E W1 Heq. pose proof max_index_u64 as HU.
  assert (0 < ss_index ss) as Hpos by (unfold ss_emptyb in E; apply N.eqb_neq in E; lia).
  destruct (list_snapshots_spec m n HS HW) as (l & HL & Hl).
  pose proof (save_snapshot_wb_ok m n ss) as OK. rewrite (save_snapshot_wb_some _ _ _ l HL E) in *.
  set (w := _ ++ [WPut _ _]) in *. exists w. split; [reflexivity|]. split; [exact (OK w eq_refl)|].
  destruct (snap_wb_effect m n ss l HW Hl ltac:(lia)) as (E1 & _ & E3). fold w in E1, E3.
  split; [intros k Hk; apply E3; intros i _; apply Hk|].
  intros g' Hg'.
  assert (G1 : g' (KSnapshot n (ss_index ss)) = Some (VSnap ss)) by (rewrite Hg'; unfold gapply; now rewrite E1).
  assert (G3 : forall i, ss_index ss < i -> g' (KSnapshot n i) = g (KSnapshot n i)).
  { intros i Hi. rewrite Hg'. unfold gapply. rewrite E3; auto. intros j Hj X. apply KSnapshot_inj in X. lia. }
  pose proof (g_snap_hi _ _ _ _ H) as Hhi. pose proof (g_snap _ _ _ _ H) as Hs. pose proof (g_ssb _ _ _ _ H) as Hb.
  change (n_ssidx nd) with (oidx (n_ss nd)) in *.
  destruct (oidx (n_ss nd) <? ss_index ss) eqn:E0.
  - apply N.ltb_lt in E0. cbn [oidx]. repeat split; auto; try lia.
    intros i Hi. rewrite G3 by lia. apply Hhi. lia.
  - apply N.ltb_ge in E0. destruct (n_ss nd) as [c|]; [|cbn in E0; lia]. cbn [oidx] in *.
    destruct Hs as [Hs Hp]. repeat split; auto.
    + intros i Hi. rewrite G3 by lia. apply Hhi. lia.
    + destruct (N.eq_dec (ss_index ss) (ss_index c)) as [X|X].
      * specialize (Heq X). inversion Heq; subst. auto.
      * rewrite G3 by lia. auto.
Qed.

(* trySaveSnapshot on a related replica: a yes leaves a cached index bounded by the newest snapshot
   after the save, a no means an index at least as new is recorded *)
Lemma try_save_snapshot_R : forall g c nd n ss, RnG g (c n) nd n ->
  let (c1, ok) := cs_try_save_snapshot c n (ss_index ss) in
  (forall n', n' <> n -> c1 n' = c n') /\
  c1 n = mkC (c_state (c n)) (c_max (c n)) (c_snap (c1 n)) (c_batch (c n)) /\
  if ok then forall v, c_snap (c1 n) = Some v ->
                       v <= oidx (if n_ssidx nd <? ss_index ss then Some ss else n_ss nd)
  else c1 = c /\ ss_index ss <= n_ssidx nd.
Proof.
  intros g c nd n ss H. pose proof (try_save_snapshot_spec c n (ss_index ss)) as TS.
  destruct (cs_try_save_snapshot c n (ss_index ss)) as [c1 ok]. destruct TS as (O & E & TS).
  split; [exact O|]. split; [exact E|].
  assert (Hmax : forall v, v <= n_ssidx nd \/ v = ss_index ss ->
            v <= oidx (if n_ssidx nd <? ss_index ss then Some ss else n_ss nd)).
  { intros v Hv. change (n_ssidx nd) with (oidx (n_ss nd)) in *.
    destruct (oidx (n_ss nd) <? ss_index ss) eqn:Y; [apply N.ltb_lt in Y | apply N.ltb_ge in Y];
      cbn [oidx]; destruct Hv; lia. }
  destruct (c_snap (c n)) as [v0|] eqn:EC.
  - destruct TS as [-> ->]. pose proof (g_csnap _ _ _ _ H v0 EC) as B. destruct (v0 <? ss_index ss) eqn:EV.
    + intros v X. apply Hmax. left. congruence.
    + split; [reflexivity|]. apply N.ltb_ge in EV. lia.
  - destruct TS as [Y ->]. intros v X. apply Hmax. right. congruence.
Qed.

Lemma save_snapshots_R : forall d s n ss, R d s -> spec_wf_op s (OSnap n ss) = true ->
  exists d', plain_step d (OSnap n ss) = Some d' /\ R d' (spec_step s (OSnap n ss)).
Proof.
  intros d s n ss HR Hwf. pose proof HR as (HS & HW & HRn). cbn [spec_wf_op] in Hwf.
  rewrite !andb_true_iff in Hwf. destruct Hwf as ((W1 & W2) & W3).
  apply negb_true_iff in W1. apply N.leb_le in W2.
  pose proof (HRn n) as Hn. pose proof (g_ssb _ _ _ _ Hn) as Hb. pose proof max_index_u64 as HU.
  assert (0 < ss_index ss) as Hpos by (unfold ss_emptyb in W1; apply N.eqb_neq in W1; lia).
  assert (Heq : ss_index ss = n_ssidx (s n) -> n_ss (s n) = Some ss).
  { intros X. rewrite X, N.eqb_refl in W3. cbn in W3. destruct (n_ss (s n)); [|discriminate].
    apply ss_eqb_eq in W3. now subst. }
  cbn [plain_step]. unfold p_save_snapshots. cbn [save_snapshots_wb mk_snap_update u_ss u_node]. rewrite W1.
  pose proof (try_save_snapshot_R _ (p_cache d) _ n ss Hn) as TS.
  destruct (cs_try_save_snapshot (p_cache d) n (ss_index ss)) as [c1 ok]. destruct TS as (HC1 & HC2 & TS).
  destruct ok.
  - pose proof (g_lastb _ _ _ _ Hn) as Hlb.
    destruct (snapshot_saved (p_kv d) _ _ _ n ss HS HW Hn W1 ltac:(lia) Heq) as (w & -> & (Kn & Kw & _) & E3 & SC).
    eexists. split; [reflexivity|]. rewrite app_nil_r.
    pose proof (fun k => get_commit w (p_kv d) k HS) as HG.
    apply (Rel_node RnG RnG_node_ext d s n); [exact HR | now apply sorted_commit | now apply WT_commit | | |].
    + intros k Hk. rewrite HG, wb_last_none; [reflexivity|]. intros o HI <-. apply Hk. now apply Kn.
    + intros n' Hn'. split; [now apply HC1|]. cbn [spec_step]. destruct (_ <? _); [now apply supd_other | reflexivity].
    + assert (HO : forall k, (forall i, k <> KSnapshot n i) -> kv_get (kv_commit (p_kv d) w) k = kv_get (p_kv d) k).
      { intros k Hk. rewrite HG, E3; auto. }
      destruct (SC (kv_get (kv_commit (p_kv d) w)) (fun i => HG _)) as (C1 & C2 & C3).
      cbn [spec_step].
      assert ((if n_ssidx (s n) <? ss_index ss
               then supd s n (mkNode (n_marker (s n)) (n_mterm (s n)) (n_ents (s n)) (n_st (s n)) (Some ss)) else s) n
              = mkNode (n_marker (s n)) (n_mterm (s n)) (n_ents (s n)) (n_st (s n))
                       (if n_ssidx (s n) <? ss_index ss then Some ss else n_ss (s n))) as ->.
      { destruct (n_ssidx (s n) <? ss_index ss); [apply supd_same | now destruct (s n)]. }
      destruct Hn. constructor; cbn [n_marker n_mterm n_ents n_st n_ss]; auto; try rewrite HC2; cbn [c_state c_max c_snap]; auto.
      * intros e HI. rewrite HO by (intros; discriminate). auto.
      * rewrite HO by (intros; discriminate). auto.
      * rewrite HO by (intros; discriminate). auto.
  - (* an index at least as new is cached: nothing is written *)
    destruct TS as [-> Hle]. eexists. split; [reflexivity|]. cbn [kv_commit fold_left spec_step].
    assert (n_ssidx (s n) <? ss_index ss = false) as -> by (apply N.ltb_ge; lia).
    split; [exact HS | split; [exact HW | exact HRn]].
Qed.

Lemma remove_node_wb_last : forall n l k,
  wb_last (remove_node_wb n l) k =
  if existsb (key_eqb k) (map (fun old => KSnapshot n (ss_index old)) l) then Some None
  else if key_eqb k (KMaxIndex n) then Some None
  else if key_eqb k (KBootstrap n) then Some None
  else if key_eqb k (KState n) then Some None else None.
Proof.
  intros n l k. unfold remove_node_wb. rewrite wb_last_app. rewrite <- map_map with (g := WDel).
  rewrite wb_last_dels. destruct (existsb _ _); auto.
  cbn [wb_last wkey]. destruct (key_eqb k (KMaxIndex n)); auto. destruct (key_eqb k (KBootstrap n)); auto.
Qed.

Lemma remove_node_wb_ok : forall n l, wb_ok (remove_node_wb n l) n.
Proof.
  intros n l. unfold remove_node_wb. apply wb_ok_app.
  - repeat (apply wb_ok_cons; [apply key_node_mk | discriminate | intros k v X; discriminate X |]). apply wb_ok_nil.
  - apply (wb_ok_dels ss_index c09_tag_snapshot). discriminate.
Qed.

Lemma remove_node_commit : forall m n l, sorted m -> WT m ->
  (forall ss, In ss l <-> kv_get m (KSnapshot n (ss_index ss)) = Some (VSnap ss) /\ ss_index ss <= u64max) ->
  (forall i, u64max < i -> kv_get m (KSnapshot n i) = None) ->
  let m1 := kv_commit m (remove_node_wb n l) in
  sorted m1 /\ WT m1 /\
  kv_get m1 (KMaxIndex n) = None /\ kv_get m1 (KState n) = None /\ (forall i, kv_get m1 (KSnapshot n i) = None) /\
  (forall k, key_node k <> n \/ k_tag k = c09_tag_entry_batch -> kv_get m1 k = kv_get m k).
Proof.
  intros m n l HS HW Hl Hhi m1.
  pose proof (fun k => get_commit (remove_node_wb n l) m k HS) as HG. fold m1 in HG.
  split; [now apply sorted_commit|]. split.
  { apply WT_commit; auto. apply remove_node_wb_ok. }
  split; [|split; [|split]].
  - rewrite HG, remove_node_wb_last. destruct (existsb _ _); auto. now rewrite key_eqb_refl.
  - rewrite HG, remove_node_wb_last. destruct (existsb _ _); auto.
    rewrite !(key_eqb_neq (KState n)) by discriminate. now rewrite key_eqb_refl.
  - intros i. rewrite HG, remove_node_wb_last. destruct (existsb _ _) eqn:E; auto.
    rewrite !key_eqb_neq by discriminate.
    destruct (kv_get m (KSnapshot n i)) eqn:G; auto. exfalso.
    destruct (WT_snap _ _ _ _ HW G) as (old & -> & Wi).
    destruct (N.le_gt_cases i u64max) as [X|X]; [|rewrite Hhi in G by exact X; discriminate].
    assert (In old l) as HI by (apply Hl; rewrite Wi; auto).
    apply not_true_iff_false in E. apply E. apply existsb_snap_keys. exists old. now rewrite Wi.
  - intros k Hk. rewrite HG, wb_last_none; [reflexivity|]. intros o HI <-.
    destruct (remove_node_wb_ok n l) as (A & _ & C). destruct Hk as [Hk|Hk]; [exact (Hk (A o HI)) | exact (C o HI Hk)].
Qed.

Lemma RnG_removed : forall g n, g (KMaxIndex n) = None -> g (KState n) = None ->
  (forall i, g (KSnapshot n i) = None) -> RnG g (mkC None (Some 0) None None) empty_node n.
Proof.
  intros g n HM HSt HSn.
  constructor; cbn [empty_node n_marker n_ents n_st n_ss n_mterm c_state c_max c_snap option_map];
    try (intros; discriminate); auto.
  - exact I.
  - intros e [].
  - intros v X. now inversion X.
  - unfold n_ssidx, max_index. cbn. lia.
  - unfold n_last, max_index, nlen. cbn. lia.
Qed.

Lemma snap_above_u64 : forall g cn nd n, RnG g cn nd n -> forall i, u64max < i -> g (KSnapshot n i) = None.
Proof.
  intros g cn nd n H i Hi. apply (g_snap_hi _ _ _ _ H). pose proof (g_ssb _ _ _ _ H). pose proof max_index_u64. lia.
Qed.

Lemma remove_node_cache : forall c n n',
  cs_remove_node_data (cs_set_max_index c n 0) n n' = if nid_eqb n' n then mkC None (Some 0) None None else c n'.
Proof. intros. unfold cs_remove_node_data, cs_set_max_index, cupd. cbv beta. rewrite nid_eqb_refl. now destruct (nid_eqb n' n). Qed.

Lemma remove_node_data_R : forall d s n, R d s ->
  exists d', plain_step d (ORemNode n) = Some d' /\ R d' (spec_step s (ORemNode n)).
Proof.
  intros d s n HR. pose proof HR as (HS & HW & HRn).
  destruct (list_snapshots_spec (p_kv d) n HS HW) as (l & HL & Hl).
  cbn [plain_step]. unfold p_remove_node_data. rewrite HL. eexists. split; [reflexivity|].
  unfold p_remove_entries_to. cbn [p_kv p_cache spec_step].
  destruct (remove_node_commit (p_kv d) n l HS HW Hl (snap_above_u64 _ _ _ _ (HRn n)))
    as (HS1 & HW1 & GM & GS & GSn & GO).
  set (m1 := kv_commit (p_kv d) (remove_node_wb n l)) in *.
  apply (Rel_node RnG RnG_node_ext d s n); [exact HR | now apply sorted_del_range | now apply WT_del_range | | |].
  - intros k Hk. rewrite del_range_other; [apply GO; now left | exact HS1|]. intros x _ ->. apply Hk, key_node_mk.
  - intros n' Hn'. rewrite remove_node_cache, (nid_eqb_neq _ _ Hn'). split; [reflexivity | now apply supd_other].
  - rewrite supd_same, remove_node_cache, nid_eqb_refl.
    apply RnG_removed; intros; (rewrite del_range_other by (auto; discriminate)); auto.
Qed.

Lemma import_wb_ok : forall n ss sel w2, wb_ok w2 n ->
  wb_ok ((remove_node_wb n sel ++ [WPut (KBootstrap n) VBoot; WPut (KState n) (VState (mkSt (ss_term ss) 0 (ss_index ss)))])
         ++ w2 ++ [WPut (KMaxIndex n) (VMax (ss_index ss))]) n.
Proof.
  intros n ss sel w2 OK2.
  apply wb_ok_app; [apply wb_ok_app; [apply remove_node_wb_ok|] | apply wb_ok_app; [exact OK2 | apply wb_ok_max]].
  apply wb_ok_cons; [apply key_node_mk | discriminate | | apply wb_ok_cons; [apply key_node_mk | discriminate | | apply wb_ok_nil]];
    intros k v X; inversion X; [apply wt_untyped; now left | apply wt_state].
Qed.

Lemma import_snapshot_R : forall d s n ss, R d s -> spec_wf_op s (OImport n ss) = true ->
  exists d', plain_step d (OImport n ss) = Some d' /\ R d' (spec_step s (OImport n ss)).
Proof.
  intros d s n ss HR Hwf. pose proof HR as (HS & HW & HRn). cbn [spec_wf_op] in Hwf. rewrite !andb_true_iff in Hwf.
  destruct Hwf as ((W1 & W2) & W3). apply negb_true_iff in W1. apply N.ltb_lt in W2.
  assert (0 < ss_index ss) as Hpos by (unfold ss_emptyb in W1; apply N.eqb_neq in W1; lia).
  pose proof (HRn n) as Hn. pose proof max_index_u64 as HU.
  destruct (list_snapshots_spec (p_kv d) n HS HW) as (l & HL & Hl).
  cbn [plain_step]. unfold p_import_snapshot. cbn [p_reopen p_kv p_cache]. rewrite HL.
  pose proof (save_snapshot_wb_ok (p_kv d) n ss) as OK2. rewrite (save_snapshot_wb_some _ _ _ l HL W1) in *.
  eexists. split; [reflexivity|].
  set (sel := filter (fun cur => ss_index ss <=? ss_index cur) l).
  set (w2 := _ ++ [WPut (KSnapshot n (ss_index ss)) _]) in *.
  set (st' := mkSt (ss_term ss) 0 (ss_index ss)).
  set (w := (remove_node_wb n sel ++ [WPut (KBootstrap n) VBoot; WPut (KState n) (VState st')])
            ++ w2 ++ [WPut (KMaxIndex n) (VMax (ss_index ss))]).
  pose proof (import_wb_ok n ss sel w2 (OK2 w2 eq_refl)) as OK. fold st' w in OK.
  destruct OK as (Kn & Kw & _).
  destruct (snap_wb_effect (p_kv d) n ss l HW Hl ltac:(lia)) as (E1 & E2 & E3).
  fold w2 in E1, E2, E3.
  pose proof (fun k => get_commit w (p_kv d) k HS) as HG.
  cbn [p_reopen p_kv p_cache spec_step].
  apply (Rel_node RnG RnG_node_ext (p_reopen d) s n);
    [now apply reopen_R | now apply sorted_commit | now apply WT_commit | | |].
  - intros k Hk. cbn [p_reopen p_kv]. rewrite HG, wb_last_none; [reflexivity|]. intros o HI <-. apply Hk. now apply Kn.
  - intros n' Hn'. split; [reflexivity | now apply supd_other].
  - rewrite supd_same.
    assert (LM : wb_last w (KMaxIndex n) = Some (Some (VMax (ss_index ss)))).
    { subst w. rewrite !wb_last_app. cbn [wb_last wkey]. now rewrite key_eqb_refl. }
    assert (LS : wb_last w (KState n) = Some (Some (VState st'))).
    { subst w. rewrite !wb_last_app. cbn [wb_last wkey].
      rewrite (key_eqb_neq (KState n) (KMaxIndex n)) by discriminate.
      rewrite E3 by (intros; discriminate). now rewrite key_eqb_refl. }
    assert (LK : forall i, wb_last w (KSnapshot n i) =
              match wb_last w2 (KSnapshot n i) with Some r => Some r
              | None => wb_last (remove_node_wb n sel) (KSnapshot n i) end).
    { intros i. subst w. rewrite !wb_last_app. cbn [wb_last wkey].
      rewrite !(key_eqb_neq (KSnapshot n i)) by discriminate.
      destruct (wb_last w2 (KSnapshot n i)); auto. }
    (* every record but the imported one goes: the newer ones with the node's data, the older ones
       by saveSnapshot *)
    assert (SN : forall i, i <> ss_index ss -> kv_get (kv_commit (p_kv d) w) (KSnapshot n i) = None).
    { intros i Hi. rewrite HG, LK. destruct (N.lt_ge_cases i (ss_index ss)) as [X|X].
      - destruct (E2 i X) as [->|[-> G]]; auto.
        rewrite remove_node_wb_last. destruct (existsb _ _); auto.
      - rewrite E3 by (intros j Hj Y; apply KSnapshot_inj in Y; lia).
        rewrite remove_node_wb_last. destruct (existsb _ _) eqn:E; auto.
        rewrite !key_eqb_neq by discriminate.
        destruct (kv_get (p_kv d) (KSnapshot n i)) eqn:G; auto. exfalso.
        destruct (WT_snap _ _ _ _ HW G) as (old & -> & Wi).
        destruct (N.le_gt_cases i u64max) as [Y|Y]; [|rewrite (snap_above_u64 _ _ _ _ Hn i Y) in G; discriminate].
        assert (In old l) as HI by (apply Hl; rewrite Wi; auto).
        apply not_true_iff_false in E. apply E. apply existsb_snap_keys. exists old. split; [|now rewrite Wi].
        apply filter_In. split; auto. apply N.leb_le. lia. }
    constructor; cbn [cache_empty cnode_empty n_marker n_ents n_st n_ss n_mterm c_state c_max c_snap];
      try (intros; discriminate).
    + exact I.
    + intros e [].
    + left. rewrite HG, LM. unfold n_last, nlen. cbn [n_marker n_ents length]. f_equal. f_equal. lia.
    + rewrite HG, LS. reflexivity.
    + intros i Hi. apply SN. unfold n_ssidx in Hi. cbn [n_ss] in Hi. lia.
    + split; auto. rewrite HG, LK, E1. reflexivity.
    + unfold n_ssidx; cbn [n_ss]; lia.
    + unfold n_last, nlen; cbn [n_marker n_ents length]; lia.
Qed.

Definition state_part (c : cache) (n : nid) (st : hstate) : cache * wb :=
  if st_emptyb st then (c, [])
  else let (c', changed) := cs_set_state c n st in
       (c', if changed then [WPut (KState n) (VState st)] else []).

Lemma stage_state : forall g c nd n st, RnG g (c n) nd n ->
  let (c1, w1) := state_part c n st in
  RnG (gapply w1 g) (c1 n) (upd_st_step nd st) n /\
  (forall n', n' <> n -> c1 n' = c n') /\ c_batch (c1 n) = c_batch (c n) /\ wb_ok w1 n.
Proof.
  intros g c nd n st H. unfold state_part, upd_st_step.
  destruct (st_emptyb st) eqn:E.
  - split; [|split; [|split]]; auto using wb_ok_nil.
  - unfold cs_set_state.
    set (cn' := mkC (Some st) (c_max (c n)) (c_snap (c n)) (c_batch (c n))).
    set (nd' := mkNode (n_marker nd) (n_mterm nd) (n_ents nd) (Some st) (n_ss nd)).
    set (w := [WPut (KState n) (VState st)]).
    assert (HW : RnG (gapply w g) (cupd c n cn' n) nd' n /\ (forall n', n' <> n -> cupd c n cn' n' = c n') /\
                 c_batch (cupd c n cn' n) = c_batch (c n) /\ wb_ok w n).
    { rewrite cupd_same. split; [|split; [intros n' Hn'; now apply cupd_other | split; [reflexivity|]]].
      2:{ apply wb_ok_cons; [apply key_node_mk | discriminate | | apply wb_ok_nil]. intros k v X. inversion X. apply wt_state. }
      assert (HO : forall k, k <> KState n -> gapply w g k = g k).
      { intros k Hk. unfold gapply, w. cbn [wb_last wkey]. now rewrite key_eqb_neq. }
      destruct H. constructor; cbn [n_marker n_mterm n_ents n_st n_ss c_state c_max c_snap cn' nd']; auto.
      unfold gapply, w. cbn [wb_last wkey]. now rewrite key_eqb_refl. }
    destruct (c_state (c n)) as [v|] eqn:EC; [|exact HW]. destruct (st_eqb v st) eqn:EV; [|exact HW].
    (* the cached state is the one saved: nothing is written *)
    apply st_eqb_eq in EV. subst v. split; [|split; [|split]]; auto using wb_ok_nil.
    pose proof (g_cstate _ _ _ _ H st EC) as HS.
    replace nd' with nd by (destruct nd; cbn in *; now subst). exact H.
Qed.

Definition snap_part (m : kv) (c : cache) (n : nid) (ss : snapshot) (es : list entry) : option (cache * wb) :=
  if ss_emptyb ss then Some (c, [])
  else
    let (c2, ok) := cs_try_save_snapshot c n (ss_index ss) in
    if ok then
      if negb (match es with [] => true | _ => false end) && (last_index es <? ss_index ss)
      then None
      else match save_snapshot_wb m n ss with
           | None => None
           | Some w2 => Some (cs_set_max_index c2 n (ss_index ss),
                              w2 ++ [WPut (KMaxIndex n) (VMax (ss_index ss))])
           end
    else Some (c2, []).

Lemma save_head_parts : forall m c u,
  save_head m c u =
  let (c1, w1) := state_part c (u_node u) (u_st u) in
  match snap_part m c1 (u_node u) (u_ss u) (u_ents u) with
  | None => None
  | Some (c', w) => Some (c', w1 ++ w)
  end.
Proof.
  intros m c u. unfold save_head, state_part, snap_part.
  destruct (st_emptyb (u_st u)).
  - destruct (ss_emptyb (u_ss u)); [reflexivity|].
    destruct (cs_try_save_snapshot c (u_node u) (ss_index (u_ss u))) as [c2 ok]. destruct ok; [|reflexivity].
    destruct (negb _ && _); [reflexivity|]. now destruct (save_snapshot_wb m (u_node u) (u_ss u)).
  - destruct (cs_set_state c (u_node u) (u_st u)) as [c' ch].
    destruct (ss_emptyb (u_ss u)); [now rewrite app_nil_r|].
    destruct (cs_try_save_snapshot c' (u_node u) (ss_index (u_ss u))) as [c2 ok]. destruct ok; [|now rewrite app_nil_r].
    destruct (negb _ && _); [reflexivity|]. now destruct (save_snapshot_wb m (u_node u) (u_ss u)).
Qed.

Lemma nlen_nil_last : forall nd, n_ents nd = [] -> n_last nd = n_marker nd.
Proof. intros nd H. unfold n_last. rewrite H. unfold nlen. cbn. lia. Qed.

Lemma stage_snap : forall m g c nd n ss es, sorted m -> WT m ->
  RnG g (c n) nd n ->
  upd_ss_wf nd ss = true ->
  (ss_emptyb ss = false -> es <> [] -> ss_index ss <= last_index es) ->
  exists c' w, snap_part m c n ss es = Some (c', w) /\
    RnG (gapply w g) (c' n) (upd_ss_step nd ss) n /\
    (forall n', n' <> n -> c' n' = c n') /\ c_batch (c' n) = c_batch (c n) /\ wb_ok w n.
Proof.
  intros m g c nd n ss es HS HW H Hwf Hes. unfold snap_part, upd_ss_step.
  destruct (ss_emptyb ss) eqn:E.
  { exists c, []. split; [reflexivity|]. split; [exact H|]. split; [auto|]. split; [reflexivity | apply wb_ok_nil]. }
  destruct (upd_ss_wf_spec nd ss E Hwf) as ((Hpos & W1) & W2 & Hcase). pose proof max_index_u64 as HU.
  assert (Heq : ss_index ss = n_ssidx nd -> n_ss nd = Some ss).
  { intros X. destruct Hcase as [[A _]|[A _]]; [lia | exact A]. }
  set (nd' := mkNode (ss_index ss) (ss_term ss) [] (n_st nd)
                (if n_ssidx nd <? ss_index ss then Some ss else n_ss nd)).
  assert (Hlast' : n_last nd' = ss_index ss) by (unfold n_last, nlen; subst nd'; cbn [n_marker n_ents length]; lia).
  pose proof (try_save_snapshot_R g c nd n ss H) as TS.
  destruct (cs_try_save_snapshot c n (ss_index ss)) as [c2 ok]. destruct TS as (O2 & HC2 & TS).
  destruct ok.
  - assert ((negb (match es with [] => true | _ => false end) && (last_index es <? ss_index ss)) = false) as ->.
    { destruct es as [|e0 es']; [reflexivity|]. cbn [negb andb]. apply N.ltb_ge. apply Hes; auto. discriminate. }
    destruct (snapshot_saved m g _ _ n ss HS HW H E W1 Heq) as (w2 & -> & OK2 & E3 & SC).
    eexists. eexists. split; [reflexivity|].
    set (w := w2 ++ [WPut (KMaxIndex n) (VMax (ss_index ss))]).
    assert (LW : forall k, k <> KMaxIndex n -> gapply w g k = gapply w2 g k).
    { intros k Hk. unfold w. now rewrite gapply_snoc_put, key_eqb_neq. }
    assert (HOth : forall k, k <> KMaxIndex n -> (forall i, k <> KSnapshot n i) -> gapply w g k = g k).
    { intros k K1 K2. rewrite LW by auto. unfold gapply. rewrite E3; auto. }
    destruct (SC (gapply w g)) as (C1 & C2 & C3); [intros i; apply LW; discriminate|].
    split; [|split; [|split]].
    + unfold cs_set_max_index. rewrite cupd_same.
      destruct H. constructor; subst nd'; cbn [n_marker n_mterm n_ents n_st n_ss c_state c_max c_snap]; auto.
      * exact I.
      * intros e [].
      * left. unfold w. rewrite gapply_snoc_put, key_eqb_refl. now rewrite Hlast'.
      * intros v X. inversion X. now rewrite Hlast'.
      * rewrite HOth by (intros; discriminate). auto.
      * rewrite HC2. cbn [c_state]. auto.
      * rewrite Hlast'. lia.
    + intros n' Hn'. unfold cs_set_max_index. rewrite cupd_other by auto. auto.
    + unfold cs_set_max_index. rewrite cupd_same, HC2. reflexivity.
    + apply wb_ok_app; [exact OK2 | apply wb_ok_max].
  - (* an index at least as new is cached: the update repeats the newest snapshot *)
    destruct TS as [-> Hle]. destruct Hcase as [[A _]|[A B]]; [lia|].
    exists c, []. split; [reflexivity|].
    assert (n_ssidx nd <? ss_index ss = false) as Y by (apply N.ltb_ge; lia).
    split; [|split; [auto | split; [reflexivity | apply wb_ok_nil]]].
    destruct H. constructor; subst nd'; rewrite ?Y in *; cbn [n_marker n_mterm n_ents n_st n_ss]; auto;
      rewrite ?Hlast'.
    + exact I.
    + intros e [].
    + destruct g_max0 as [X|[_ X]]; [|lia]. left. unfold gapply. cbn [wb_last]. now rewrite X, B.
    + intros v' X. now rewrite (g_cmax0 v' X).
    + lia.
Qed.

Lemma max_entry_index_contig : forall es i acc, contig i es -> es <> [] -> acc <= i ->
  max_entry_index acc es = i + nlen es - 1.
Proof.
  induction es as [|e es IH]; intros i acc HC HN HA; [contradiction|].
  destruct HC as [HC1 HC2]. cbn [max_entry_index]. rewrite nlen_cons.
  destruct es as [|e' es'].
  - cbn [max_entry_index]. unfold nlen; cbn [length]. destruct (acc <? e_index e) eqn:E;
      [apply N.ltb_lt in E | apply N.ltb_ge in E]; lia.
  - rewrite (IH (i + 1)); auto; try discriminate.
    + rewrite nlen_cons. lia.
    + destruct (acc <? e_index e) eqn:E; [apply N.ltb_lt in E | apply N.ltb_ge in E]; lia.
Qed.

Lemma last_index_contig : forall es i, contig i es -> es <> [] -> last_index es = i + nlen es - 1.
Proof.
  induction es as [|e es IH]; intros i HC HN; [contradiction|].
  destruct HC as [HC1 HC2]. rewrite nlen_cons. destruct es as [|e' es'].
  - cbn [last_index]. unfold nlen; cbn [length]. lia.
  - change (last_index (e :: e' :: es')) with (last_index (e' :: es')).
    rewrite (IH (i + 1)); auto; try discriminate. rewrite nlen_cons. lia.
Qed.

Lemma wb_last_puts : forall n es i k, contig i es ->
  (forall e, In e es -> k = KEntry n (e_index e) ->
     wb_last (map (fun e => WPut (KEntry n (e_index e)) (VEntry e)) es) k = Some (Some (VEntry e))) /\
  ((forall e, In e es -> k <> KEntry n (e_index e)) ->
     wb_last (map (fun e => WPut (KEntry n (e_index e)) (VEntry e)) es) k = None).
Proof.
  induction es as [|e0 es IH]; intros i k HC; cbn [map wb_last].
  - split; [intros e [] | auto].
  - destruct HC as [HC1 HC2]. destruct (IH (i + 1) k HC2) as [IH1 IH2]. split.
    + intros e [<-|HI] ->.
      * rewrite IH2; [cbn [wkey]; now rewrite key_eqb_refl|].
        intros e' HI' X. apply KEntry_inj in X. pose proof (contig_bounds _ _ _ HC2 HI'). lia.
      * now rewrite (IH1 e HI eq_refl).
    + intros H. rewrite IH2 by (intros e' HI'; apply H; now right).
      cbn [wkey]. rewrite key_eqb_neq; auto. apply H. now left.
Qed.

Lemma stage_ents : forall g c nd n u, RnG g (c n) nd n -> u_node u = n ->
  upd_ents_wf nd (u_ents u) = true ->
  let (c', w) := save_tail plain_record c u in
  RnG (gapply w g) (c' n) (upd_ents_step nd (u_ents u)) n /\
  (forall n', n' <> n -> c' n' = c n') /\ wb_in_node w n /\ wb_wt w.
Proof.
  intros g c nd n u H Hn Hwf. unfold save_tail, upd_ents_step. rewrite Hn.
  destruct (u_ents u) as [|e0 es0].
  { split; [exact H|]. split; [auto|]. split; [intros o [] | intros k v []]. }
  destruct (upd_ents_wf_cons nd e0 es0 Hwf) as (Hi & Hmib & HCe).
  pose proof (g_contig _ _ _ _ H) as HC. pose proof (below_app_last nd _ (e0 :: es0) HC Hi) as Hlast'.
  set (es := e0 :: es0) in *. set (i0 := e_index e0) in *.
  unfold plain_record. rewrite (max_entry_index_contig es i0 0 HCe) by (discriminate || lia).
  set (mi := i0 + nlen es - 1) in *.
  assert (Hmi : 0 < mi) by (unfold mi, es; rewrite nlen_cons; lia).
  rewrite (proj2 (N.ltb_lt 0 mi) Hmi).
  split; [|split; [|split]].
  - unfold cs_set_max_index. rewrite cupd_same.
    eapply RnG_log; [exact H | | reflexivity | reflexivity | reflexivity | reflexivity | | | | |];
      rewrite ?Hlast'; cbn [n_marker n_ents].
    + intros k Hk _. rewrite gapply_snoc_put, key_eqb_neq by (intros ->; destruct Hk; discriminate).
      unfold gapply. rewrite wb_last_none; [reflexivity|]. intros o HI <-. apply in_map_iff in HI.
      destruct HI as (x & <- & _). destruct Hk; discriminate.
    + now apply below_app_contig.
    + intros e HI. rewrite gapply_snoc_put, key_eqb_neq by discriminate. unfold gapply.
      apply in_app_or in HI. destruct HI as [HI|HI].
      * unfold below in HI. apply filter_In in HI. destruct HI as [HI HX]. apply N.ltb_lt in HX.
        rewrite (proj2 (wb_last_puts n es i0 _ HCe)); [exact (g_ents _ _ _ _ H e HI)|].
        intros e' HI' X. apply KEntry_inj in X. pose proof (contig_bounds _ _ _ HCe HI'). lia.
      * now rewrite (proj1 (wb_last_puts n es i0 _ HCe) e HI eq_refl).
    + left. now rewrite gapply_snoc_put, key_eqb_refl.
    + intros v X. now inversion X.
    + unfold mi. lia.
  - intros n' Hn'. unfold cs_set_max_index. now rewrite cupd_other.
  - intros o HI. apply in_app_or in HI. destruct HI as [HI|[<-|[]]]; [|apply key_node_mk].
    apply in_map_iff in HI. destruct HI as (x & <- & _). apply key_node_mk.
  - intros k v HI. apply in_app_or in HI. destruct HI as [HI|[HI|[]]].
    + apply in_map_iff in HI. destruct HI as (x & X & HI). inversion X. apply wt_entry.
      pose proof (contig_bounds _ _ _ HCe HI). lia.
    + inversion HI. apply wt_max.
Qed.

Lemma update_wf_last_index : forall nd u, update_wf nd u = true ->
  ss_emptyb (u_ss u) = false -> u_ents u <> [] -> ss_index (u_ss u) <= last_index (u_ents u).
Proof.
  intros nd u Hwf E Hne. apply andb_true_iff in Hwf. destruct Hwf as [_ Wes].
  destruct (u_ents u) as [|e0 es0]; [contradiction|].
  destruct (upd_ents_wf_cons _ e0 es0 Wes) as ((A & _) & _ & HC).
  rewrite (last_index_contig _ _ HC) by discriminate. rewrite nlen_cons.
  unfold upd_ss_step in A. rewrite E in A. cbn [n_marker] in A. lia.
Qed.

Lemma save_head_node : forall m c nd n u, sorted m -> WT m ->
  RnG (kv_get m) (c n) nd n -> u_node u = n -> upd_ss_wf nd (u_ss u) = true ->
  (ss_emptyb (u_ss u) = false -> u_ents u <> [] -> ss_index (u_ss u) <= last_index (u_ents u)) ->
  exists c1 wh, save_head m c u = Some (c1, wh) /\
    (forall n', n' <> n -> c1 n' = c n') /\ c_batch (c1 n) = c_batch (c n) /\ wb_ok wh n /\
    RnG (gapply wh (kv_get m)) (c1 n) (upd_st_step (upd_ss_step nd (u_ss u)) (u_st u)) n.
Proof.
  intros m c nd n u HS HW H Hn Wss Hes. rewrite save_head_parts, Hn.
  pose proof (stage_state (kv_get m) c nd n (u_st u) H) as S1.
  destruct (state_part c n (u_st u)) as [ca w1]. destruct S1 as (R1 & O1 & B1 & K1k).
  destruct (stage_snap m (gapply w1 (kv_get m)) ca (upd_st_step nd (u_st u)) n (u_ss u) (u_ents u) HS HW R1)
    as (c1 & w2 & E2 & R2 & O2 & B2 & K2); [now rewrite upd_ss_wf_st | exact Hes |].
  rewrite E2. exists c1, (w1 ++ w2). split; [reflexivity|].
  split; [|split; [congruence | split; [now apply wb_ok_app|]]].
  - intros n' Hn'. rewrite O2 by auto. auto.
  - rewrite <- upd_steps_commute. eapply RnG_ext; [exact R2|]. intros k _ _. apply gapply_app.
Qed.

Lemma save_node : forall m c nd n u, sorted m -> WT m ->
  RnG (kv_get m) (c n) nd n -> u_node u = n -> update_wf nd u = true ->
  exists c1 wh, save_head m c u = Some (c1, wh) /\
    (forall n', n' <> n -> c1 n' = c n') /\ wb_in_node wh n /\ wb_wt wh /\
    forall ct, ct n = c1 n ->
      let (ct', wt_) := save_tail plain_record ct u in
      (forall n', n' <> n -> ct' n' = ct n') /\ wb_in_node wt_ n /\ wb_wt wt_ /\
      RnG (gapply (wh ++ wt_) (kv_get m)) (ct' n) (update_step nd u) n.
Proof.
  intros m c nd n u HS HW H Hn Hwf. pose proof (proj1 (andb_true_iff _ _) Hwf) as [Wss Wes].
  destruct (save_head_node m c nd n u HS HW H Hn Wss (update_wf_last_index _ _ Hwf))
    as (c1 & wh & E & O & _ & (Kn & Kw & _) & R2).
  exists c1, wh. split; [exact E|]. split; [exact O|]. split; [exact Kn|]. split; [exact Kw|].
  intros ct Hct. rewrite <- Hct in R2.
  pose proof (stage_ents (gapply wh (kv_get m)) ct _ n u R2 Hn) as S3.
  rewrite upd_ents_wf_st in S3. specialize (S3 Wes).
  destruct (save_tail plain_record ct u) as [ct' w3]. destruct S3 as (R3 & O3 & K3n & K3w).
  split; [auto | split; [auto | split; [auto|]]].
  unfold update_step. eapply RnG_ext; [exact R3|]. intros k _ _. apply gapply_app.
Qed.

Lemma plain_tails : forall m us c,
  tails (fun _ c u => Some (save_tail plain_record c u)) m c us = Some (save_tails plain_record c us).
Proof.
  induction us as [|u us IH]; intros c; [reflexivity|]. cbn [tails save_tails].
  destruct (save_tail plain_record c u) as [c1 w1]. rewrite IH. now destruct (save_tails plain_record c1 us).
Qed.

Lemma save_raft_state_R : forall d s us, R d s -> spec_wf_op s (OSave us) = true ->
  exists d', plain_step d (OSave us) = Some d' /\ R d' (spec_step s (OSave us)).
Proof.
  intros d s us HR Hwf.
  destruct (save_Rel RnG RnG_node_ext (fun _ c u => Some (save_tail plain_record c u))) with (d := d) (s := s) (us := us)
    as (c1 & Wh & c2 & Wt & EH & ET & HR'); auto.
  { intros m c nd n u HS HW H Hn Hu.
    destruct (save_node m c nd n u HS HW H Hn Hu) as (c1 & wh & E & O & K & T & Tail).
    exists c1, wh. split; [exact E|]. split; [exact O|]. split; [exact K|]. split; [exact T|].
    intros ct Hct. specialize (Tail ct Hct). destruct (save_tail plain_record ct u) as [ct' wt_].
    exists ct', wt_. split; [reflexivity | exact Tail]. }
  rewrite plain_tails in ET. cbn [plain_step]. unfold p_save_raft_state, save_wb. rewrite EH.
  destruct (save_tails plain_record c1 us). inversion ET; subst. eexists. split; [reflexivity | exact HR'].
Qed.

Lemma R_init : R pdb_init spec_init.
Proof.
  split; [exact I | split].
  - intros k v H. discriminate.
  - intros n. constructor; cbn; auto; try (intros; discriminate); try contradiction.
    + unfold n_ssidx, max_index; cbn; lia.
    + unfold n_last, nlen, max_index; cbn; lia.
Qed.

Lemma plain_step_R : forall d s o, R d s -> spec_wf_op s o = true ->
  exists d', plain_step d o = Some d' /\ R d' (spec_step s o).
Proof.
  intros d s o HR Hwf. destruct o.
  - now apply save_raft_state_R.
  - now apply save_snapshots_R.
  - eexists. split; [reflexivity|]. now apply remove_entries_to_R.
  - now apply remove_node_data_R.
  - now apply import_snapshot_R.
  - eexists. split; [reflexivity|]. now apply reopen_R.
Qed.

Lemma plain_query_R : forall d s q, R d s ->
  R (snd (plain_query d q)) s /\
  (spec_wf_query s q = true -> plain_observe d q = spec_answer s q).
Proof.
  intros d s q HR. unfold plain_observe. destruct q; cbn [plain_query fst snd].
  - split; auto. intros. now apply iterate_refines.
  - split; auto. intros. now apply read_state_refines.
  - destruct (get_snapshot_refines d s n HR). split; auto.
Qed.

Lemma plain_run_R : forall l d s, R d s -> wf_ops s (muts l) = true ->
  exists d', fold_left plain_pstep l (Some d) = Some d' /\ R d' (spec_run s (muts l)).
Proof. exact (run_Rel RnG plain_step plain_query plain_step_R (fun d s q H => proj1 (plain_query_R d s q H))). Qed.

Lemma plain_prun_R : forall l d, wf_ops spec_init (muts l) = true -> plain_prun l = Some d ->
  R d (spec_run spec_init (muts l)).
Proof.
  intros l d Hwf Hrun. destruct (plain_run_R l pdb_init spec_init R_init Hwf) as (d' & E & HR).
  unfold plain_prun in Hrun. rewrite Hrun in E. now inversion E.
Qed.

Section IterateAnswer.
  Variables (d : pdb) (s : sstate) (n : nid) (low high maxsz : N) (es : list entry) (sz : N).
  Hypothesis HR : R d s.
  Hypothesis Hq : spec_wf_query s (QIter n low high maxsz) = true.
  Hypothesis Hans : p_iterate d n low high maxsz = RIter es sz.

  Let full := filter (in_range low high) (n_ents (s n)).

  Lemma iterate_take_size : take_size maxsz 0 full = (es, sz).
  Proof.
    pose proof (iterate_refines d s n low high maxsz HR Hq) as HA. rewrite Hans in HA.
    cbn [canon spec_answer] in HA. fold full in HA.
    destruct (take_size maxsz 0 full) as [a b]. now inversion HA.
  Qed.

  Lemma iterate_prefix : exists rest, full = es ++ rest.
  Proof.
    destruct (take_size_prefix full maxsz 0) as [rest Hr].
    rewrite iterate_take_size in Hr. cbn [fst] in Hr. eauto.
  Qed.

  Lemma iterate_never_stale : forall e, In e es -> In e (n_ents (s n)).
  Proof.
    intros e HI. destruct iterate_prefix as [rest Hr].
    assert (In e full) as HF by (rewrite Hr; apply in_or_app; now left).
    unfold full in HF. apply filter_In in HF. tauto.
  Qed.

  Lemma iterate_in_range : forall e, In e es -> low <= e_index e < high /\ e_index e <= n_last (s n).
  Proof.
    intros e HI. destruct iterate_prefix as [rest Hr]. destruct HR as (_ & _ & HRn).
    assert (In e full) as HF by (rewrite Hr; apply in_or_app; now left).
    unfold full in HF. apply filter_In in HF. destruct HF as [HF1 HF2].
    unfold in_range in HF2. apply andb_true_iff in HF2. destruct HF2 as [A B].
    apply N.leb_le in A. apply N.ltb_lt in B.
    pose proof (contig_bounds _ _ _ (g_contig _ _ _ _ (HRn n)) HF1). unfold n_last. lia.
  Qed.

  Lemma iterate_contig : contig low es.
  Proof.
    destruct iterate_prefix as [rest Hr]. destruct HR as (_ & _ & HRn).
    destruct (proj1 (wf_q_iter _ _ _ _ _) Hq) as ((W1 & _) & _).
    destruct (filter_range_contig _ _ low high (g_contig _ _ _ _ (HRn n)) ltac:(lia)) as [FC _].
    fold full in FC. rewrite Hr in FC. exact (proj1 (contig_app_inv _ _ _ FC)).
  Qed.

  Lemma iterate_size_limit : (exists rest, full = es ++ rest) /\ (es = full \/ maxsz < sz).
  Proof. split; [exact iterate_prefix | exact (take_size_short _ _ _ _ _ iterate_take_size)]. Qed.
End IterateAnswer.

Lemma reopen_obs : forall d s q, R d s -> spec_wf_query s q = true ->
  plain_observe (p_reopen d) q = plain_observe d q.
Proof.
  intros d s q HR Hq. rewrite (proj2 (plain_query_R d s q HR) Hq).
  apply (proj2 (plain_query_R (p_reopen d) s q (reopen_R _ _ HR)) Hq).
Qed.
