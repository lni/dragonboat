(* Facts about the GENERATED handler table (Gen/GenRaft.v, from initializeHandlerMap). *)
From DB Require Import Model.RaftCore.
Open Scope N_scope.

(* what holds of the empty cell and of every registered cell holds of the dispatcher's answer *)
Lemma handler_of_cells (P : N -> N -> handler -> Prop) s t :
  P s t H_none -> (forall h, In (s, t, h) handler_cells -> P s t h) -> P s t (handler_of s t).
Proof.
  intros H0 Hc. unfold handler_of.
  assert (Hr : forall h, In (s, t, h) (rev handler_cells) -> P s t h)
    by (intros h Hin; apply Hc, in_rev, Hin).
  induction (rev handler_cells) as [|[[s' t'] h] cells IH]; cbn [handler_lookup]; [exact H0|].
  destruct (N.eqb_spec s s') as [<-|]; [destruct (N.eqb_spec t t') as [<-|]|]; cbn [andb];
    try (apply IH; intros h' Hin; apply Hr; right; exact Hin).
  apply Hr. left. reflexivity.
Qed.

Lemma handler_of_sweep (p : N -> N -> handler -> bool) :
  forallb (fun c => p (fst (fst c)) (snd (fst c)) (snd c)) handler_cells = true ->
  forall s t, p s t H_none = true -> p s t (handler_of s t) = true.
Proof.
  intros Hsw s t H0. apply (handler_of_cells (fun s t h => p s t h = true)); [exact H0|].
  intros h Hin. rewrite forallb_forall in Hsw. exact (Hsw _ Hin).
Qed.

Definition no_handler (s : N) (ts : list N) : bool :=
  forallb (fun t => match handler_of s t with H_none => true | _ => false end) ts.

(* replication/heartbeat responses, check-quorum and leader heartbeats are handled by leaders only *)
Lemma leader_only_messages :
  forallb (fun s => forallb (fun t => match handler_of s t with H_none => true | _ => s =? st_leader end)
                            [mt_ReplicateResp; mt_HeartbeatResp; mt_CheckQuorum; mt_LeaderHeartbeat;
                             mt_SnapshotStatus; mt_Unreachable; mt_RateLimit])
          [st_follower; st_candidate; st_preVoteCandidate; st_leader; st_nonVoting; st_witness] = true.
Proof. vm_compute. reflexivity. Qed.

Lemma request_vote_handler_type s t : handler_of s t = H_handleNodeRequestVote -> t = mt_RequestVote.
Proof.
  intros H. apply N.eqb_eq.
  pose proof (handler_of_sweep
    (fun _ t h => match h with H_handleNodeRequestVote => t =? mt_RequestVote | _ => true end)
    eq_refl s t eq_refl) as F.
  rewrite H in F. exact F.
Qed.
