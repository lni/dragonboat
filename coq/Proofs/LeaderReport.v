From Coq Require Import List NArith Bool.
From DB Require Import Model.LeaderReport.
Import ListNotations.
Open Scope N_scope.

Definition last_report (s : rstate) : option report :=
  match rev (rs_reports s) with [] => None | r :: _ => Some r end.

Lemma last_report_snoc s r rs : rs_reports s = rs ++ [r] -> last_report s = Some r.
Proof. unfold last_report. intros ->. rewrite rev_app_distr. reflexivity. Qed.

Lemma last_report_in s r : last_report s = Some r -> In r (rs_reports s).
Proof.
  unfold last_report. destruct (rev (rs_reports s)) eqn:E; [discriminate|]. intros [= ->].
  apply in_rev. rewrite E. left. reflexivity.
Qed.

Lemma rrun_snoc id evs e : rrun id (evs ++ [e]) = rstep id (rrun id evs) e.
Proof. apply fold_left_app. Qed.

(* where a report comes from: every call of setLeaderID appends at most the triple it was called with *)
Definition justified (id : N) (evs : list revent) (r : report) : Prop :=
  rp_replica r = id /\
  (rp_leader r = 0 \/ (rp_leader r = id /\ In (RBecomeLeader (rp_term r)) evs) \/ In (RFollow (rp_term r) (rp_leader r)) evs).

Lemma reports_justified id evs : Forall (justified id evs) (rs_reports (rrun id evs)).
Proof.
  induction evs as [|e evs IH] using rev_ind; [constructor|]. rewrite rrun_snoc.
  assert (Hm : Forall (justified id (evs ++ [e])) (rs_reports (rrun id evs))).
  { eapply Forall_impl; [|exact IH]. intros r (H1 & H2). split; [exact H1|]. rewrite !in_app_iff. tauto. }
  assert (Hs : forall l t, justified id (evs ++ [e]) (mkReport id t l) ->
                           Forall (justified id (evs ++ [e])) (rs_reports (set_leader_id id (rrun id evs) l t))).
  { intros l t J. unfold set_leader_id. destruct (_ || _); [|exact Hm]. apply Forall_app. split; [exact Hm|constructor; [exact J|constructor]]. }
  destruct e as [t|t l|t|]; cbn [rstep].
  - apply Hs. split; [reflexivity|right; left; split; [reflexivity|apply in_elt]].
  - apply Hs. split; [reflexivity|right; right; apply in_elt].
  - apply Hs. split; [reflexivity|left; reflexivity].
  - unfold engine_cycle. destruct (rs_update _) as [[l t]|]; exact Hm.
Qed.

(* raft.prevLeader is the last report; a pending leaderUpdate equals it; node.leaderInfo was
   reported, and once the engine has taken the update it is the last report *)
Record report_inv (id : N) (s : rstate) : Prop := {
  inv_prev : rs_reports s = [] /\ rs_prev s = (0, 0) \/
             last_report s = Some (mkReport id (snd (rs_prev s)) (fst (rs_prev s)));
  inv_upd : forall l t, rs_update s = Some (l, t) -> rs_prev s = (l, t) /\ rs_reports s <> [];
  inv_info_in : forall l t, rs_info s = Some (l, t) -> In (mkReport id t l) (rs_reports s);
  inv_quiet : rs_update s = None -> snd (rs_prev s) <> 0 -> rs_info s = Some (rs_prev s)
}.

Lemma set_leader_inv id s l t : report_inv id s -> report_inv id (set_leader_id id s l t).
Proof.
  intros I. unfold set_leader_id.
  destruct (((t =? 0) && (l =? 0)) || negb (l =? fst (rs_prev s)) || negb (t =? snd (rs_prev s))) eqn:C;
    constructor; cbn [rs_reports rs_prev rs_update rs_info]; try discriminate.
  - right. eapply last_report_snoc. reflexivity.
  - intros l0 t0 [= <- <-]. split; [reflexivity|]. destruct (rs_reports s); discriminate.
  - intros l0 t0 H. apply in_or_app. left. exact (inv_info_in _ _ I l0 t0 H).
  - exact (inv_prev _ _ I).
  - (* unchanged: (l,t) is the previous pair, and not the initial (0,0) *)
    apply orb_false_iff in C. destruct C as [C C3]. apply orb_false_iff in C. destruct C as [C1 C2].
    apply negb_false_iff, N.eqb_eq in C2, C3.
    assert (Hp : rs_prev s = (l, t)) by (destruct (rs_prev s); cbn in *; subst; reflexivity).
    intros l0 t0 [= <- <-]. split; [exact Hp|].
    destruct (inv_prev _ _ I) as [(_ & H0)|H0].
    + rewrite Hp in H0. injection H0 as -> ->. discriminate C1.
    + intros E. unfold last_report in H0. rewrite E in H0. discriminate.
  - exact (inv_info_in _ _ I).
Qed.

Lemma engine_inv id s : report_inv id s -> report_inv id (engine_cycle s).
Proof.
  intros I. unfold engine_cycle. destruct (rs_update s) as [[l t]|] eqn:U; [|exact I].
  destruct (inv_upd _ _ I l t U) as (Hp & Hne).
  constructor; cbn [rs_reports rs_prev rs_update rs_info]; try discriminate.
  - exact (inv_prev _ _ I).
  - intros l0 t0 H. destruct (t =? 0); [exact (inv_info_in _ _ I l0 t0 H)|]. injection H as <- <-.
    destruct (inv_prev _ _ I) as [(H0 & _)|H0]; [contradiction|]. rewrite Hp in H0. apply last_report_in, H0.
  - intros _ Hs. rewrite Hp in Hs |- *. apply N.eqb_neq in Hs. cbn [snd] in Hs. rewrite Hs. reflexivity.
Qed.

Lemma rrun_inv id evs : report_inv id (rrun id evs).
Proof.
  induction evs as [|e evs IH] using rev_ind.
  - constructor; cbn; auto; try discriminate. intros _ H. contradiction.
  - rewrite rrun_snoc. destruct e; [apply set_leader_inv..|apply engine_inv]; exact IH.
Qed.

Lemma get_leader_id_was_reported id evs l t v :
  get_leader_id (rrun id evs) = (l, t, v) -> v = true -> In (mkReport id t l) (rs_reports (rrun id evs)).
Proof.
  unfold get_leader_id. intros H Hv. destruct (rs_info (rrun id evs)) as [[l0 t0]|] eqn:E.
  - injection H as <- <- _. exact (inv_info_in _ _ (rrun_inv id evs) _ _ E).
  - injection H as _ _ <-. discriminate.
Qed.

Lemma get_leader_id_agrees_with_last_report_proved id evs r :
  last_report (rrun id (evs ++ [REngine])) = Some r -> rp_term r <> 0 ->
  get_leader_id (rrun id (evs ++ [REngine])) = (rp_leader r, rp_term r, negb (rp_leader r =? 0)).
Proof.
  intros HL Ht. pose proof (rrun_inv id (evs ++ [REngine])) as I.
  assert (U : rs_update (rrun id (evs ++ [REngine])) = None).
  { rewrite rrun_snoc. cbn [rstep]. unfold engine_cycle. destruct (rs_update (rrun id evs)) as [[? ?]|] eqn:E; [reflexivity|exact E]. }
  destruct (inv_prev _ _ I) as [(H0 & _)|H0].
  - unfold last_report in HL. rewrite H0 in HL. discriminate.
  - rewrite HL in H0. injection H0 as ->. cbn [rp_term rp_leader] in *.
    unfold get_leader_id. rewrite (inv_quiet _ _ I U Ht). destruct (rs_prev _); reflexivity.
Qed.

Lemma events_of_in id tr e : In e (events_of id tr) -> In (id, e) tr.
Proof.
  unfold events_of. intros H. apply in_map_iff in H. destruct H as ([i e'] & E & H). cbn in E. subst e'.
  apply filter_In in H. destruct H as (H & Hi). cbn in Hi. apply N.eqb_eq in Hi. subst i. exact H.
Qed.

Section Cluster.
  Variable tr : list (N * revent).
  (* the raft-level hypotheses; the first is C03's theorem (Props/L2.v election_safety) read on
     the events: two replicas that become leader in the same term are the same replica *)
  Hypothesis election_safety : forall i j t, In (i, RBecomeLeader t) tr -> In (j, RBecomeLeader t) tr -> i = j.
  (* a replica follows l in term t only on a message that l sent as leader of term t
     (Replicate, Heartbeat, InstallSnapshot, ReadIndexResp are sent by leaders only and carry
     the sender's term, which the receiver compares with its own) *)
  Hypothesis leader_messages_from_leaders : forall i t l, In (i, RFollow t l) tr -> In (l, RBecomeLeader t) tr.

  Lemma report_names_a_leader ids r : In r (all_reports ids tr) -> rp_leader r <> 0 ->
    In (rp_leader r, RBecomeLeader (rp_term r)) tr.
  Proof.
    unfold all_reports. intros H Hl. apply in_flat_map in H. destruct H as (id & _ & H).
    unfold replica_state in H. pose proof (reports_justified id (events_of id tr)) as J.
    rewrite Forall_forall in J. destruct (J r H) as (Hr & [H0|[(H1 & H2)|H3]]).
    - contradiction.
    - rewrite H1. apply events_of_in. exact H2.
    - apply events_of_in in H3. eapply leader_messages_from_leaders. exact H3.
  Qed.

  Lemma at_most_one_reported_leader_per_term_proved ids r1 r2 :
    In r1 (all_reports ids tr) -> In r2 (all_reports ids tr) -> rp_term r1 = rp_term r2 ->
    rp_leader r1 <> 0 -> rp_leader r2 <> 0 -> rp_leader r1 = rp_leader r2.
  Proof.
    intros H1 H2 Ht L1 L2. pose proof (report_names_a_leader ids r1 H1 L1) as A.
    pose proof (report_names_a_leader ids r2 H2 L2) as B. rewrite Ht in A. exact (election_safety _ _ _ A B).
  Qed.

  Lemma all_equal_of (l : list N) : (forall x y, In x l -> In y l -> x = y) -> all_equal l = true.
  Proof.
    induction l as [|x [|y rest] IH]; intros H; [reflexivity|reflexivity|].
    cbn [all_equal]. apply andb_true_iff. split.
    - apply N.eqb_eq. apply H; [left; reflexivity|right; left; reflexivity].
    - apply IH. intros a b Ha Hb. apply H; right; assumption.
  Qed.

  Lemma one_leader_named_proved ids t : one_leader_named t (all_reports ids tr) = true.
  Proof.
    unfold one_leader_named, leaders_named. apply all_equal_of. intros x y Hx Hy.
    apply in_map_iff in Hx, Hy. destruct Hx as (r1 & E1 & H1). destruct Hy as (r2 & E2 & H2).
    apply filter_In in H1, H2. destruct H1 as (H1 & C1). destruct H2 as (H2 & C2).
    apply andb_true_iff in C1, C2. destruct C1 as (T1 & L1). destruct C2 as (T2 & L2).
    apply N.eqb_eq in T1, T2. apply negb_true_iff in L1, L2. apply N.eqb_neq in L1, L2.
    subst x y. apply (at_most_one_reported_leader_per_term_proved ids r1 r2); auto. congruence.
  Qed.

  (* GetLeaderID on any host never names another leader for a term than any listener was told *)
  Lemma get_leader_id_never_contradicts_reports_proved ids i l t r :
    In i ids -> get_leader_id (replica_state tr i) = (l, t, true) ->
    In r (all_reports ids tr) -> rp_term r = t -> rp_leader r <> 0 -> rp_leader r = l.
  Proof.
    intros Hi HG Hr Ht Hl.
    assert (Hin : In (mkReport i t l) (all_reports ids tr)).
    { unfold all_reports. apply in_flat_map. exists i. split; [exact Hi|].
      eapply get_leader_id_was_reported; [exact HG|reflexivity]. }
    assert (Hl0 : l <> 0).
    { unfold get_leader_id in HG. destruct (rs_info (replica_state tr i)) as [[l0 t0]|]; inversion HG; subst.
      intros E. subst. discriminate. }
    symmetry. apply (at_most_one_reported_leader_per_term_proved ids (mkReport i t l) r); auto.
  Qed.
End Cluster.
