(* L2 stage 3, part b: the invariant inv4 is preserved by every step of the model with
   membership change; the safety theorems of stage 3. *)
From DB Require Import Model.RaftNet Model.RaftNetCfg Proofs.RaftNetLists Proofs.RaftNetElection
  Proofs.RaftNetLog Proofs.RaftNetCommitDefs Proofs.RaftNetCommit Proofs.RaftNetCfgLemmas
  Proofs.RaftNetCfgInv.

Lemma updn3_eq f i x : updn3 f i x i = x.
Proof. unfold updn3. now rewrite Nat.eqb_refl. Qed.
Lemma updn3_neq f i x j : j <> i -> updn3 f i x j = f j.
Proof. unfold updn3. intros H. apply Nat.eqb_neq in H. now rewrite H. Qed.
Lemma updb3_eq f i x : updb3 f i x i = x.
Proof. unfold updb3. now rewrite Nat.eqb_refl. Qed.
Lemma updb3_neq f i x j : j <> i -> updb3 f i x j = f j.
Proof. unfold updb3. intros H. apply Nat.eqb_neq in H. now rewrite H. Qed.

Ltac inv_step3 H :=
  match type of H with
  | step3 _ _ ?s ?l ?s' =>
    first [ is_var s; is_var l; is_var s'; destruct H | inversion H; subst; clear H ]
  end;
  repeat match goal with x := _ |- _ => subst x end;
  cbn [base3 applied pending lcfg lapp cevents] in *.

Ltac simp_upd3 :=
  repeat match goal with
  | |- context [updn3 _ ?k _ ?k] => rewrite updn3_eq
  | H : context [updn3 _ ?k _ ?k] |- _ => rewrite updn3_eq in H
  | |- context [updb3 _ ?k _ ?k] => rewrite updb3_eq
  | H : context [updb3 _ ?k _ ?k] |- _ => rewrite updb3_eq in H
  | Hne : ?j <> ?k |- context [updn3 _ ?k _ ?j] => rewrite (updn3_neq _ k _ j Hne)
  | Hne : ?j <> ?k, H : context [updn3 _ ?k _ ?j] |- _ => rewrite (updn3_neq _ k _ j Hne) in H
  | Hne : ?j <> ?k |- context [updb3 _ ?k _ ?j] => rewrite (updb3_neq _ k _ j Hne)
  | Hne : ?j <> ?k, H : context [updb3 _ ?k _ ?j] |- _ => rewrite (updb3_neq _ k _ j Hne) in H
  end.

Section CfgStep.
  Variable cfg_of : list entry -> list id.
  Variable is_cc : entry -> bool.
  Hypothesis cfg_noncc : forall l e, is_cc e = false -> cfg_of (l ++ [e]) = cfg_of l.
  Hypothesis cfg_step_near : forall l e, qnear (cfg_of l) (cfg_of (l ++ [e])).
  Hypothesis cfg_nodup : forall l, NoDup (cfg_of l).
  Hypothesis noop_noncc : forall t, is_cc (noop t) = false.

  Notation ccs := (ccs is_cc).
  Notation cfg := (cfg cfg_of).
  Notation step3 := (step3 cfg_of is_cc).
  Notation ev_ok := (ev_ok cfg_of is_cc).
  Notation inv4 := (inv4 cfg_of is_cc).
  Notation fresh3 := (fresh3 cfg_of is_cc cfg_noncc cfg_step_near cfg_nodup).
  Notation agl3 := (agl3 cfg_of is_cc cfg_noncc cfg_step_near).
  Notation cprefix3_llog := (cprefix3_llog cfg_of is_cc cfg_noncc cfg_step_near).

  Lemma ev_ok_gext n n' e : gext n n' -> ev_ok n e -> ev_ok n' e.
  Proof.
    destruct e as [[t k] a]. intros Hg (Hl & Hak & Hk & Ht & Hc & (Q & HQ & HQw)).
    pose proof (llog_len_gext n n' t Hg) as Hlen.
    assert (E : firstn k (llog n' t) = firstn k (llog n t)).
    { destruct Hg as (_ & _ & He & _). destruct (He t) as (e & ->). now apply agree_app_l. }
    assert (Ea : firstn a (llog n' t) = firstn a (llog n t)).
    { destruct Hg as (_ & _ & He & _). destruct (He t) as (e & ->). apply agree_app_l. lia. }
    split; [now apply (lead_gext n n')|]. split; [exact Hak|]. split; [lia|]. split.
    - rewrite (term_at_gext n n' t k Hg Hk). exact Ht.
    - split; [now rewrite E|]. exists Q. rewrite Ea. split; [exact HQ|].
      intros w Hw. eapply acked_mono; [apply Hg | now apply HQw].
  Qed.

  Lemma cprefix3_gext n n' evs tmax c l :
    gext n n' -> (forall e, In e evs -> ev_ok n e) ->
    cprefix3 n evs tmax c l -> cprefix3 n' evs tmax c l.
  Proof.
    intros Hg Hev [->|(t & k & a & Hin & Ht & Hc & Hag)]; [now left|].
    right. exists t, k, a. repeat split; auto.
    pose proof (Hev _ Hin) as (_ & _ & Hk & _).
    apply (agree_gext_r n n' c l t Hg); [lia | exact Hag].
  Qed.

  Lemma cprefix3_gext_llog n n' evs tmax c t0 :
    gext n n' -> (forall e, In e evs -> ev_ok n e) ->
    cprefix3 n evs tmax c (llog n t0) -> cprefix3 n' evs tmax c (llog n' t0).
  Proof.
    intros Hg Hev Hc. pose proof (cprefix3_gext n n' _ _ _ _ Hg Hev Hc) as Hc'.
    destruct Hc as [->|(t & k & a & Hin & Ht & Hck & Hag)]; [now left|].
    eapply cprefix3_agree; [exact Hc'|].
    apply (agree_gext_l n n' c (llog n t0) t0 Hg); [|apply agree_refl].
    pose proof (Hev _ Hin) as (_ & _ & Hk & _).
    apply agree_sym in Hag. eapply agree_len; [exact Hag | lia].
  Qed.

  Lemma base_fresh s l b' :
    inv4 s -> step (cfg s (actor l)) (base3 s) l b' -> fresh (base3 s) l.
  Proof.
    intros Hinv Hstep i ->. simpl in Hstep. inversion Hstep; subst.
    now apply (fresh3 s Hinv).
  Qed.

  Lemma base_gext s l b' :
    inv4 s -> step (cfg s (actor l)) (base3 s) l b' -> gext (base3 s) b'.
  Proof.
    intros Hinv Hstep. eapply step_gext; eauto using s_1, s_2, base_fresh.
  Qed.

  Lemma base_inv123 s l b' :
    inv4 s -> step (cfg s (actor l)) (base3 s) l b' -> inv1 b' /\ inv2 b' /\ inv3a b'.
  Proof.
    intros Hinv Hstep. pose proof (base_fresh s l b' Hinv Hstep) as Hf.
    pose proof (agl3 s Hinv) as Hagl.
    pose proof (s_1 _ _ s Hinv) as H1. pose proof (s_2 _ _ s Hinv) as H2.
    pose proof (s_3a _ _ s Hinv) as H3a.
    split; [eapply inv1_step; eauto | split; [eapply inv2_step; eauto | eapply inv3a_step; eauto]].
  Qed.

  Lemma S_app_step s l s' : inv4 s -> step3 s l s' -> S_app s'.
  Proof.
    intros Hinv Hstep i. pose proof (s_app _ _ s Hinv i) as Hold.
    inv_step3 Hstep.
    - destruct (step_commit_mono _ _ _ _ i H0) as [Hle|(c & m & -> & _)]; [lia|].
      simpl in H. contradiction.
    - destruct (Nat.eq_dec i i0) as [->|Hne]; simp_upd3; lia.
    - destruct (step_commit_mono _ _ _ _ i H) as [Hle|(c0 & m0 & E & Hc)];
        [|injection E as E1 E2 _]; (destruct (Nat.eq_dec i i0) as [E0|Hne];
          [rewrite E0 in *|]); simp_upd3; lia.
  Qed.

  Lemma cevents'_cases s l e :
    In e (cevents' s l) ->
    In e (cevents s) \/
    exists i k, l = LAdvanceCommit i k /\ e = (term (nodes (base3 s) i), k, applied s i).
  Proof. destruct l; simpl; auto. intros [<-|H]; eauto. Qed.

  Lemma cevents'_incl s l : incl (cevents s) (cevents' s l).
  Proof. destruct l; simpl; auto using incl_refl. intros e He. now right. Qed.

  Lemma advance_event_ok s i k b' :
    inv4 s -> step (cfg s i) (base3 s) (LAdvanceCommit i k) b' ->
    ev_ok (base3 s) (term (nodes (base3 s) i), k, applied s i) /\
    llog (base3 s) (term (nodes (base3 s) i)) = log (nodes (base3 s) i) /\
    applied s i < k /\ 1 <= k <= length (log (nodes (base3 s) i)).
  Proof.
    intros Hinv Hstep.
    pose proof (s_1 _ _ s Hinv) as H1. pose proof (s_2 _ _ s Hinv) as H2.
    inversion Hstep; subst; repeat match goal with x := _ |- _ => subst x end.
    match goal with Hr : role _ = Leader |- _ =>
      pose proof (i_leader_log _ H2 i Hr) as Hll; pose proof (i_leader _ H1 i Hr) as Hld;
      pose proof (s_lead _ _ s Hinv i Hr) as (Hcc & _) end.
    assert (1 <= term (nodes (base3 s) i)) by (apply (i_role_term _ H1); congruence).
    assert (Hkr : 1 <= k <= length (log (nodes (base3 s) i))) by (apply term_at_in_range; lia).
    pose proof (s_app _ _ s Hinv i) as Happ.
    split; [|split; [exact Hll | split; [lia | exact Hkr]]].
    unfold RaftNetCfgInv.ev_ok. rewrite Hll.
    split; [rewrite Hld; discriminate|]. split; [lia|]. split; [lia|]. split; [assumption|].
    split.
    - pose proof (ccs_firstn_le is_cc (log (nodes (base3 s) i)) k (applied s i)). lia.
    - match goal with Hq : quorum _ <= ack_count _ _ _ _ |- _ =>
        destruct (count_ack_quorum (cfg s i) (cfg_nodup _) (base3 s) _ _ Hq) as (Q & HQ & HQw) end.
      exists Q. split; [exact HQ | exact HQw].
  Qed.

  Lemma ev_base s l b' :
    inv4 s -> step (cfg s (actor l)) (base3 s) l b' ->
    forall e, In e (cevents' s l) -> ev_ok b' e.
  Proof.
    intros Hinv Hstep e Hin. apply (ev_ok_gext _ _ _ (base_gext s l b' Hinv Hstep)).
    destruct (cevents'_cases s l e Hin) as [Ho|(i & k & -> & ->)].
    - now apply (s_ev _ _ s Hinv).
    - now apply (advance_event_ok s i k b' Hinv Hstep).
  Qed.

  Lemma S_ev_step s l s' : inv4 s -> step3 s l s' -> S_ev cfg_of is_cc s'.
  Proof.
    intros Hinv Hstep. inv_step3 Hstep.
    - exact (ev_base s l b' Hinv H0).
    - exact (s_ev _ _ s Hinv).
    - exact (ev_base s (LRestart i c m) b' Hinv H).
  Qed.

  (* the applied prefix of the leader that makes an event was committed by older events *)
  Lemma chain_base s l b' :
    inv4 s -> step (cfg s (actor l)) (base3 s) l b' ->
    forall pre t k a post, cevents' s l = pre ++ (t, k, a) :: post ->
                           cprefix3 b' post t a (llog b' t).
  Proof.
    intros Hinv Hstep pre t k a post Hsplit.
    pose proof (s_ev _ _ s Hinv) as Hev. pose proof (base_gext s l b' Hinv Hstep) as Hg.
    assert (Hold : forall pre0, cevents s = pre0 ++ (t, k, a) :: post ->
                     cprefix3 b' post t a (llog b' t)).
    { intros pre0 E. apply (cprefix3_gext_llog _ _ _ _ _ _ Hg); [|now apply (s_chain _ _ s Hinv pre0 t k)].
      intros e He. apply Hev. rewrite E. apply in_or_app. right. now right. }
    destruct l as [| | | | | | | |i k0| | | |]; try (now apply (Hold pre)).
    destruct pre as [|e0 pre]; simpl in Hsplit.
    - injection Hsplit as E1 E2 E3 E4. subst t k a post.
      destruct (advance_event_ok s i k0 b' Hinv Hstep) as (_ & Hll & _).
      apply (cprefix3_gext_llog _ _ _ _ _ _ Hg Hev). rewrite Hll.
      eapply cprefix3_le; [apply (s_hc _ _ s Hinv i)|].
      pose proof (s_app _ _ s Hinv i). pose proof (i_commit_bounds _ (s_3a _ _ s Hinv) i). lia.
    - injection Hsplit as _ Hsplit. now apply (Hold pre).
  Qed.

  Lemma S_chain_step s l s' : inv4 s -> step3 s l s' -> S_chain s'.
  Proof.
    intros Hinv Hstep. inv_step3 Hstep.
    - exact (chain_base s l b' Hinv H0).
    - exact (s_chain _ _ s Hinv).
    - exact (chain_base s (LRestart i c m) b' Hinv H).
  Qed.

  Lemma cprefix3_base s l b' tmax c l0 :
    inv4 s -> step (cfg s (actor l)) (base3 s) l b' ->
    cprefix3 (base3 s) (cevents s) tmax c l0 -> cprefix3 b' (cevents' s l) tmax c l0.
  Proof.
    intros Hinv Hstep Hc. eapply cprefix3_evs; [|apply cevents'_incl].
    apply (cprefix3_gext _ _ _ _ _ _ (base_gext s l b' Hinv Hstep) (s_ev _ _ s Hinv) Hc).
  Qed.

  (* one base step keeps the committed prefixes of nodes, Replicates and Heartbeats *)
  Lemma prefix_base s l b' :
    inv4 s -> step (cfg s (actor l)) (base3 s) l b' ->
    let CP' := cprefix3 b' (cevents' s l) in
    (forall w, CP' (term (nodes b' w)) (hcommit (nodes b' w)) (log (nodes b' w))) /\
    (forall t ldr prev pt ents lc, In (AE t ldr prev pt ents lc) (msgs b') -> CP' t lc (llog b' t)) /\
    (forall t ldr to c, In (HB t ldr to c) (msgs b') ->
       c = 0 \/ (acked b' t to c /\ CP' t c (llog b' t))).
  Proof.
    intros Hinv Hstep. pose proof (base_gext s l b' Hinv Hstep) as Hg.
    intros CP'.
    apply (prefix_step (cfg s (actor l)) (base3 s) b' l (cprefix3 (base3 s) (cevents s)) CP');
      try (now apply Hinv); try now apply (agl3 s Hinv); try exact Hstep.
    - apply cprefix3_le.
    - apply cprefix3_tmax.
    - apply cprefix3_agree.
    - now left.
    - intros tmax c l0. now apply cprefix3_base.
    - intros t c Hc. eapply cprefix3_evs; [|apply cevents'_incl].
      now apply (cprefix3_gext_llog _ _ _ _ _ _ Hg (s_ev _ _ s Hinv)).
    - intros i k ->. destruct (advance_event_ok s i k b' Hinv Hstep) as (_ & Hll & _ & Hk).
      right. do 3 eexists. split; [left; reflexivity|]. split; [lia|]. split; [lia|].
      apply (agree_gext_r _ _ _ _ _ Hg); rewrite Hll; [lia | apply agree_refl].
    - exact Hstep.
  Qed.

  (* the guard of a base step, with the crash guard for Restart *)
  Definition guard3r (s : net3) (l : label) : Prop :=
    match l with
    | LRestart i c m => ccs (firstn m (log (nodes (base3 s) i))) c <= 1
    | _ => guard3 is_cc s l
    end.

  Lemma guard3_guard3r s l : guard3 is_cc s l -> guard3r s l.
  Proof. destruct l; simpl; auto. contradiction. Qed.

  Lemma ccs_S l a e :
    nth_error l a = Some e -> ccs l a = ccs l (S a) + (if is_cc e then 1 else 0).
  Proof.
    intros He. unfold RaftNetCfg.ccs.
    assert (E : skipn a l = e :: skipn (S a) l).
    { revert a He. induction l as [|x l IH]; intros [|a] He; simpl in *; try discriminate.
      - now injection He as ->.
      - now apply IH. }
    rewrite E. simpl. destruct (is_cc e); simpl; lia.
  Qed.

  Lemma leader_no_pending_cc s k :
    inv4 s -> role (nodes (base3 s) k) = Leader -> pending s k = false ->
    ccs (log (nodes (base3 s) k)) (applied s k) = 0 /\
    ccs (log (nodes (base3 s) k)) (commit (nodes (base3 s) k)) = 0.
  Proof.
    intros Hinv Hr Hp. destruct (s_lead _ _ s Hinv k Hr) as (Hc1 & Hc2).
    assert (E0 : ccs (log (nodes (base3 s) k)) (applied s k) = 0).
    { destruct (Nat.eq_dec (ccs (log (nodes (base3 s) k)) (applied s k)) 1) as [E|]; [|lia].
      rewrite (Hc2 E) in Hp. discriminate. }
    split; [exact E0|].
    pose proof (ccs_anti is_cc (log (nodes (base3 s) k)) (applied s k) (commit (nodes (base3 s) k))
                         (s_app _ _ s Hinv k)). lia.
  Qed.

  Lemma b_base s l b' :
    inv4 s -> guard3r s l -> step (cfg s (actor l)) (base3 s) l b' ->
    forall j, ccs (log (nodes b' j)) (commit (nodes b' j)) <= 1.
  Proof.
    intros Hinv Hguard Hstep j.
    pose proof (s_2 _ _ s Hinv) as H2. pose proof (s_b _ _ s Hinv j) as Hold.
    pose proof (i_commit_bounds _ (s_3a _ _ s Hinv) j) as Hb.
    destruct (step_node_log _ _ _ _ j Hstep)
      as [(e & -> & -> & _ & [->|[(-> & _ & ->)|(p & -> & Hr & ->)]])
         |[(ldr & prev & ents & lc & Hae & _ & _ & Hta & -> & _)
         |[(k & _ & _ & Hk & _ & _ & -> & -> & _)|[(ldr & c & _ & _ & -> & -> & _)
         |(c & m & -> & _ & _ & _ & -> & -> & _)]]]].
    - now rewrite app_nil_r.
    - rewrite ccs_snoc by lia. rewrite noop_noncc. lia.
    - rewrite ccs_snoc by lia.
      match goal with |- context [is_cc ?e] => destruct (is_cc e) eqn:Ecc end; [|lia].
      destruct (leader_no_pending_cc s j Hinv Hr (Hguard Ecc)) as (_ & E0). lia.
    - pose proof (s_ae _ _ s Hinv _ _ _ _ _ _ Hae) as Hae1.
      destruct (handle_ae_log _ _ _ _ _ _ _ _ _ _ H2 Hae (i_log_ok _ H2 j) eq_refl Hta)
        as [(-> & _)|(-> & _)].
      + eapply Nat.le_trans; [apply ccs_anti|exact Hold]. lia.
      + match goal with |- ccs _ (Nat.max ?c (Nat.min ?lc ?m)) <= 1 =>
          destruct (Nat.le_gt_cases lc m) as [Hle|Hgt] end.
        * eapply Nat.le_trans; [apply ccs_anti|exact Hae1]. lia.
        * rewrite ccs_out; [lia|]. rewrite firstn_length. lia.
    - eapply Nat.le_trans; [apply ccs_anti|exact Hold]. lia.
    - eapply Nat.le_trans; [apply ccs_anti|exact Hold]. lia.
    - exact Hguard.
  Qed.

  Lemma pending'_other s l j : j <> actor l -> pending' is_cc s l j = pending s j.
  Proof.
    destruct l; cbn [pending' actor]; intros Hne; auto; [|destruct (is_cc _); auto];
      now apply updb3_neq.
  Qed.

  Lemma lead_base s l b' :
    inv4 s -> guard3r s l -> step (cfg s (actor l)) (base3 s) l b' ->
    forall j, role (nodes b' j) = Leader ->
      ccs (log (nodes b' j)) (applied s j) <= 1 /\
      (ccs (log (nodes b' j)) (applied s j) = 1 -> pending' is_cc s l j = true).
  Proof.
    intros Hinv Hguard Hstep j.
    destruct (Nat.eq_dec j (actor l)) as [->|Hne].
    2:{ rewrite (step_other _ _ _ _ j Hstep Hne), (pending'_other s l j Hne).
        apply (s_lead _ _ s Hinv j). }
    pose proof (s_lead _ _ s Hinv (actor l)) as Hold.
    pose proof (i_commit_bounds _ (s_3a _ _ s Hinv) (actor l)) as Hb.
    pose proof (s_app _ _ s Hinv (actor l)) as Happ.
    pose proof (s_cand _ _ s Hinv (actor l)) as Hcand.
    inv_step Hstep; cbn [guard3r guard3 actor pending'] in *; rewrite ?upd_eq; cbn [role log];
      intros Hr; auto; try discriminate.
    - destruct Hcand as (Ha & _); [assumption|].
      rewrite updb3_eq. rewrite ccs_snoc by lia. rewrite noop_noncc, Ha.
      split; [lia|]. intros E. apply Nat.eqb_eq. lia.
    - destruct (Hold H) as (Hc1 & Hc2). rewrite ccs_snoc by lia.
      match goal with |- context [is_cc ?e] => destruct (is_cc e) eqn:Ecc end.
      + rewrite updb3_eq.
        destruct (leader_no_pending_cc s i Hinv H (Hguard eq_refl)) as (E0 & _).
        split; [lia | reflexivity].
      + rewrite Nat.add_0_r. auto.
  Qed.

  Lemma ae_base s l b' :
    inv4 s -> guard3r s l -> step (cfg s (actor l)) (base3 s) l b' ->
    forall t ldr prev pt ents lc,
      In (AE t ldr prev pt ents lc) (msgs b') ->
      ccs (firstn (prev + length ents) (llog b' t)) lc <= 1.
  Proof.
    intros Hinv Hguard Hstep t ldr prev pt ents lc Hin.
    pose proof (s_2 _ _ s Hinv) as H2.
    pose proof (base_gext s l b' Hinv Hstep) as (_ & _ & Hg & _).
    assert (Hn' : prev + length ents <= length (llog (base3 s) t) /\
                  ccs (firstn (prev + length ents) (llog (base3 s) t)) lc <= 1).
    { destruct (new_ae _ _ _ _ _ _ _ _ _ _ Hstep Hin) as [Ho|(len & -> & Hl & -> & Hp & _ & _ & ->)].
      - split; [now destruct (i_ae _ H2 _ _ _ _ _ _ Ho) as (_ & Hlen & _) | eapply (s_ae _ _ s Hinv); eauto].
      - rewrite (i_leader_log _ H2 ldr Hl). split.
        + rewrite firstn_length, skipn_length. lia.
        + eapply Nat.le_trans; [|exact Hguard]. apply ccs_firstn_mono.
          rewrite firstn_length. lia. }
    destruct Hn' as (Hlen & Hc). destruct (Hg t) as (e & ->).
    replace (firstn (prev + length ents) (llog (base3 s) t ++ e))
      with (firstn (prev + length ents) (llog (base3 s) t)); [exact Hc|].
    symmetry. now apply agree_app_l.
  Qed.

  Lemma cand_base s l b' :
    inv4 s -> guard3r s l -> step (cfg s (actor l)) (base3 s) l b' ->
    forall j, role (nodes b' j) = Candidate ->
      applied s j = commit (nodes b' j) /\
      last_term (log (nodes b' j)) < term (nodes b' j) /\
      cprefix3 b' (cevents' s l) (term (nodes b' j) - 1) (commit (nodes b' j)) (log (nodes b' j)).
  Proof.
    intros Hinv Hguard Hstep j Hr.
    pose proof (fun tmax c l0 => cprefix3_base s l b' tmax c l0 Hinv Hstep) as Htr.
    destruct (candidate_cases _ _ _ _ j Hstep Hr) as ([(-> & ->)|(Hr0 & ->)] & -> & ->).
    - split; [exact Hguard|]. split.
      + set (LL := log (nodes (base3 s) j)).
        destruct (Nat.eq_dec (last_term LL) 0) as [E|E]; [lia|].
        assert (HLr : 1 <= length LL <= length LL) by (apply term_at_in_range; exact E).
        destruct (term_at_In _ _ HLr) as (e & He & Hte).
        pose proof (i_log_terms _ (s_2 _ _ s Hinv) _ e He). unfold last_term. rewrite Hte. lia.
      + replace (S (term (nodes (base3 s) j)) - 1) with (term (nodes (base3 s) j)) by lia.
        eapply cprefix3_le; [exact (Htr _ _ _ (s_hc _ _ s Hinv j))|].
        pose proof (i_commit_bounds _ (s_3a _ _ s Hinv) j). lia.
    - destruct (s_cand _ _ s Hinv j Hr0) as (A & B & C). auto.
  Qed.

  Lemma lcfg'_other s l T :
    (forall i, l = LBecomeLeader i -> T <> term (nodes (base3 s) i)) ->
    lcfg' cfg_of s l T = lcfg s T /\ lapp' s l T = lapp s T.
  Proof.
    intros H. destruct l; simpl; auto. specialize (H _ eq_refl).
    now rewrite !updg_neq by assumption.
  Qed.

  Lemma lcfg_base s l b' :
    inv4 s -> step (cfg s (actor l)) (base3 s) l b' ->
    forall T c, lead b' T = Some c ->
      lapp' s l T <= length (llog0 b' T) /\
      lcfg' cfg_of s l T = cfg_of (firstn (lapp' s l T) (llog0 b' T)) /\
      ccs (llog0 b' T) (lapp' s l T) <= 1 /\
      cprefix3 b' (cevents' s l) (T - 1) (lapp' s l T) (llog0 b' T).
  Proof.
    intros Hinv Hstep T c Hl'.
    pose proof (s_3a _ _ s Hinv) as H3a.
    pose proof (base_fresh s l b' Hinv Hstep) as Hf.
    pose proof (base_gext s l b' Hinv Hstep) as Hg.
    pose proof (fun tmax c l0 => cprefix3_base s l b' tmax c l0 Hinv Hstep) as Htr.
    destruct (lead (base3 s) T) as [c0|] eqn:Hl.
    - assert (Hother : forall i, l = LBecomeLeader i -> T <> term (nodes (base3 s) i)).
      { intros i -> E. rewrite E in Hl. rewrite (Hf i eq_refl) in Hl. discriminate. }
      destruct (lcfg'_other s l T Hother) as (-> & ->).
      assert (E0 : llog0 b' T = llog0 (base3 s) T).
      { destruct Hg as (_ & _ & _ & Hg4). apply Hg4. congruence. }
      rewrite E0. destruct (s_lcfg _ _ s Hinv T c0 Hl) as (A & B & C & D).
      repeat split; auto.
    - destruct (step_ghost _ _ _ _ Hstep)
        as [(E & _)|[(i & -> & Hr & _ & E & E0 & _ & El)|(i & p & _ & _ & E & _)]];
        rewrite E in Hl'; try congruence.
      destruct (Nat.eq_dec T (term (nodes (base3 s) i))) as [->|Hne];
        [|rewrite updg_neq in Hl' by assumption; congruence].
      cbn [lcfg' lapp']. rewrite E0, El, !updg_eq.
      destruct (s_cand _ _ s Hinv i Hr) as (Ha & _ & Hcp).
      pose proof (i_commit_bounds _ H3a i) as Hb. pose proof (s_b _ _ s Hinv i) as Hbi.
      split; [rewrite app_length; lia|]. split.
      + unfold RaftNetCfg.cfg. f_equal. symmetry. apply agree_app_l. lia.
      + split.
        * rewrite ccs_snoc by lia. rewrite noop_noncc, Ha. lia.
        * rewrite Ha. eapply cprefix3_agree; [apply (Htr _ _ _ Hcp)|]. apply agree_app_l. lia.
  Qed.

  Lemma elected_base s l b' :
    inv4 s -> step (cfg s (actor l)) (base3 s) l b' -> elected_by (lcfg' cfg_of s l) b'.
  Proof.
    intros Hinv Hstep. pose proof (base_fresh s l b' Hinv Hstep) as Hf.
    refine (elected_step (cfg s (actor l)) (cfg_nodup _) (lcfg s) _ (base3 s) l b' (s_1 _ _ s Hinv)
                         (s_2 _ _ s Hinv) (s_3a _ _ s Hinv) (agl3 s Hinv) Hf Hstep _ _
                         (s_elected _ _ s Hinv)).
    - intros T HT. apply lcfg'_other. intros i -> E. apply HT. rewrite E. now apply Hf.
    - intros i ->. apply updg_eq.
  Qed.

  Lemma inv4_base s l b' app' pend' :
    inv4 s -> guard3r s l -> step (cfg s (actor l)) (base3 s) l b' ->
    (* the auxiliary fields agree with the base update wherever it matters *)
    (forall j, app' j <= commit (nodes b' j)) ->
    (forall j, role (nodes b' j) = Candidate -> app' j = applied s j) ->
    (forall j, role (nodes b' j) = Leader -> app' j = applied s j /\ pend' j = pending' is_cc s l j) ->
    inv4 (mkNet3 b' app' pend' (lcfg' cfg_of s l) (lapp' s l) (cevents' s l)).
  Proof.
    intros Hinv Hguard Hstep Happ Hcand Hlead.
    destruct (base_inv123 s l b' Hinv Hstep) as (H1' & H2' & H3a').
    constructor; cbn [base3 applied pending lcfg lapp cevents]; auto.
    - intros j Hr. cbn [base3 applied cevents].
      rewrite (Hcand j Hr). now apply (cand_base s l b' Hinv Hguard Hstep).
    - intros j. now apply (b_base s l b' Hinv Hguard Hstep).
    - intros j Hr. cbn [base3 applied pending].
      destruct (Hlead j Hr) as (-> & ->). now apply (lead_base s l b' Hinv Hguard Hstep).
    - intros t ldr prev pt ents lc Hin. now apply (ae_base s l b' Hinv Hguard Hstep t ldr prev pt).
    - exact (ev_base s l b' Hinv Hstep).
    - exact (chain_base s l b' Hinv Hstep).
    - intros T c Hl. now apply (lcfg_base s l b' Hinv Hstep T c).
    - intros T c Hl. now apply (elected_base s l b' Hinv Hstep T c).
    - exact (proj1 (prefix_base s l b' Hinv Hstep)).
    - exact (proj1 (proj2 (prefix_base s l b' Hinv Hstep))).
    - exact (proj2 (proj2 (prefix_base s l b' Hinv Hstep))).
  Qed.

  Lemma inv4_step s l s' : inv4 s -> step3 s l s' -> inv4 s'.
  Proof.
    intros Hinv Hstep. inv_step3 Hstep.
    - apply (inv4_base s l b' (applied s) (pending' is_cc s l) Hinv (guard3_guard3r s l H) H0); auto.
      intros j. pose proof (s_app _ _ s Hinv j).
      destruct (step_commit_mono _ _ _ _ j H0) as [Hle|(c & m & -> & _)]; [lia | simpl in H; contradiction].
    - pose proof (s_app _ _ s Hinv) as Happ.
      constructor; cbn [base3 applied pending lcfg lapp cevents];
        try (now apply Hinv).
      + red; cbn [base3 applied]. intros j.
        destruct (Nat.eq_dec j i) as [->|Hne]; simp_upd3; [lia | apply Happ].
      + red; cbn [base3 applied cevents]. intros j Hr.
        destruct (Nat.eq_dec j i) as [->|Hne]; simp_upd3.
        * destruct (s_cand _ _ s Hinv i Hr) as (E & _). lia.
        * now apply (s_cand _ _ s Hinv).
      + red; cbn [base3 applied pending]. intros j Hr.
        destruct (s_lead _ _ s Hinv j Hr) as (Hc1 & Hc2).
        destruct (Nat.eq_dec j i) as [->|Hne]; simp_upd3.
        * pose proof (i_commit_bounds _ (s_3a _ _ s Hinv) i) as Hb.
          destruct (nth_error (log (nodes (base3 s) i)) (applied s i)) as [e|] eqn:He.
          2:{ apply nth_error_None in He. lia. }
          rewrite (ccs_S _ _ _ He) in Hc1, Hc2.
          destruct (is_cc e); simp_upd3; split; try lia; intros E; apply Hc2; lia.
        * split; [exact Hc1|]. intros E.
          destruct (nth_error (log (nodes (base3 s) i)) (applied s i)) as [e|]; [|auto].
          destruct (is_cc e); simp_upd3; auto.
    - assert (Hg3 : guard3r s (LRestart i c m)) by (simpl; assumption).
      pose proof H as H'. inv_step H'.
      apply (inv4_base s (LRestart i c m) _ (updn3 (applied s) i a) (updb3 (pending s) i false)
                       Hinv Hg3 H);
        intros j; cbn [nodes]; (destruct (Nat.eq_dec j i) as [->|Hne]; simp_upd3; simp_upd);
        try discriminate; auto.
      apply (s_app _ _ s Hinv).
  Qed.

  Lemma inv4_init : inv4 (init3).
  Proof.
    constructor; try red; cbn; intros; try contradiction; try discriminate; auto;
      try (apply inv1_init || apply inv2_init || apply inv3a_init).
    - destruct pre; discriminate.
    - now left.
  Qed.

  Lemma inv4_steps s ls s' : inv4 s -> steps3 cfg_of is_cc s ls s' -> inv4 s'.
  Proof. intros Hi Hs. induction Hs; [assumption|]. apply IHHs. eapply inv4_step; eauto. Qed.

  Lemma inv4_reachable s : reachable3 cfg_of is_cc s -> inv4 s.
  Proof. intros (ls & Hs). eapply inv4_steps; [apply inv4_init | exact Hs]. Qed.

End CfgStep.
