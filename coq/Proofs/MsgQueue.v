From DB Require Import Proofs.ListFacts Model.MsgQueue.
From Coq Require Import Permutation.
Open Scope N_scope.

Definition held (q : mq) : list N := q_nodrop q ++ map fst (q_delayed q) ++ q_items q.

Definition accepted_of (o : mqop) (out : mqout) : list N :=
  match o, out with
  | MAdd id, OAdd true _ => [id]
  | MMustAdd id, OBool true => [id]
  | MAddDelayed id _, OBool true => [id]
  | _, _ => []
  end.
Definition delivered_of (out : mqout) : list N := match out with OGet ids => ids | _ => [] end.

Fixpoint accepted (ops : list mqop) (outs : list mqout) : list N :=
  match ops, outs with
  | o :: ops', out :: outs' => accepted_of o out ++ accepted ops' outs'
  | _, _ => []
  end.
Definition delivered (outs : list mqout) : list N := flat_map delivered_of outs.

Lemma get_delayed_perm now d :
  Permutation (fst (get_delayed now d) ++ map fst (snd (get_delayed now d))) (map fst d).
Proof.
  unfold get_delayed. cbn [fst snd]. rewrite <- map_app. apply Permutation_map, Permutation_sym, perm_filter_split.
Qed.

Lemma step_conservation q o :
  Permutation (held q ++ accepted_of o (snd (mq_step q o)))
              (delivered_of (snd (mq_step q o)) ++ held (fst (mq_step q o))).
Proof.
  assert (Same : Permutation (held q ++ []) ([] ++ held q)) by (rewrite app_nil_r; reflexivity).
  unfold held in *. destruct o as [|id|id|id delay| |]; cbn [mq_step]; try exact Same.
  - destruct (q_size q <=? _); [exact Same|]. destruct (q_stopped q); [exact Same|].
    cbn [fst snd accepted_of delivered_of q_nodrop q_delayed q_items app]. rewrite <- !app_assoc. reflexivity.
  - destruct (q_stopped q); [exact Same|]. cbn [fst snd accepted_of delivered_of q_nodrop q_delayed q_items app].
    rewrite <- !app_assoc. apply Permutation_app_head. rewrite app_assoc. apply Permutation_app_comm.
  - destruct (q_stopped q); [exact Same|]. cbn [fst snd accepted_of delivered_of q_nodrop q_delayed q_items app].
    rewrite map_app, <- !app_assoc. do 2 apply Permutation_app_head. apply Permutation_app_comm.
  - pose proof (get_delayed_perm (q_tick q) (q_delayed q)) as Hp.
    destruct (get_delayed (q_tick q) (q_delayed q)) as [due rest]. cbn [fst snd] in Hp.
    cbn [fst snd delivered_of accepted_of q_nodrop q_delayed q_items app]. rewrite !app_nil_r, <- Hp, <- !app_assoc.
    do 2 apply Permutation_app_head. apply Permutation_app_comm.
Qed.

Lemma no_loss_no_duplication_proved : forall ops q,
  Permutation (held q ++ accepted ops (snd (mq_run q ops)))
              (delivered (snd (mq_run q ops)) ++ held (fst (mq_run q ops))).
Proof.
  induction ops as [|o ops IH]; intros q; cbn [mq_run].
  - cbn. rewrite app_nil_r. reflexivity.
  - pose proof (step_conservation q o) as Hs. destruct (mq_step q o) as [q1 out].
    specialize (IH q1). destruct (mq_run q1 ops) as [q2 outs]. cbn [fst snd accepted delivered flat_map] in *.
    fold (delivered outs). rewrite app_assoc, Hs, <- !app_assoc, IH. reflexivity.
Qed.

Lemma delayed_due_exactly_proved now d id due :
  In (id, due) d ->
  (In id (fst (get_delayed now d)) /\ due < now \/ In (id, due) (snd (get_delayed now d)) /\ now <= due).
Proof.
  intros Hin. unfold get_delayed. cbn [fst snd].
  destruct (N.ltb_spec due now) as [Hlt|Hge].
  - left. split; [|exact Hlt]. apply (in_map fst _ (id, due)), filter_In. split; [exact Hin|apply N.ltb_lt, Hlt].
  - right. split; [|exact Hge]. apply filter_In. split; [exact Hin|apply negb_true_iff, N.ltb_ge, Hge].
Qed.

Theorem delayed_order_kept_proved now d :
  fst (get_delayed now d) = map fst (filter (fun r => snd r <? now) d) /\
  snd (get_delayed now d) = filter (fun r => negb (snd r <? now)) d.
Proof. split; reflexivity. Qed.
