From DB Require Import Base.Bytes.
From DB Require Export Proofs.ListFacts.
From Coq Require Import ZifyN ZifyNat ZifyBool.
(* ZifyBool's default hook case-splits every boolean atom of the context before each lia;
   lia does not need it (this setting reaches every file that imports this one) *)
Ltac Zify.zify_post_hook ::= idtac.
Open Scope N_scope.

Lemma nlen_app {A} (a b : list A) : nlen (a ++ b) = nlen a + nlen b.
Proof. unfold nlen. rewrite app_length. apply Nat2N.inj_add. Qed.

Lemma nlen_cons {A} (a : A) l : nlen (a :: l) = 1 + nlen l.
Proof. unfold nlen. cbn [length]. lia. Qed.

Lemma nlen_nil {A} : nlen (@nil A) = 0. Proof. reflexivity. Qed.

Lemma nlen_skipn {A} n (l : list A) : nlen (skipn n l) = nlen l - N.of_nat n.
Proof. unfold nlen. rewrite skipn_length. lia. Qed.

Lemma to_nat_nlen {A} (l : list A) : N.to_nat (nlen l) = length l.
Proof. apply Nat2N.id. Qed.

Lemma pow256_succ k : 256 ^ N.of_nat (S k) = 256 * 256 ^ N.of_nat k.
Proof. rewrite Nat2N.inj_succ. apply N.pow_succ_r'. Qed.

Lemma be_length k x : length (be k x) = k.
Proof. revert x; induction k as [|k IH]; intros x; cbn [be]; [reflexivity|].
  rewrite app_length, IH. apply Nat.add_1_r. Qed.

Lemma be_dec_acc_app acc l1 l2 :
  be_dec_acc acc (l1 ++ l2) = be_dec_acc (be_dec_acc acc l1) l2.
Proof. revert acc; induction l1 as [|a l1 IH]; intros acc; [reflexivity|apply IH]. Qed.

Lemma be_dec_acc_be k : forall x acc, x < 256 ^ N.of_nat k ->
  be_dec_acc acc (be k x) = acc * 256 ^ N.of_nat k + x.
Proof.
  induction k as [|k IH]; intros x acc Hx.
  - cbn in *. lia.
  - rewrite pow256_succ in *. cbn [be]. rewrite be_dec_acc_app, IH by lia. cbn [be_dec_acc]. lia.
Qed.

Lemma be_dec_be k x : x < 256 ^ N.of_nat k -> be_dec (be k x) = x.
Proof. intros H. unfold be_dec. rewrite be_dec_acc_be by exact H. reflexivity. Qed.

Lemma be_wf k : forall x, wf_bytes (be k x).
Proof. induction k as [|k IH]; intros x; cbn [be]; [constructor|].
  apply Forall_app; split; [apply IH|]. repeat constructor. apply N.mod_lt. discriminate. Qed.

Lemma le_length k x : length (le k x) = k.
Proof. revert x; induction k as [|k IH]; intros x; cbn [le length]; [|rewrite IH]; reflexivity. Qed.

Lemma le_dec_le k : forall x, x < 256 ^ N.of_nat k -> le_dec (le k x) = x.
Proof.
  induction k as [|k IH]; intros x Hx.
  - cbn in *. lia.
  - rewrite pow256_succ in Hx. cbn [le le_dec]. rewrite IH; lia.
Qed.

Lemma le_wf k : forall x, wf_bytes (le k x).
Proof. induction k as [|k IH]; intros x; cbn [le]; [constructor|].
  constructor; [apply N.mod_lt; lia|apply IH]. Qed.

(* What the encoder writes for x: 7-bit groups, low group first, bit 7 set on every byte
   but the last.  Every decoder of the models is proved against this shape, not against
   the encoder's loop. *)
Inductive varint_of : N -> bytes -> Prop :=
| varint_last x : x < 128 -> varint_of x [x]
| varint_more x l : 128 <= x -> varint_of (x / 128) l -> varint_of x ((x mod 128 + 128) :: l).

Lemma uvarint_fuel_varint f : forall x, x < 128 ^ N.of_nat (S f) -> varint_of x (uvarint_fuel f x).
Proof.
  induction f as [|f IH]; intros x Hx; cbn [uvarint_fuel].
  - change (128 ^ N.of_nat 1) with 128 in Hx. rewrite N.mod_small by lia. constructor. exact Hx.
  - rewrite Nat2N.inj_succ, N.pow_succ_r' in Hx.
    destruct (N.ltb_spec x 128) as [Hlt|Hge]; constructor; try assumption. apply IH. lia.
Qed.

Lemma uvarint_varint x : x < 2 ^ 64 -> varint_of x (uvarint x).
Proof. intros H. apply uvarint_fuel_varint. change (128 ^ N.of_nat 10) with (2 ^ 70). lia. Qed.

Lemma uvarint_fuel_length_le f : forall x, (length (uvarint_fuel f x) <= S f)%nat.
Proof.
  induction f as [|f IH]; intros x; cbn [uvarint_fuel]; [reflexivity|].
  destruct (x <? 128); cbn [length]; [lia|]. apply le_n_S, IH.
Qed.

Lemma cont_byte_ge x : x mod 128 + 128 <? 128 = false.
Proof. apply N.ltb_ge, N.le_add_l. Qed.

Lemma cont_byte_mod x : (x mod 128 + 128) mod 128 = x mod 128.
Proof. lia. Qed.

(* one round of a decoder loop: low group added at [shift], the rest goes on at shift + 7 *)
Lemma varint_acc x shift acc :
  acc + x mod 128 * 2 ^ shift + x / 128 * 2 ^ (shift + 7) = acc + x * 2 ^ shift.
Proof.
  rewrite N.pow_add_r. change (2 ^ 7) with 128. pose proof (N.div_mod x 128) as E.
  set (d := x / 128) in *. set (m := x mod 128) in *. clearbody d m.
  rewrite E by discriminate. ring.
Qed.

Lemma varint_low_bound x shift B : x * 2 ^ shift < B -> x mod 128 * 2 ^ shift < B.
Proof.
  apply N.le_lt_trans, N.mul_le_mono_r, N.mod_le. discriminate.
Qed.

Lemma varint_rest_bound x shift B : x * 2 ^ shift < B -> x / 128 * 2 ^ (shift + 7) < B.
Proof.
  apply N.le_lt_trans. rewrite N.pow_add_r, (N.mul_comm (2 ^ shift)), N.mul_assoc.
  apply N.mul_le_mono_r. change (2 ^ 7) with 128. rewrite N.mul_comm. apply N.mul_div_le. discriminate.
Qed.

Lemma uvarint_fuel_nonempty f x : uvarint_fuel f x <> [].
Proof. destruct f; cbn; [|destruct (x <? 128)]; discriminate. Qed.

Lemma uvarint_fuel_wf f : forall x, wf_bytes (uvarint_fuel f x).
Proof.
  induction f as [|f IH]; intros x; cbn [uvarint_fuel].
  - repeat constructor. apply N.mod_lt. discriminate.
  - destruct (N.ltb_spec x 128); constructor; [lia|constructor|lia|apply IH].
Qed.
