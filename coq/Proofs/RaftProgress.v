(* C17: single-step progress facts on the L1 model (back-off of a probed remote, what a campaign
   does). Unconditional liveness is not a theorem (random time-outs). *)
From DB Require Import Model.RaftCore Proofs.RaftStep.
Open Scope N_scope.

(* a rejected Replicate for the index being probed (remote in retry or wait state): next backs off
   to max(1, min(rejected, hint+1)) and the remote is in the retry state *)
Lemma rm_decrease_to_probed p rejected last :
  rm_state p = RRetry \/ rm_state p = RWait -> rm_next p - 1 = rejected ->
  snd (rm_decrease_to p rejected last) = true /\
  rm_next (fst (rm_decrease_to p rejected last)) = N.max 1 (N.min rejected (last + 1)) /\
  rm_state (fst (rm_decrease_to p rejected last)) = RRetry.
Proof.
  intros Hs <-. unfold rm_decrease_to, rm_wait_to_retry.
  destruct Hs as [Hs|Hs]; rewrite Hs, N.eqb_refl; repeat split; exact Hs.
Qed.

Lemma become_leader_tvr r : r_role r = Candidate -> tvr (become_leader r) = (tv r, Leader).
Proof.
  intros Hc. unfold become_leader, is_leader. rewrite Hc. cbn [role_eqb negb andb]. cbv zeta.
  rewrite append_entries_tvr, become_leader_pending_stage_tvr, set_leader_id_tvr, reset_tvr.
  change (r_term (r <| r_role := Leader |>)) with (r_term r). now rewrite N.eqb_refl.
Qed.

Lemma campaign_spec_proved r :
  is_leader r = false -> is_nonvoting r = false -> is_witness r = false ->
  r_term (campaign r) = r_term r + 1 /\ r_vote (campaign r) = r_id r /\
  (r_role (campaign r) = Candidate \/ r_role (campaign r) = Leader).
Proof.
  intros H1 H2 H3.
  assert (Hc : tvr (become_candidate r) = (r_term r + 1, r_id r, Candidate))
    by (apply become_candidate_tvr; rewrite H1, H2, H3; reflexivity).
  enough (E : exists k, tvr (campaign r) = (r_term r + 1, r_id r, k) /\ (k = Candidate \/ k = Leader)).
  { destruct E as (k & E & Hk). rewrite (role_tvr (campaign r)), E. destruct (tv_pair _ _ _ (f_equal fst E)). auto. }
  unfold campaign. cbv zeta. destruct (is_single_node_quorum _).
  - exists Leader. rewrite become_leader_tvr; rewrite ?role_tvr, handle_vote_resp_tvr, Hc; auto.
  - exists Candidate. rewrite (fold_left_keeps tvr), is_transfer_target_upd_tvr, handle_vote_resp_tvr; [auto|].
    intros r' k. destruct (k =? r_id r); [reflexivity|apply send_tvr].
Qed.
