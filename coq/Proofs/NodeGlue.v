From DB Require Import Model.RateQuiesce Model.NodeGlue Proofs.RateQuiesce Gen.GenR22.
From Coq Require Import Lia.
Open Scope N_scope.

Definition glue_facts : bool :=
  read_index_records_quiesce && config_change_records_quiesce && proposals_record_quiesce &&
  record_before_handle && record_hint_as_read && negb snapshot_request_records_quiesce &&
  tick_uses_quiesced_tick && tick_expires_requests_when_quiesced &&
  proposals_paused_by_rate_limit && queue_refuses_when_paused && busy_when_not_added &&
  quiesce_message_tries_enter &&
  (quiesce_threshold_factor =? 10) && (0 <? node_quiesce_election_factor) &&
  forallb (fun t => negb (memN t node_handled_types)) [mt_heartbeat; mt_heartbeat_resp; mt_read_index; mt_propose; mt_replicate; mt_request_vote; mt_request_prevote] &&
  forallb (fun t => memN t node_handled_types) [mt_local_tick; mt_quiesce; mt_snapshot_status; mt_unreachable] &&
  forallb (fun t => memN t [mt_heartbeat; mt_heartbeat_resp]) quiesce_heartbeat_types &&
  forallb (fun t => memN t quiesce_heartbeat_types) [mt_heartbeat; mt_heartbeat_resp].

Lemma node_run_cons n e es : node_run n (e :: es) = node_run (node_do n e) es.
Proof. reflexivity. Qed.
Lemma node_run_app n a b : node_run n (a ++ b) = node_run (node_run n a) b.
Proof. apply fold_left_app. Qed.
Lemma node_run_snoc n es e : node_run n (es ++ [e]) = node_do (node_run n es) e.
Proof. apply node_run_app. Qed.

Lemma node_do_tick n : node_do n EvTick = set_q n (fst (q_step (n_q n) QTick)).
Proof. unfold node_do. cbn [node_step]. destruct (q_step (n_q n) QTick). reflexivity. Qed.

Section NodeWake.

Lemma record_false_wakes q : q_quiesced (q_do q (QRecord false)) = false.
Proof. apply record_taken. reflexivity. Qed.

Lemma taken_proposals_wake n : n_queue n <> [] -> n_quiesced (node_do n EvProposals) = false.
Proof.
  intros Hq. unfold node_do, n_quiesced. cbn [node_step].
  destruct (rl_step (n_rl n) RLimited) as [rl1 a]. cbn [fst n_q].
  destruct (n_queue n); [congruence|]. apply record_false_wakes.
Qed.

Lemma proposal_wakes_node_proved n sz : n_quiesced (node_do (node_do n (EvApiPropose sz)) EvProposals) = false \/ n_paused n = true.
Proof.
  destruct (n_paused n) eqn:Hp; [right; reflexivity|left]. apply taken_proposals_wake.
  unfold node_do. cbn [node_step]. rewrite Hp. cbn [andb fst n_queue]. destruct (n_queue n); discriminate.
Qed.

(* node.recordMessage: a message the node does not consume itself is recorded with the quiesce
   state; a heartbeat that carries a ReadIndex confirmation counts as a read *)
Lemma message_recorded n t hint : handled_by_node t = false ->
  node_do n (EvMsg t hint) = set_q n (q_do (n_q n) (QRecord (is_heartbeat_type t && negb (0 <? hint)))).
Proof.
  intros Hh. unfold node_do. cbn [node_step]. rewrite Hh. unfold recorded_type. change record_hint_as_read with true.
  destruct (is_heartbeat_type t) eqn:Hb, (0 <? hint); cbn [andb negb]; rewrite ?Hb; reflexivity.
Qed.

Lemma message_wakes n t hint :
  handled_by_node t = false -> is_heartbeat_type t && negb (0 <? hint) = false -> n_quiesced (node_do n (EvMsg t hint)) = false.
Proof. intros Hh Hb. rewrite message_recorded, Hb by exact Hh. apply record_false_wakes. Qed.

Lemma heartbeat_types_not_handled t : is_heartbeat_type t = true -> handled_by_node t = false.
Proof.
  unfold is_heartbeat_type, memN. cbn [existsb quiesce_heartbeat_types]. intros H.
  repeat (apply orb_true_iff in H; destruct H as [H|H]); try discriminate; apply N.eqb_eq in H; subst t; reflexivity.
Qed.

Definition q_wf (q : qstate) : Prop := q_since q <= q_now q.

Lemma quiesced_ticks k : forall n, n_quiesced n = true ->
  n_q (node_run n (repeat EvTick k)) =
  mkQ true (q_election (n_q n)) (q_now (n_q n) + N.of_nat k) (q_since (n_q n)) (q_idle (n_q n)) (q_exit (n_q n)) (q_flag (n_q n)).
Proof.
  induction k as [|k IH]; intros n Hq; pose proof (quiesced_enabled _ Hq) as He.
  - rewrite N.add_0_r. cbn [repeat node_run fold_left]. destruct (n_q n). cbn in He. rewrite He. reflexivity.
  - cbn [repeat]. rewrite node_run_cons, node_do_tick, q_tick_enabled by exact He. unfold n_quiesced in Hq. rewrite Hq.
    cbn [negb andb fst]. rewrite IH.
    + cbn [set_q n_q q_election q_now q_since q_idle q_exit q_flag]. rewrite add_1_of_nat. reflexivity.
    + unfold n_quiesced, q_quiesced in *. rewrite He in Hq. exact Hq.
Qed.

Lemma heartbeat_after_grace_ticks_wakes_proved n k :
  n_quiesced n = true -> q_wf (n_q n) -> q_election (n_q n) <= N.of_nat k ->
  n_quiesced (node_do (node_run n (repeat EvTick k)) (EvMsg mt_heartbeat 0)) = false.
Proof.
  intros Hq Hw Hk. rewrite message_recorded by reflexivity. unfold n_quiesced. cbn [set_q n_q]. apply record_taken.
  rewrite (quiesced_ticks k n Hq). unfold q_new_to_quiesce, q_quiesced. cbn [q_enabled q_since q_now q_election].
  unfold n_quiesced, q_quiesced in Hq. apply andb_true_iff in Hq. destruct Hq as [_ Hq]. rewrite Hq. cbn [andb negb orb].
  apply N.ltb_ge. unfold q_wf in Hw. lia.
Qed.

End NodeWake.

Section NodeLimiter.

Lemma propose_answer n sz : snd (node_step n (EvApiPropose sz)) = Some (negb (n_paused n)).
Proof. cbn [node_step]. destruct (n_paused n); reflexivity. Qed.

Lemma proposals_polled n :
  n_paused (node_do n EvProposals) = n_limited (node_do n EvProposals) /\
  n_limited (node_do n EvProposals) = rl_limited (fst (rl_step (n_rl n) RLimited)).
Proof.
  unfold node_do. cbn [node_step]. pose proof (rl_poll_answer (n_rl n)) as Ha.
  destruct (rl_step (n_rl n) RLimited) as [rl1 a]. cbn [fst snd n_paused n_limited] in *. subst a.
  destruct (rl_limited rl1); split; reflexivity.
Qed.

Definition rl_inv2 (r : rlim) : Prop :=
  rl_tick_limited r <= rl_tick r /\ Forall (fun kv => fst (snd kv) <= rl_tick r) (rl_followers r).

Lemma Forall_filter {A} (P : A -> Prop) f l : Forall P l -> Forall P (filter f l).
Proof.
  induction 1 as [|a l Ha Hl IH]; cbn [filter]; [constructor|]. destruct (f a); [constructor; assumption|assumption].
Qed.

Lemma Forall_fs_remove P id l : Forall P l -> Forall P (fs_remove id l).
Proof.
  induction 1 as [|[k v] l Ha Hl IH]; cbn [fs_remove]; [constructor|]. destruct (k =? id); [assumption|constructor; assumption].
Qed.

Lemma rl_step_inv2 r o : rl_inv2 r -> rl_inv2 (fst (rl_step r o)).
Proof.
  intros [Ht Hf]. split; [exact (rl_step_inv r o Ht)|].
  destruct o; try exact Hf.
  - eapply Forall_impl; [|exact Hf]. cbn. intros kv H. lia.
  - constructor.
  - constructor; [apply N.le_refl|]. apply Forall_fs_remove. exact Hf.
  - rewrite rl_poll. cbn [fst rl_tick rl_followers]. unfold limited_by_size.
    destruct (negb (rl_enabled r)); [exact Hf|]. destruct (negb (rl_limited r)); apply Forall_filter; exact Hf.
Qed.

Lemma rl_step_max2 r o : rl_max (fst (rl_step r o)) = rl_max r.
Proof. apply rl_step_max. Qed.

Definition node_inv (n : nnode) : Prop := rl_inv2 (n_rl n).

Lemma node_step_rl (P : rlim -> Prop) (HP : forall r o, P r -> P (fst (rl_step r o))) n e :
  P (n_rl n) -> P (n_rl (node_do n e)).
Proof.
  unfold node_do. intros H. destruct e; cbn [node_step]; try (apply HP; exact H); try exact H.
  - destruct (q_step (n_q n) QTick). exact H.
  - destruct (handled_by_node t); [destruct ((t =? mt_quiesce) && quiesce_message_tries_enter)|]; exact H.
  - destruct (queue_refuses_when_paused && n_paused n); exact H.
  - apply (HP _ RLimited) in H. destruct (rl_step (n_rl n) RLimited) as [rl1 a]. cbn [fst n_rl] in *.
    revert rl1 H. induction (n_queue n) as [|sz l IH]; intros r H; [exact H|]. apply IH, HP, H.
Qed.

Lemma node_step_inv n e : node_inv n -> node_inv (node_do n e).
Proof. apply (node_step_rl rl_inv2 rl_step_inv2). Qed.

Lemma node_step_max n e : rl_max (n_rl (node_do n e)) = rl_max (n_rl n).
Proof.
  apply (node_step_rl (fun r => rl_max r = rl_max (n_rl n))); [|reflexivity]. intros r o <-. apply rl_step_max.
Qed.

Lemma node_run_inv es : forall n, node_inv n -> node_inv (node_run n es).
Proof. induction es as [|e es IH]; intros n H; [exact H|]. apply IH, node_step_inv, H. Qed.

Lemma node_new_inv q e m : node_inv (node_new q e m).
Proof. split; [apply N.le_0_l|constructor]. Qed.

Lemma node_rl_ticks k : forall n,
  node_run n (repeat EvRlTick k) =
  mkNode (n_q n) (mkRL (rl_size (n_rl n)) (rl_max (n_rl n)) (rl_followers (n_rl n)) (rl_tick (n_rl n) + N.of_nat k) (rl_tick_limited (n_rl n)) (rl_limited (n_rl n)))
         (n_limited n) (n_paused n) (n_queue n).
Proof.
  induction k as [|k IH]; intros n.
  - rewrite N.add_0_r. destruct n as [q [] l p u]; reflexivity.
  - cbn [repeat]. rewrite node_run_cons, IH. cbn [node_do node_step fst set_rl rl_do rl_step n_q n_rl n_limited n_paused n_queue rl_size rl_max rl_followers rl_tick rl_tick_limited rl_limited]. rewrite add_1_of_nat. reflexivity.
Qed.

Definition sane_max (m : N) : Prop := 2 <= m /\ m * 7 < w64.

Lemma stale_after_quiet r :
  Forall (fun kv => fst (snd kv) <= rl_tick r) (rl_followers r) ->
  forall d, gc_tick < d ->
  filter (fun kv => fresh (rl_tick r + d) (snd kv)) (rl_followers r) = [].
Proof.
  intros Hf d Hd. induction Hf as [|kv l Hk Hl IH]; [reflexivity|]. cbn [filter]. rewrite IH.
  replace (fresh _ _) with false; [reflexivity|]. symmetry. apply N.leb_gt. lia.
Qed.

Definition drained (m : nnode) : Prop :=
  n_limited m = false /\ n_paused m = false /\ rl_size (n_rl m) = 0 /\ rl_followers (n_rl m) = [] /\
  rl_limited (n_rl m) = false /\ n_queue m = [].

Lemma quiet_poll m :
  rl_size (n_rl m) = 0 -> sane_max (rl_max (n_rl m)) -> rl_gc (n_rl m) = [] -> n_queue m = [] ->
  (rl_limited (n_rl m) = true -> change_tick_threshold < rl_tick (n_rl m) - rl_tick_limited (n_rl m)) ->
  drained (node_do m EvProposals).
Proof.
  intros Hs [H2 Hw] Hg Hq Hl.
  pose proof (drained_poll_unlimited _ Hs H2 Hw Hg Hl) as Ha. rewrite rl_poll_answer in Ha.
  destruct (proposals_polled m) as [Hp Hlim]. replace (rl_limited _) with false in Hlim by congruence. rewrite Hlim in Hp.
  pose proof (rl_poll_size (n_rl m)) as Hc. pose proof (rl_poll_followers (n_rl m)) as Hd.
  rewrite (verdict_enabled _ (sane_enabled _ H2 Hw)), Hg in Hd.
  unfold drained. rewrite Hp, Hlim. unfold node_do. cbn [node_step]. rewrite Hq.
  destruct (rl_step (n_rl m) RLimited) as [r1 a]. cbn [fst snd fold_left n_rl n_queue] in *.
  repeat split; congruence.
Qed.

Lemma drained_node_accepts_proved n :
  node_inv n -> sane_max (rl_max (n_rl n)) -> n_queue n = [] -> drained (node_run n drain_events).
Proof.
  intros [Ht Hf] Hs Hq. unfold drain_events. rewrite node_run_cons, node_run_snoc, node_rl_ticks.
  apply quiet_poll; [reflexivity|exact Hs| |exact Hq|intros _].
  - apply (stale_after_quiet (n_rl n) Hf). reflexivity.
  - cbn. unfold change_tick_threshold. lia.
Qed.

Lemma drained_accepts m sz : drained m -> snd (node_step m (EvApiPropose sz)) = Some true.
Proof. intros [_ [Hp _]]. rewrite propose_answer, Hp. reflexivity. Qed.

(* idle events: nothing enters or leaves memory and no follower reports (EvConfigChange, which does
   not touch the limiter, is left out as well) *)
Definition idle_event (e : nev) : bool :=
  match e with
  | EvTick | EvMsg _ _ | EvRead | EvSnapshotReq | EvProposals | EvDrained | EvRlTick => true
  | _ => false
  end.

Lemma drained_idle_step m e : sane_max (rl_max (n_rl m)) -> drained m -> idle_event e = true -> drained (node_do m e).
Proof.
  intros Hsane Hd Hi. destruct e; try discriminate Hi.
  - rewrite node_do_tick. exact Hd.
  - unfold node_do. cbn [node_step]. destruct (handled_by_node t); [destruct ((t =? mt_quiesce) && quiesce_message_tries_enter)|]; exact Hd.
  - exact Hd.
  - exact Hd.
  - destruct Hd as (A & B & C & D & E & F). apply quiet_poll; [exact C|exact Hsane|unfold rl_gc; rewrite D; reflexivity|exact F|congruence].
  - destruct Hd as (A & B & C & D & E & F). repeat split; assumption.
  - exact Hd.
Qed.

Lemma drained_stays_while_idle_proved es : forall m,
  sane_max (rl_max (n_rl m)) -> drained m -> forallb idle_event es = true -> drained (node_run m es).
Proof.
  induction es as [|e es IH]; intros m Hs Hd Hi; [exact Hd|].
  apply andb_true_iff in Hi. destruct Hi as [Hi1 Hi2].
  apply IH; [rewrite node_step_max; exact Hs|apply drained_idle_step; assumption|exact Hi2].
Qed.

Lemma fold_max_ge l : forall a, a <= fold_left N.max l a.
Proof.
  induction l as [|x l IH]; intros a; [apply N.le_refl|]. exact (N.le_trans _ _ _ (N.le_max_l a x) (IH _)).
Qed.

Lemma over_limit_refuses_proved n sz :
  rl_enabled (n_rl n) = true -> rl_limited (n_rl n) = false ->
  (rl_tick_limited (n_rl n) = 0 \/ change_tick_threshold < rl_tick (n_rl n) - rl_tick_limited (n_rl n)) ->
  rl_max (n_rl n) < rl_size (n_rl n) ->
  n_paused (node_do n EvProposals) = true /\ snd (node_step (node_do n EvProposals) (EvApiPropose sz)) = Some false.
Proof.
  intros He Hl Ht Hm.
  assert (Hans : snd (rl_step (n_rl n) RLimited) = Some true).
  { apply limit_when_over_proved; [exact He|exact Hl| |exact Ht]. exact (N.lt_le_trans _ _ _ Hm (fold_max_ge _ _)). }
  rewrite rl_poll_answer in Hans.
  destruct (proposals_polled n) as [Hp Hlim]. replace (rl_limited _) with true in Hlim by congruence.
  rewrite propose_answer, Hp, Hlim. split; reflexivity.
Qed.

End NodeLimiter.

Section RequestPaths.

Lemma class_quorum s h k :
  sh_loss s = false -> quorum_at s h = true -> progress_possible s h k = true -> request_class s h k = OC.
Proof. intros H1 H2 H3. unfold request_class. rewrite H1, H2, H3. reflexivity. Qed.

(* the request itself wakes the replica of a voter's host, so it does not matter that everything sleeps *)
Lemma voter_request_progresses s h k : origin_is_voter s h = true -> progress_possible s h k = true.
Proof. intros H. unfold progress_possible. rewrite H. destruct k; apply orb_true_r. Qed.

Lemma replicate_wakes n : n_quiesced (node_do n (EvMsg mt_replicate 0)) = false.
Proof. apply message_wakes; reflexivity. Qed.

Lemma confirmation_wakes n t : is_heartbeat_type t = true -> n_quiesced (node_do n (EvMsg t 1)) = false.
Proof. intros Hb. apply message_wakes; [apply heartbeat_types_not_handled, Hb|apply andb_false_r]. Qed.

Definition unconditional_path (s : shard) (h : N) (k : rkind) (r : rep) : bool :=
  (rp_id r =? h) || match k with KR => (rp_id r =? sh_leader s) || is_voting r | _ => true end.

(* every such path ends with a Replicate or with a heartbeat that carries the read confirmation
   (the EvApplied that follows on the origin of a proposal does not touch the quiesce state) *)
Lemma path_wakes s h k r n :
  unconditional_path s h k r = true -> n_quiesced (node_run n (path_events s h k r)) = false.
Proof.
  unfold unconditional_path, path_events, node_run. intros H.
  destruct (rp_id r =? h); [|cbn [orb] in H; destruct (rp_id r =? sh_leader s)]; destruct k; cbn [fold_left].
  - exact (replicate_wakes _).
  - apply confirmation_wakes. reflexivity.
  - apply replicate_wakes.
  - apply replicate_wakes.
  - apply confirmation_wakes. reflexivity.
  - apply replicate_wakes.
  - apply replicate_wakes.
  - cbn [orb] in H. rewrite H. apply confirmation_wakes. reflexivity.
  - apply replicate_wakes.
Qed.

(* a non-voting replica, which takes no part in the confirmation of a read, is woken by the
   periodic heartbeat of the woken leader once its grace period is over *)
Lemma path_wakes_after_grace s h r n :
  unconditional_path s h KR r = false -> n_quiesced n = true -> q_wf (n_q n) ->
  q_election (n_q n) <= N.of_nat (grace_ticks s) -> n_quiesced (node_run n (path_events s h KR r)) = false.
Proof.
  unfold unconditional_path, path_events. intros Hu. apply orb_false_iff in Hu. destruct Hu as [-> Hu].
  apply orb_false_iff in Hu. destruct Hu as [-> ->]. rewrite node_run_snoc. apply heartbeat_after_grace_ticks_wakes_proved.
Qed.

Lemma complete_rep_node s h k l r :
  in_component s h r = true -> rp_node (complete_rep s h k l r) = node_run (rp_node r) (path_events s h k r).
Proof. intros H. unfold complete_rep. rewrite H. destruct (rp_gate r); reflexivity. Qed.

End RequestPaths.

Section QuiesceSwitch.

Lemma node_step_q (P : qstate -> Prop) (HP : forall q o, P q -> P (fst (q_step q o))) n e :
  P (n_q n) -> P (n_q (node_do n e)).
Proof.
  assert (HR : forall b q hb, P q -> P (record_if b q hb)) by (intros [] q hb H; [apply HP, H|exact H]).
  intros H. destruct e; try exact H; try (rewrite node_do_tick; apply HP, H);
    unfold node_do; cbn [node_step fst set_q n_q]; try apply HR, H.
  - destruct (handled_by_node t); [destruct (_ && _); [apply HP, H|exact H]|apply HR, H].
  - destruct (_ && _); exact H.
  - destruct (rl_step (n_rl n) RLimited). destruct (n_queue n); [exact H|apply HR, H].
Qed.

Lemma node_step_en n e : q_enabled (n_q (node_do n e)) = q_enabled (n_q n).
Proof.
  apply (node_step_q (fun q => q_enabled q = q_enabled (n_q n))); [|reflexivity]. intros q o <-. apply q_step_enabled.
Qed.

Lemma node_run_en es : forall n, q_enabled (n_q (node_run n es)) = q_enabled (n_q n).
Proof. induction es as [|e es IH]; intros n; [reflexivity|]. rewrite node_run_cons, IH. apply node_step_en. Qed.

Lemma burst_node_en fuel : forall n sz b, q_enabled (n_q (fst (burst_node fuel n sz b))) = q_enabled (n_q n).
Proof.
  induction fuel as [|f IH]; intros n sz b; [reflexivity|]. cbn [burst_node].
  pose proof (node_step_en n (EvApiPropose sz)) as H1. unfold node_do in H1.
  destruct (node_step n (EvApiPropose sz)) as [n1 a]. rewrite IH, node_step_en. exact H1.
Qed.

Lemma follower_report_en n : q_enabled (n_q (fst (follower_report n))) = q_enabled (n_q n).
Proof. unfold follower_report. destruct (rl_step (n_rl n) RLimited). reflexivity. Qed.

Lemma burst_rounds_en fuel : forall l f fid sz b,
  q_enabled (n_q (fst (fst (burst_rounds fuel l f fid sz b)))) = q_enabled (n_q l) /\
  q_enabled (n_q (snd (fst (burst_rounds fuel l f fid sz b)))) = q_enabled (n_q f).
Proof.
  induction fuel as [|fu IH]; intros l f fid sz b; [split; reflexivity|]. cbn [burst_rounds].
  pose proof (burst_node_en 8 l sz false) as Hl. destruct (burst_node 8 l sz false) as [l1 b1].
  match goal with |- context [follower_report ?x] => pose proof (follower_report_en x) as Hf; destruct (follower_report x) as [f2 hint] end.
  cbn [fst] in Hl, Hf. rewrite !node_step_en in Hf.
  match goal with |- context [burst_rounds fu ?a ?c fid sz ?d] => destruct (IH a c fid sz d) as [A B] end.
  rewrite A, B, !node_step_en. split; assumption.
Qed.

(* [_en]: the q_enabled switch of a node. With the shard's Quiesce flag [b], every node has it. *)
Definition rep_en (b : bool) (r : rep) : Prop := q_enabled (n_q (rp_node r)) = b.
Definition shard_en (b : bool) (s : shard) : Prop := sh_quiesce s = b /\ Forall (rep_en b) (sh_reps s).

Lemma fresh_node_en s : q_enabled (n_q (fresh_node s)) = sh_quiesce s.
Proof. reflexivity. Qed.

Lemma map_reps_en b s f : (forall r, rep_en b r -> rep_en b (f r)) -> shard_en b s -> shard_en b (map_reps s f).
Proof. intros Hf [Hq Hs]. split; [exact Hq|]. apply Forall_map. exact (Forall_impl _ Hf Hs). Qed.

Lemma find_en b s (p : rep -> bool) r : shard_en b s -> find p (sh_reps s) = Some r -> rep_en b r.
Proof. intros [_ Hs] Hf. exact (proj1 (Forall_forall _ _) Hs r (proj1 (find_some _ _ Hf))). Qed.

(* closes [forall r, rep_en b r -> rep_en b (f r)] for an [f] that leaves the node of [r] alone or
   runs node events on it: cases on the conditions of [f], then node_step_en / node_run_en *)
Ltac en_rep := intros ?r ?Hr; unfold rep_en in *;
  repeat (match goal with |- context [if ?c then _ else _] => destruct c end);
  cbn [rp_node set_node set_applied]; rewrite ?node_run_en, ?node_step_en; auto.

Lemma complete_request_en b s h k : shard_en b s -> shard_en b (complete_request s h k).
Proof.
  intros Hs. apply (map_reps_en b s (complete_rep s h k (next_log s k))) in Hs; [|unfold complete_rep; en_rep].
  unfold complete_request. destruct (leader_live s h); exact Hs.
Qed.

Lemma apply_request_en b s h k : shard_en b s -> shard_en b (fst (apply_request s h k)).
Proof. intros Hs. unfold apply_request. destruct (request_class s h k); try exact Hs. apply complete_request_en, Hs. Qed.

Lemma proposals_en b fuel : forall s h, shard_en b s -> shard_en b (fst (fst (proposals fuel s h))).
Proof.
  induction fuel as [|f IH]; intros s h Hs; [exact Hs|]. cbn [proposals].
  apply (apply_request_en b s h KP) in Hs. destruct (apply_request s h KP) as [s1 []]; try exact Hs.
  apply (IH s1 h) in Hs. destruct (proposals f s1 h) as [[s2 []] n]; exact Hs.
Qed.

Lemma wake_component_en b s h : shard_en b s -> shard_en b (wake_component s h).
Proof. apply map_reps_en. en_rep. Qed.

Lemma add_rep_en b s id kind : shard_en b s -> shard_en b (add_rep s id kind).
Proof.
  intros Hs. unfold add_rep. destruct (find_rep s id); [apply map_reps_en; [en_rep|exact Hs]|].
  destruct Hs as [Hq Hs]. split; [exact Hq|]. apply Forall_app. split; [exact Hs|]. constructor; [exact Hq|constructor].
Qed.

Lemma fair_en b s : shard_en b s -> shard_en b (fst (fair s)).
Proof.
  intros Hs. unfold fair. set (s2 := map_reps (heal s) _).
  assert (H2 : shard_en b s2).
  { pose proof (proj1 Hs) as Hq. apply map_reps_en; [en_rep|]. apply (map_reps_en b s); [en_rep|exact Hs]. }
  apply (proposals_en b 1 s2 (first_voter s2)) in H2. destruct (proposals 1 s2 (first_voter s2)) as [[s3 []] n]; try exact H2.
  apply map_reps_en; [en_rep|exact H2].
Qed.

Lemma burst_en b s at_ k sz : shard_en b s -> shard_en b (fst (burst s at_ k sz)).
Proof.
  intros Hs. unfold burst. destruct (find_rep s at_) as [r0|] eqn:E0; [|exact Hs].
  pose proof (find_en b s _ r0 Hs E0) as H0. destruct (negb (rp_up r0)); [exact Hs|]. destruct (rp_gate r0).
  - pose proof (burst_node_en k (rp_node r0) sz false) as Hb. destruct (burst_node k (rp_node r0) sz false) as [n1 busy].
    apply map_reps_en; [|exact Hs]. unfold rep_en in *. intros r Hr. destruct (rp_id r =? at_); [cbn in *; congruence|exact Hr].
  - destruct (sh_leader s =? at_); [|exact Hs]. destruct (gated_follower s at_) as [g|] eqn:Eg; [|exact Hs].
    pose proof (find_en b s _ g Hs Eg) as Hg.
    destruct (burst_rounds_en (Nat.div k 8) (rp_node r0) (rp_node g) (rp_id g) sz false) as [A B].
    destruct (burst_rounds (Nat.div k 8) (rp_node r0) (rp_node g) (rp_id g) sz false) as [[l1 f1] busy].
    apply map_reps_en; [|exact Hs]. unfold rep_en in *. intros r Hr.
    destruct (rp_id r =? at_); [|destruct (rp_id r =? rp_id g)]; cbn in *; congruence.
Qed.

Lemma shard_step_en b s o : shard_en b s -> shard_en b (fst (shard_step s o)).
Proof.
  intros Hs. pose proof (proj1 Hs) as Hq.
  (* most operations leave the replicas alone or map over them a function that only runs node events *)
  destruct o; cbn [shard_step]; try exact Hs; try (apply (map_reps_en b s); [en_rep|exact Hs]).
  - apply (proposals_en b k s h) in Hs. destruct (proposals k s h) as [[s1 c] n]. exact Hs.
  - apply (apply_request_en b s h KR) in Hs. destruct (apply_request s h KR). exact Hs.
  - apply (apply_request_en b s via KCC) in Hs. destruct (apply_request s via KCC) as [s1 []]; try exact Hs. apply add_rep_en, Hs.
  - match goal with |- context [apply_request ?s0] => assert (H0 : shard_en b s0) end.
    { destruct (_ && _); [apply (wake_component_en b s via), Hs|exact Hs]. }
    apply (apply_request_en b _ via KCC) in H0. destruct (apply_request _ via KCC) as [s1 []]; try exact H0.
    apply map_reps_en; [en_rep|exact H0].
  - destruct (find_rep s h) as [r|]; [destruct (rp_up r)|]; try exact Hs. apply map_reps_en; [en_rep|exact Hs].
  - destruct (_ && _); [destruct (sh_leader s =? h)|]; try exact Hs. apply (wake_component_en b s h), Hs.
  - destruct (request_class s h KP); try exact Hs. apply complete_request_en, Hs.
  - apply (burst_en b s h k sz) in Hs. destruct (burst s h k sz). exact Hs.
  - apply fair_en in Hs. destruct (fair s). exact Hs.
  - unfold lag. destruct (find_rep s h) as [r|]; [|exact Hs]. destruct (_ && _); [|exact Hs]. destruct (_ || _); [|exact Hs].
    apply map_reps_en; [en_rep|]. destruct (is_full r); [apply wake_component_en|]; exact Hs.
Qed.

Lemma shard_run_en b ops : forall s, shard_en b s -> shard_en b (shard_state s ops).
Proof.
  induction ops as [|o ops IH]; intros s Hs; [exact Hs|]. unfold shard_state in *. cbn [shard_run].
  apply (shard_step_en b s o) in Hs. destruct (shard_step s o) as [s1 l]. apply (IH s1) in Hs. destruct (shard_run s1 ops). exact Hs.
Qed.

Lemma shard_init_en q e m n : shard_en q (shard_init q e m n).
Proof. split; [reflexivity|]. apply Forall_map, Forall_forall. reflexivity. Qed.

Lemma countb_pos_exists {A} (f : A -> bool) l : 0 < countb f l -> existsb f l = true.
Proof.
  unfold countb. induction l as [|a l IH]; cbn [filter length existsb]; [discriminate|].
  destruct (f a); [reflexivity|exact IH].
Qed.

(* the quorum holds a full voter, and with quiesce off it is awake *)
Lemma awake_progresses s h k :
  shard_en false s -> sh_loss s = false -> quorum_at s h = true -> request_class s h k = OC.
Proof.
  intros [_ Hen] Hl Hq. apply class_quorum; [exact Hl|exact Hq|]. unfold progress_possible, some_awake_voter.
  unfold quorum_at in Hq. destruct (find_rep s h) as [r0|]; [|discriminate].
  apply andb_true_iff in Hq. destruct Hq as [_ Hq]. apply N.ltb_lt, countb_pos_exists, existsb_exists in Hq.
  destruct Hq as (r & Hin & Hr). replace (existsb _ _) with true; [rewrite orb_true_r; reflexivity|]. symmetry. apply existsb_exists.
  exists r. split; [exact Hin|]. rewrite Hr. rewrite Forall_forall in Hen. unfold n_quiesced, q_quiesced. rewrite (Hen r Hin). reflexivity.
Qed.

End QuiesceSwitch.

Lemma fair_period_converges_proved s : snd (fair s) = OC -> same_state (fst (fair s)) = true.
Proof.
  unfold fair. set (s2 := map_reps (heal s) _).
  destruct (proposals 1 s2 (first_voter s2)) as [[s3 c] n]. cbn [fst snd]. intros ->.
  apply forallb_forall. intros r Hr. apply in_map_iff in Hr. destruct Hr as [r0 [<- Hin]].
  destruct (is_member r0) eqn:Em.
  - apply orb_true_iff. right. apply N.eqb_refl.
  - rewrite Em, andb_false_r. reflexivity.
Qed.

Section Bursts.

Lemma burst_node_add a : forall c n sz b,
  burst_node (a + c) n sz b = let '(n1, b1) := burst_node a n sz b in burst_node c n1 sz b1.
Proof.
  induction a as [|a IH]; intros c n sz b; [reflexivity|]. cbn [Nat.add burst_node].
  destruct (node_step n (EvApiPropose sz)) as [n1 r]. apply IH.
Qed.

(* a node that refuses, and whose poll changes nothing, is a fixed point of the burst *)
Lemma burst_node_settled c : forall n sz b,
  n_paused n = true -> node_do n EvProposals = n -> burst_node (S c) n sz b = (n, true).
Proof.
  induction c as [|c IH]; intros n sz b Hp Hn; cbn [burst_node]; cbn [node_step];
    change queue_refuses_when_paused with true; rewrite Hp; cbn [andb]; rewrite Hn.
  - rewrite orb_true_r. reflexivity.
  - apply IH; assumption.
Qed.

Lemma burst_node_settles a c n sz n1 b1 :
  burst_node a n sz false = (n1, b1) -> n_paused n1 = true -> node_do n1 EvProposals = n1 ->
  burst_node (a + S c) n sz false = (n1, true).
Proof. intros H Hp Hn. rewrite burst_node_add, H. apply burst_node_settled; assumption. Qed.

Lemma burst_rounds_add a : forall c l f fid sz b,
  burst_rounds (a + c) l f fid sz b = let '(l1, f1, b1) := burst_rounds a l f fid sz b in burst_rounds c l1 f1 fid sz b1.
Proof.
  induction a as [|a IH]; intros c l f fid sz b; [reflexivity|]. cbn [Nat.add burst_rounds].
  destruct (burst_node 8 l sz false) as [l1 b1]. destruct (follower_report _) as [f2 hint]. apply IH.
Qed.

(* Leader and gated follower once both are limited: the follower holds [held] above the 70% mark and
   applies nothing, the leader has applied everything and is limited by the follower's report alone.
   A round then only moves the two limiter clocks (and the stamp of the report) on by one. *)
Section HeldRounds.
  Variables (q q' : qstate) (max held fid sz tl tl' : N).
  Definition held_leader t := mkNode q (mkRL 0 max [(fid, (t, held))] t tl true) true true [].
  Definition held_follower t := mkNode q' (mkRL held max [] t tl' true) true true [].
  Hypothesis Hen : (0 <? max) && negb (max =? w64 - 1) = true.
  Hypothesis Hheld : held < w64.
  Hypothesis Hmark : (max * 7) mod w64 / 10 <= held.

  Lemma held_follower_poll t : rl_step (n_rl (held_follower t)) RLimited = (n_rl (held_follower t), Some true).
  Proof. rewrite limited_holds; [reflexivity|exact Hen|reflexivity|exact Hmark]. Qed.

  Lemma held_leader_poll t : node_do (held_leader t) EvProposals = held_leader t.
  Proof.
    unfold node_do. cbn [node_step]. rewrite limited_holds; [|exact Hen|reflexivity|];
      unfold rl_gc, max_inmem, fresh; cbn [held_leader n_rl rl_followers rl_tick filter snd fst];
      rewrite N.sub_diag; change (0 <=? gc_tick) with true; cbn [filter map fold_left snd rl_size rl_max];
      [reflexivity|rewrite N.max_0_l; exact Hmark].
  Qed.

  Lemma held_round k t t' b :
    burst_rounds (S k) (held_leader t) (held_follower t') fid sz b =
    burst_rounds k (held_leader (t + 1)) (held_follower (t' + 1)) fid sz true.
  Proof.
    assert (F1 : node_do (node_do (held_follower t') (EvAppended (sz * 0))) EvRlTick = held_follower (t' + 1)).
    { unfold node_do. cbn [node_step rl_do rl_step set_rl fst held_follower n_q n_rl n_limited n_paused n_queue
                           rl_size rl_max rl_followers rl_tick rl_tick_limited rl_limited].
      rewrite N.mul_0_r, N.add_0_r, (N.mod_small _ _ Hheld). reflexivity. }
    assert (F2 : follower_report (held_follower (t' + 1)) = (held_follower (t' + 1), held)).
    { unfold follower_report. rewrite held_follower_poll. reflexivity. }
    assert (F3 : node_do (held_follower (t' + 1)) EvProposals = held_follower (t' + 1)).
    { unfold node_do. cbn [node_step]. rewrite held_follower_poll. reflexivity. }
    assert (L1 : node_do (node_do (node_do (held_leader t) EvDrained) EvRlTick) (EvFollowerReport fid held) = held_leader (t + 1)).
    { unfold node_do. cbn [node_step rl_do rl_step set_rl fst held_leader n_q n_rl n_limited n_paused n_queue
                           rl_size rl_max rl_followers rl_tick rl_tick_limited rl_limited fs_remove].
      rewrite N.eqb_refl. reflexivity. }
    cbn [burst_rounds]. rewrite burst_node_settled; [|reflexivity|apply held_leader_poll].
    rewrite F1, F2, F3, L1, held_leader_poll, orb_true_r. reflexivity.
  Qed.

  Lemma held_rounds k : forall t t' b,
    burst_rounds (S k) (held_leader t) (held_follower t') fid sz b =
    (held_leader (t + N.of_nat (S k)), held_follower (t' + N.of_nat (S k)), true).
  Proof.
    induction k as [|k IH]; intros t t' b; rewrite held_round; [reflexivity|].
    rewrite IH, !add_1_of_nat. reflexivity.
  Qed.
End HeldRounds.

Lemma burst_rounds_settle a c l f fid sz q q' max held tl tl' t t' b :
  burst_rounds a l f fid sz false = (held_leader q max held fid tl t, held_follower q' max held tl' t', b) ->
  (0 <? max) && negb (max =? w64 - 1) = true -> held < w64 -> (max * 7) mod w64 / 10 <= held ->
  burst_rounds (a + S c) l f fid sz false =
  (held_leader q max held fid tl (t + N.of_nat (S c)), held_follower q' max held tl' (t' + N.of_nat (S c)), true).
Proof. intros H H1 H2 H3. rewrite burst_rounds_add, H. apply held_rounds; assumption. Qed.

Lemma burst_gated_host s at_ k sz r0 :
  find_rep s at_ = Some r0 -> rp_up r0 = true -> rp_gate r0 = true ->
  burst s at_ k sz = let '(n1, busy) := burst_node k (rp_node r0) sz false in
                     (map_reps s (fun r => if rp_id r =? at_ then set_node r n1 else r), busy).
Proof. intros Hf Hu Hg. unfold burst. rewrite Hf, Hu, Hg. reflexivity. Qed.

Lemma burst_gated_follower s at_ k sz r0 g :
  find_rep s at_ = Some r0 -> rp_up r0 = true -> rp_gate r0 = false -> sh_leader s = at_ -> gated_follower s at_ = Some g ->
  burst s at_ k sz =
    let '(l1, f1, busy) := burst_rounds (Nat.div k 8) (rp_node r0) (rp_node g) (rp_id g) sz false in
    (map_reps s (fun r => if rp_id r =? at_ then set_node r l1 else if rp_id r =? rp_id g then set_node r f1 else r), busy).
Proof. intros Hf Hu Hg Hl Hgf. unfold burst. rewrite Hf, Hu, Hg, Hl, N.eqb_refl, Hgf. reflexivity. Qed.

Lemma shard_run_app a : forall s b,
  shard_run s (a ++ b) = let '(s1, la) := shard_run s a in let '(s2, lb) := shard_run s1 b in (s2, la ++ lb).
Proof.
  induction a as [|o a IH]; intros s b; cbn [app shard_run].
  - destruct (shard_run s b). reflexivity.
  - destruct (shard_step s o) as [s1 l]. rewrite IH. destruct (shard_run s1 a) as [s2 la].
    destruct (shard_run s2 b). reflexivity.
Qed.

Lemma shard_lines_via s pre o post s1 l L :
  shard_step (shard_state s pre) o = (s1, l) ->
  snd (shard_run s pre) ++ l :: snd (shard_run s1 post) = L -> snd (shard_run s (pre ++ o :: post)) = L.
Proof.
  unfold shard_state. intros H <-. rewrite shard_run_app. destruct (shard_run s pre) as [s0 la]. cbn [fst snd shard_run] in *.
  rewrite H. destruct (shard_run s1 post). reflexivity.
Qed.

End Bursts.
