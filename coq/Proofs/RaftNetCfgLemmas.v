(* L2 stage 3 support: quorums of neighbouring configurations intersect; counting
   config change entries in a log. *)
From DB Require Import Model.RaftNet Model.RaftNetCfg Proofs.RaftNetLists.

(* quorums of two configurations always intersect *)

Definition qnear (C C' : list id) : Prop :=
  forall Q Q', is_quorum C Q -> is_quorum C' Q' -> exists x, In x Q /\ In x Q'.

Lemma qnear_refl C : qnear C C.
Proof.
  intros Q Q' (I1 & N1 & L1) (I2 & N2 & L2). now apply (quorum_intersect C).
Qed.

Lemma qnear_sym C C' : qnear C C' -> qnear C' C.
Proof.
  intros H Q Q' HQ HQ'. destruct (H Q' Q HQ' HQ) as (x & Hx & Hx'). now exists x.
Qed.

(* C' has exactly one voter more than C *)
Lemma qnear_grow C C' :
  NoDup C' -> incl C C' -> length C' = S (length C) -> qnear C C'.
Proof.
  intros ND Hi Hl Q Q' (I1 & N1 & L1) (I2 & N2 & L2).
  destruct (common_or_disjoint Q Q') as [H|Hd]; [exact H|]. exfalso.
  assert (HN : NoDup (Q ++ Q')) by (now apply NoDup_app_disjoint).
  assert (HI : incl (Q ++ Q') C').
  { apply incl_app; [|exact I2]. intros x Hx. apply Hi. now apply I1. }
  pose proof (NoDup_incl_length HN HI) as Hlen. rewrite app_length in Hlen.
  unfold quorum in *. rewrite Hl in *.
  pose proof (Nat.div_mod (length C) 2 ltac:(lia)) as D1.
  pose proof (Nat.mod_upper_bound (length C) 2 ltac:(lia)).
  pose proof (Nat.div_mod (S (length C)) 2 ltac:(lia)) as D2.
  pose proof (Nat.mod_upper_bound (S (length C)) 2 ltac:(lia)).
  lia.
Qed.

(* adding one voter, removing one voter *)
Theorem quorum_intersect_adjacent (C : list id) (x : id) :
  NoDup C -> ~ In x C -> qnear C (x :: C) /\ qnear (x :: C) C.
Proof.
  intros ND Hx.
  assert (H : qnear C (x :: C)).
  { apply qnear_grow; [now constructor | intros y Hy; now right | reflexivity]. }
  split; [exact H | now apply qnear_sym].
Qed.

Lemma firstn_S_out {A} (l : list A) b :
  nth_error l b = None -> firstn (S b) l = firstn b l.
Proof.
  intros H. apply nth_error_None in H. rewrite !firstn_all2 by lia. reflexivity.
Qed.

Section Ccs.
  Variable is_cc : entry -> bool.
  Notation ccs := (ccs is_cc).

  Lemma ccs_out l c : length l <= c -> ccs l c = 0.
  Proof. intros H. unfold RaftNetCfg.ccs. now rewrite skipn_all2. Qed.

  Lemma ccs_snoc l e c :
    c <= length l -> ccs (l ++ [e]) c = ccs l c + (if is_cc e then 1 else 0).
  Proof.
    intros H. unfold RaftNetCfg.ccs. rewrite skipn_app.
    replace (c - length l) with 0 by lia. simpl.
    rewrite filter_app, app_length. simpl. destruct (is_cc e); simpl; lia.
  Qed.

  Lemma ccs_app_r l r c : ccs l c <= ccs (l ++ r) c.
  Proof.
    unfold RaftNetCfg.ccs. rewrite skipn_app, filter_app, app_length. lia.
  Qed.

  Lemma ccs_anti l c c' : c <= c' -> ccs l c' <= ccs l c.
  Proof.
    intros H. unfold RaftNetCfg.ccs.
    replace c' with (c + (c' - c)) by lia. rewrite <- skipn_skipn.
    set (r := skipn c l).
    rewrite <- (firstn_skipn (c' - c) r) at 2. rewrite filter_app, app_length.
    rewrite Nat.add_comm. lia.
  Qed.

  Lemma ccs_firstn_mono l m m' c : m <= m' -> ccs (firstn m l) c <= ccs (firstn m' l) c.
  Proof.
    intros H.
    assert (E : firstn m' l = firstn m l ++ skipn m (firstn m' l)).
    { rewrite <- (firstn_skipn m (firstn m' l)) at 1. f_equal.
      rewrite firstn_firstn. now replace (Nat.min m m') with m by lia. }
    rewrite E. apply ccs_app_r.
  Qed.

  Lemma ccs_firstn_le l m c : ccs (firstn m l) c <= ccs l c.
  Proof.
    rewrite <- (firstn_skipn m l) at 2. apply ccs_app_r.
  Qed.

  Lemma ccs_agree l l' m c : agree m l l' -> ccs (firstn m l) c = ccs (firstn m l') c.
  Proof. unfold agree. now intros ->. Qed.

  Lemma ccs_firstn_S l b c e :
    c <= b -> nth_error l b = Some e ->
    ccs (firstn (S b) l) c = ccs (firstn b l) c + (if is_cc e then 1 else 0).
  Proof.
    intros Hc He. rewrite (firstn_S_snoc l b e He). apply ccs_snoc.
    rewrite firstn_length. assert (b < length l) by (apply nth_error_Some; congruence). lia.
  Qed.

  (* the position of the second config change above a *)
  Lemma second_cc l a : forall b,
    2 <= ccs (firstn b l) a ->
    exists p, a < p <= b /\ 2 <= ccs (firstn p l) a /\ ccs (firstn (p - 1) l) a <= 1.
  Proof.
    induction b as [|b IH]; intros H.
    - simpl in H. unfold RaftNetCfg.ccs in H. rewrite skipn_nil in H. simpl in H. lia.
    - destruct (Nat.le_gt_cases 2 (ccs (firstn b l) a)) as [Hb|Hb].
      + destruct (IH Hb) as (p & Hp & H2 & H1). exists p. repeat split; try lia; assumption.
      + exists (S b).
        assert (a < S b).
        { destruct (Nat.le_gt_cases (S b) a); [|lia].
          rewrite ccs_out in H; [lia|]. rewrite firstn_length. lia. }
        replace (S b - 1) with b by lia. repeat split; try lia; assumption.
  Qed.

  Variable cfg_of : list entry -> list id.
  Hypothesis cfg_noncc : forall l e, is_cc e = false -> cfg_of (l ++ [e]) = cfg_of l.
  Hypothesis cfg_step_near : forall l e, qnear (cfg_of l) (cfg_of (l ++ [e])).

  Lemma cfg_same l a : forall b,
    a <= b -> ccs (firstn b l) a = 0 -> cfg_of (firstn b l) = cfg_of (firstn a l).
  Proof.
    induction b as [|b IH]; intros Hab H0.
    - now replace a with 0 by lia.
    - destruct (Nat.eq_dec a (S b)) as [->|Hne]; [reflexivity|].
      destruct (nth_error l b) as [e|] eqn:He.
      + rewrite (ccs_firstn_S l b a e) in H0 by (lia || assumption).
        destruct (is_cc e) eqn:Ecc; [lia|].
        rewrite (firstn_S_snoc l b e He), cfg_noncc by assumption. apply IH; lia.
      + rewrite (firstn_S_out l b He) in *. apply IH; [lia | assumption].
  Qed.

  (* prefixes with at most one config change between them have intersecting quorums *)
  Lemma cfg_near l a : forall b,
    a <= b -> ccs (firstn b l) a <= 1 -> qnear (cfg_of (firstn a l)) (cfg_of (firstn b l)).
  Proof.
    induction b as [|b IH]; intros Hab H1.
    - replace a with 0 by lia. apply qnear_refl.
    - destruct (Nat.eq_dec a (S b)) as [->|Hne]; [apply qnear_refl|].
      destruct (nth_error l b) as [e|] eqn:He.
      + rewrite (ccs_firstn_S l b a e) in H1 by (lia || assumption).
        rewrite (firstn_S_snoc l b e He).
        destruct (is_cc e) eqn:Ecc.
        * rewrite <- (cfg_same l a b) by lia. apply cfg_step_near.
        * rewrite cfg_noncc by assumption. apply IH; lia.
      + rewrite (firstn_S_out l b He) in *. apply IH; [lia | assumption].
  Qed.

  (* [a] and [c] both lie before p, the position of the second config change of L above [a];
     [c] is the applied index of an event (_, k1, c) of a log L1 that agrees with L up to p:
     the configurations of L at [a] and at [c] are neighbours *)
  Lemma cfg_near_event L L1 a c p k1 :
    agree p L L1 -> a < p -> c < p <= k1 ->
    ccs (firstn (p - 1) L) a <= 1 -> ccs (firstn k1 L1) c <= 1 ->
    qnear (cfg_of (firstn a L)) (cfg_of (firstn c L)).
  Proof.
    intros Hag Ha Hc Hca Hcc. destruct (Nat.le_gt_cases c a) as [Hle|Hgt].
    - apply qnear_sym. apply (cfg_near L c a Hle).
      rewrite (ccs_agree L L1 a c) by (eapply agree_le; [exact Hag | lia]).
      pose proof (ccs_firstn_mono L1 a k1 c ltac:(lia)). lia.
    - apply (cfg_near L a c); [lia|].
      pose proof (ccs_firstn_mono L c (p - 1) a ltac:(lia)). lia.
  Qed.

End Ccs.
