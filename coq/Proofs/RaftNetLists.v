(* L2 support: list facts (prefix agreement, term_at, getConflictIndex/tryAppend
   characterisation) and quorum intersection. *)
From DB Require Import Model.RaftNet.
From DB Require Export Proofs.ListFacts.

(* agree k a b: a and b have the same first k entries *)

Definition agree (k : nat) (a b : list entry) : Prop := firstn k a = firstn k b.

Lemma agree_refl k a : agree k a a.
Proof. reflexivity. Qed.

Lemma agree_sym k a b : agree k a b -> agree k b a.
Proof. unfold agree; congruence. Qed.

Lemma agree_trans k a b c : agree k a b -> agree k b c -> agree k a c.
Proof. unfold agree; congruence. Qed.

Lemma agree_le k j a b : agree k a b -> j <= k -> agree j a b.
Proof.
  unfold agree; intros H Hj.
  replace j with (Nat.min j k) by lia.
  rewrite <- !firstn_firstn. now rewrite H.
Qed.

Lemma agree_0 a b : agree 0 a b.
Proof. reflexivity. Qed.

Lemma agree_app_l k a c : k <= length a -> agree k (a ++ c) a.
Proof.
  unfold agree; intros H. rewrite firstn_app.
  replace (k - length a) with 0 by lia. simpl. now rewrite app_nil_r.
Qed.

Lemma agree_app_r k a c : k <= length a -> agree k a (a ++ c).
Proof. intros; apply agree_sym, agree_app_l; assumption. Qed.

Lemma agree_len k a b : agree k a b -> k <= length a -> k <= length b.
Proof.
  unfold agree; intros H Hk. apply (f_equal (@length _)) in H.
  rewrite !firstn_length in H. lia.
Qed.

Lemma agree_firstn k m l : k <= m -> agree k (firstn m l) l.
Proof.
  unfold agree; intros. rewrite firstn_firstn. now replace (Nat.min k m) with k by lia.
Qed.

Lemma agree_all a b : agree (length a) a b -> length a = length b -> a = b.
Proof.
  unfold agree; intros H Hl. rewrite firstn_all in H. rewrite Hl, firstn_all in H. exact H.
Qed.

Lemma agree_prefix_eq k a b : agree k a b -> k = length a -> a = firstn k b.
Proof. unfold agree; intros H ->. now rewrite firstn_all in H. Qed.

Lemma agree_dec k (a b : list entry) : {agree k a b} + {~ agree k a b}.
Proof.
  unfold agree. apply list_eq_dec. intros [t1 p1] [t2 p2].
  destruct (Nat.eq_dec t1 t2), (Nat.eq_dec p1 p2); subst; (now left) || (right; congruence).
Qed.

Lemma agree_ext_r k a b c : agree k a b -> k <= length b -> agree k a (b ++ c).
Proof. intros H Hk. eapply agree_trans; [exact H|]. now apply agree_app_r. Qed.

Lemma agree_ext_l k a b c : agree k a b -> k <= length a -> agree k (a ++ c) b.
Proof. intros H Hk. eapply agree_trans; [|exact H]. now apply agree_app_l. Qed.

Lemma term_at_0 l : term_at l 0 = 0.
Proof. reflexivity. Qed.

Lemma term_at_out l k : length l < k -> term_at l k = 0.
Proof.
  destruct k; [reflexivity|]. intros H. simpl. now rewrite (proj2 (nth_error_None l k)) by lia.
Qed.

Lemma term_at_in_range l k : term_at l k <> 0 -> 1 <= k <= length l.
Proof.
  intros H. destruct (Nat.eq_dec k 0) as [->|]; [now rewrite term_at_0 in H|].
  destruct (Nat.le_gt_cases k (length l)); [lia|].
  now rewrite term_at_out in H.
Qed.

Lemma term_at_firstn l m k : k <= m -> term_at (firstn m l) k = term_at l k.
Proof.
  destruct k; [reflexivity|]. intros H. simpl.
  replace (nth_error (firstn m l) k) with (nth_error l k); [reflexivity|].
  revert l k H. induction m; intros l k H; [lia|].
  destruct l; [now destruct k|]. destruct k; [reflexivity|]. simpl. apply IHm. lia.
Qed.

Lemma agree_term_at k j a b : agree k a b -> j <= k -> term_at a j = term_at b j.
Proof.
  intros H Hj. rewrite <- (term_at_firstn a k j Hj), <- (term_at_firstn b k j Hj).
  unfold agree in H. now rewrite H.
Qed.

Lemma term_at_app_l a c k : k <= length a -> term_at (a ++ c) k = term_at a k.
Proof. intros H. apply (agree_term_at k k); [now apply agree_app_l | lia]. Qed.

Lemma term_at_app_r a e c : term_at (a ++ e :: c) (S (length a)) = eterm e.
Proof.
  simpl. rewrite nth_error_app2 by lia. now rewrite Nat.sub_diag.
Qed.

Lemma term_at_In l k : 1 <= k <= length l -> exists e, In e l /\ term_at l k = eterm e.
Proof.
  intros [H1 H2]. destruct k; [lia|]. simpl.
  destruct (nth_error l k) eqn:E.
  - exists e. split; [eapply nth_error_In; eauto | reflexivity].
  - apply nth_error_None in E. lia.
Qed.

Lemma In_term_at l e : In e l -> exists k, 1 <= k <= length l /\ term_at l k = eterm e.
Proof.
  intros H. apply In_nth_error in H. destruct H as [k Hk].
  exists (S k). split.
  - assert (k < length l) by (apply nth_error_Some; congruence). lia.
  - simpl. now rewrite Hk.
Qed.

Lemma last_term_snoc a e : last_term (a ++ [e]) = eterm e.
Proof.
  unfold last_term. rewrite app_length. simpl.
  replace (length a + 1) with (S (length a)) by lia. apply term_at_app_r.
Qed.

Lemma first_conflict_spec ents : forall pre l,
  (forall e, In e ents -> 1 <= eterm e) ->
  match first_conflict l (S (length pre)) ents with
  | None => forall j, length pre < j <= length pre + length ents ->
                      term_at l j = term_at (pre ++ ents) j
  | Some ci => length pre < ci <= length pre + length ents /\
               term_at l ci <> term_at (pre ++ ents) ci /\
               forall j, length pre < j < ci -> term_at l j = term_at (pre ++ ents) j
  end.
Proof.
  induction ents as [|e r IH]; intros pre l Hpos; cbn [first_conflict length].
  - intros j Hj. lia.
  - destruct (Nat.eqb_spec (term_at l (S (length pre))) (eterm e)) as [Heq|Hne].
    + specialize (IH (pre ++ [e]) l).
      rewrite app_length in IH. simpl in IH.
      replace (length pre + 1) with (S (length pre)) in IH by lia.
      rewrite <- app_assoc in IH. simpl in IH.
      assert (Hr : forall e0, In e0 r -> 1 <= eterm e0) by (intros; apply Hpos; now right).
      specialize (IH Hr).
      destruct (first_conflict l (S (S (length pre))) r) as [ci|].
      * destruct IH as (Hci & Hne & Hlt). split; [lia|]. split; [exact Hne|].
        intros j Hj. destruct (Nat.eq_dec j (S (length pre))) as [->|].
        -- rewrite Heq. symmetry. apply term_at_app_r.
        -- apply Hlt. lia.
      * intros j Hj. destruct (Nat.eq_dec j (S (length pre))) as [->|].
        -- rewrite Heq. symmetry. apply term_at_app_r.
        -- apply IH. lia.
    + split; [lia|]. split.
      * rewrite term_at_app_r. exact Hne.
      * intros j Hj. lia.
Qed.

(* log matching between two concrete lists *)
Definition lmatch (l A : list entry) : Prop :=
  forall j, 1 <= j -> j <= length l -> j <= length A ->
            term_at l j = term_at A j -> agree j l A.

Lemma term_at_app_in_r pre ents j :
  length pre < j <= length pre + length ents ->
  exists e, In e ents /\ term_at (pre ++ ents) j = eterm e.
Proof.
  intros H. destruct j; [lia|]. simpl.
  rewrite nth_error_app2 by lia.
  destruct (nth_error ents (j - length pre)) eqn:E.
  - exists e. split; [eapply nth_error_In; eauto | reflexivity].
  - apply nth_error_None in E. lia.
Qed.

(* a log that matches the sender's view [firstn prev l ++ ents] term by term up to m
   agrees with it up to m *)
Lemma lmatch_upto l prev ents m :
  prev <= length l -> (forall e, In e ents -> 1 <= eterm e) ->
  lmatch l (firstn prev l ++ ents) -> prev <= m <= prev + length ents ->
  (forall j, prev < j <= m -> term_at l j = term_at (firstn prev l ++ ents) j) ->
  agree m l (firstn prev l ++ ents).
Proof.
  intros Hprev Hpos LM Hm Heq.
  assert (Hlp : length (firstn prev l) = prev) by (rewrite firstn_length; lia).
  destruct (Nat.eq_dec m prev) as [->|E].
  - apply agree_sym. eapply agree_trans; [apply agree_app_l; lia|]. apply agree_firstn. lia.
  - pose proof (Heq m ltac:(lia)) as Ht.
    destruct (term_at_app_in_r (firstn prev l) ents m) as (e & He & Hte); [lia|].
    pose proof (Hpos _ He) as Hge.
    assert (Hr : 1 <= m <= length l) by (apply term_at_in_range; lia).
    apply LM; try lia. rewrite app_length. lia.
Qed.

Lemma first_conflict_some l prev ents ci :
  prev <= length l ->
  (forall e, In e ents -> 1 <= eterm e) ->
  lmatch l (firstn prev l ++ ents) ->
  first_conflict l (S prev) ents = Some ci ->
  prev < ci <= prev + length ents /\ agree (ci - 1) l (firstn prev l ++ ents) /\
  term_at l ci <> term_at (firstn prev l ++ ents) ci /\
  firstn (ci - 1) l ++ skipn (ci - prev - 1) ents = firstn prev l ++ ents.
Proof.
  intros Hprev Hpos LM Hfc.
  assert (Hlp : length (firstn prev l) = prev) by (rewrite firstn_length; lia).
  pose proof (first_conflict_spec ents (firstn prev l) l Hpos) as S.
  rewrite Hlp, Hfc in S. destruct S as (Hci & Hne & Hlt).
  assert (Hag : agree (ci - 1) l (firstn prev l ++ ents)).
  { apply lmatch_upto; auto; [lia|]. intros j Hj. apply Hlt. lia. }
  repeat split; try lia; try assumption.
  unfold agree in Hag. rewrite Hag.
  replace (ci - prev - 1) with (ci - 1 - length (firstn prev l)) by lia.
  rewrite <- (skipn_app_ge (ci - 1) (firstn prev l) ents) by lia.
  apply firstn_skipn.
Qed.

Lemma first_conflict_none l prev ents :
  prev <= length l ->
  (forall e, In e ents -> 1 <= eterm e) ->
  lmatch l (firstn prev l ++ ents) ->
  first_conflict l (S prev) ents = None ->
  agree (prev + length ents) l (firstn prev l ++ ents).
Proof.
  intros Hprev Hpos LM Hfc.
  assert (Hlp : length (firstn prev l) = prev) by (rewrite firstn_length; lia).
  pose proof (first_conflict_spec ents (firstn prev l) l Hpos) as S.
  rewrite Hlp, Hfc in S. apply lmatch_upto; auto. lia.
Qed.

(* tryAppend: either nothing changes (everything was there) or the log becomes
   exactly the sender's view [firstn prev l ++ ents], cut at a conflict above cmt *)
Lemma try_append_spec l cmt prev ents l' :
  prev <= length l ->
  (forall e, In e ents -> 1 <= eterm e) ->
  lmatch l (firstn prev l ++ ents) ->
  try_append l cmt prev ents = Some l' ->
  (l' = l /\ agree (prev + length ents) l (firstn prev l ++ ents)) \/
  (exists ci, prev < ci <= prev + length ents /\ cmt < ci /\
              l' = firstn prev l ++ ents /\
              agree (ci - 1) l (firstn prev l ++ ents) /\
              term_at l ci <> term_at (firstn prev l ++ ents) ci).
Proof.
  intros Hprev Hpos LM Hta. unfold try_append in Hta.
  destruct (first_conflict l (S prev) ents) as [ci|] eqn:Hfc.
  - destruct (Nat.ltb_spec cmt ci) as [Hc|Hc]; [|discriminate].
    injection Hta as <-.
    destruct (first_conflict_some l prev ents ci Hprev Hpos LM Hfc) as (H1 & H2 & H3 & H4).
    right. exists ci. repeat split; try lia; assumption.
  - injection Hta as <-. left. split; [reflexivity|].
    now apply first_conflict_none.
Qed.

Lemma common_or_disjoint (l1 l2 : list nat) :
  (exists x, In x l1 /\ In x l2) \/ (forall x, In x l1 -> ~ In x l2).
Proof.
  induction l1 as [|a l1 IH].
  - right. intros x [].
  - destruct (in_dec Nat.eq_dec a l2) as [Hin|Hnin].
    + left. exists a. split; [now left | assumption].
    + destruct IH as [(x & H1 & H2)|Hd].
      * left. exists x. split; [now right | assumption].
      * right. intros x [<-|Hx]; [assumption | now apply Hd].
Qed.

(* two quorums of V share a member *)
Theorem quorum_intersect (V Q1 Q2 : list id) :
  incl Q1 V -> incl Q2 V -> NoDup Q1 -> NoDup Q2 ->
  quorum V <= length Q1 -> quorum V <= length Q2 ->
  exists x, In x Q1 /\ In x Q2.
Proof.
  intros I1 I2 N1 N2 L1 L2.
  destruct (common_or_disjoint Q1 Q2) as [H|Hd]; [exact H|].
  exfalso.
  assert (HN : NoDup (Q1 ++ Q2)) by (now apply NoDup_app_disjoint).
  assert (HI : incl (Q1 ++ Q2) V) by (now apply incl_app).
  pose proof (NoDup_incl_length HN HI) as Hlen.
  rewrite app_length in Hlen. unfold quorum in *.
  pose proof (Nat.div_mod (length V) 2 ltac:(lia)) as Hdm.
  pose proof (Nat.mod_upper_bound (length V) 2 ltac:(lia)). lia.
Qed.

Definition is_quorum (V Q : list id) : Prop :=
  incl Q V /\ NoDup Q /\ quorum V <= length Q.

Lemma filter_quorum (V : list id) (f : id -> bool) :
  NoDup V -> quorum V <= length (filter f V) ->
  exists Q, is_quorum V Q /\ forall w, In w Q -> f w = true.
Proof.
  intros HN HL. exists (filter f V). split; [split; [|split]|].
  - intros x Hx. apply filter_In in Hx. tauto.
  - now apply NoDup_filter.
  - exact HL.
  - intros w Hw. apply filter_In in Hw. tauto.
Qed.
