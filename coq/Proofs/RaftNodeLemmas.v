(* Lemmas about the replica = live raft + durable image (Model/RaftNode.v):
   what node_update persists and what newRaft reloads on a restart. *)
From DB Require Import Model.RaftCore Model.RaftNode Proofs.RaftStep.
Open Scope N_scope.

Definition dstate_or_zero (nd : node) : N * N * N :=
  match nd_dstate nd with Some st => st | None => (0, 0, 0) end.

(* Peer.prevState always equals what is durable: the engine persists exactly the
   states GetUpdate reports *)
Definition prev_is_durable (nd : node) : Prop := r_prev_state (nd_raft nd) = dstate_or_zero nd.

Definition state_eqb (a b : N * N * N) : bool :=
  let '(t, v, c) := a in let '(pt, pv, pc) := b in (t =? pt) && (v =? pv) && (c =? pc).
Lemma state_eqb_eq a b : state_eqb a b = true -> a = b.
Proof.
  destruct a as [[t v] c], b as [[pt pv] pc]. cbn. intros H.
  apply andb_prop in H. destruct H as [H Hc]. apply andb_prop in H. destruct H as [Ht Hv].
  apply N.eqb_eq in Ht, Hv, Hc. congruence.
Qed.

(* getUpdate reports the hard state exactly when it differs from Peer.prevState *)
Lemma get_update_state r more :
  u_state (get_update r more) = if state_eqb (raft_state r) (r_prev_state r) then None else Some (raft_state r).
Proof.
  unfold get_update, state_eqb. destruct (raft_state r) as [[t v] c]. destruct (r_prev_state r) as [[pt pv] pc].
  cbn. destruct ((t =? pt) && (v =? pv) && (c =? pc)); reflexivity.
Qed.

Lemma node_update_dstate nd more la :
  nd_dstate (fst (node_update nd more la)) =
  match u_state (get_update (nd_raft nd) more) with Some st => Some st | None => nd_dstate nd end.
Proof. unfold node_update. cbv zeta. cbn [fst]. destruct (u_snapshot _); destruct (u_state _); reflexivity. Qed.

(* after the persistence step of an update the durable hard state IS the hard state
   the replica had when the update (and the messages in it) was taken *)
Lemma update_persists_hard_state_proved nd more la :
  prev_is_durable nd ->
  dstate_or_zero (fst (node_update nd more la)) = raft_state (nd_raft nd).
Proof.
  intros Hinv. unfold dstate_or_zero at 1. rewrite node_update_dstate, get_update_state.
  destruct (state_eqb _ _) eqn:Ec; [|reflexivity].
  apply state_eqb_eq in Ec. rewrite Ec. exact (eq_sym Hinv).
Qed.

Lemma commit_update_prev r u la :
  r_prev_state (commit_update r u la) = match u_state u with Some st => st | None => r_prev_state r end.
Proof.
  assert (Hp : forall (b : bool) x, r_prev_state (if b then panic x else x) = r_prev_state x)
    by (intros [] x; reflexivity).
  unfold commit_update. cbv zeta. rewrite Hp. destruct (u_ready u); destruct (u_state u); reflexivity.
Qed.

Lemma node_update_raft nd more la :
  nd_raft (fst (node_update nd more la)) =
  (if u_invalid (get_update (nd_raft nd) more) then panic (nd_raft nd)
   else commit_update (nd_raft nd) (get_update (nd_raft nd) more) la).
Proof.
  unfold node_update. cbv zeta. cbn [fst].
  destruct (u_snapshot _); destruct (u_state _); reflexivity.
Qed.

Lemma update_keeps_prev_durable_proved nd more la :
  prev_is_durable nd -> u_invalid (snd (node_update nd more la)) = false ->
  prev_is_durable (fst (node_update nd more la)).
Proof.
  intros Hinv Hval. unfold prev_is_durable.
  rewrite (update_persists_hard_state_proved nd more la Hinv), node_update_raft.
  change (snd (node_update nd more la)) with (get_update (nd_raft nd) more) in Hval. rewrite Hval.
  rewrite commit_update_prev, get_update_state.
  destruct (state_eqb _ _) eqn:Ec; [|reflexivity]. apply state_eqb_eq in Ec. exact (eq_sym Ec).
Qed.

(* restart: newRaft installs the persisted term and vote, and the becomeX that follows keeps
   them since it stays in that term *)
Lemma new_raft_tv id kind et ht cq pv l a n w t v c o :
  (c <? l_committed l) || (log_last l <? c) = false ->
  tv (new_raft id kind et ht cq pv l a n w (Some (t, v, c)) o) = (t, v).
Proof.
  intros Hrange. unfold new_raft. cbv zeta. rewrite Hrange, prev_state_upd_tvr.
  set (r1 := _ <| r_term := t |> <| r_vote := v |> <| r_log := _ |>).
  assert (E1 : tv r1 = (t, v)) by reflexivity. rewrite <- E1. clearbody r1.
  destruct kind. 1-4: apply become_follower_same_tv.
  - unfold become_nonvoting. cbn [is_nonvoting r_role set role_eqb negb]. apply reset_leader_same_tv.
  - unfold become_witness. cbn [is_witness r_role set role_eqb negb]. apply reset_leader_same_tv.
Qed.
