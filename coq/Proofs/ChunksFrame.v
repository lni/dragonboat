(* C15: every Add is a sequence of updates under the chunk's own snapshot key, so streams of
   different snapshots do not interfere; stalled streams are collected. *)
From Coq Require Import List NArith Bool Lia.
From DB Require Import Base.Bytes Model.Chunks Proofs.Chunks.
Import ListNotations.
Open Scope N_scope.

Definition tkey_key (tk : tkey) : key := let '(a, b, c, _) := tk in (a, b, c).
Lemma tkey_key_of : forall m, tkey_key (tkey_of m) = key_of m.
Proof. reflexivity. Qed.

Section Frame.
  Variable D : Type.
  Variable dapp : D -> D -> D.
  Variable V : Type.
  Variable vinit : V.
  Variable vadd : V -> D -> N -> vres V.
  Variable vfinal : V -> bool.
  Variables fix_mid fix_first : bool.
  Variables my_did gc_tick timeout max_slots : N.
  Notation state := (state D V).
  Notation chunk := (chunk D).
  Notation addM := (add D dapp V vinit vadd vfinal fix_mid fix_first my_did max_slots).
  Notation stepM := (step D dapp V vinit vadd vfinal fix_mid fix_first my_did gc_tick timeout max_slots).
  Notation runM := (run D dapp V vinit vadd vfinal fix_mid fix_first my_did gc_tick timeout max_slots).

  Definition same_at (k' : key) (st st' : state) : Prop :=
    alookup key_eqb k' (s_tracked st') = alookup key_eqb k' (s_tracked st) /\
    (forall tk, tkey_key tk = k' -> alookup tkey_eqb tk (s_temps st') = alookup tkey_eqb tk (s_temps st)) /\
    alookup key_eqb k' (s_finals st') = alookup key_eqb k' (s_finals st).

  Lemma same_at_refl : forall k st, same_at k st st.
  Proof. intros. repeat split; auto. Qed.
  Lemma same_at_trans : forall k s1 s2 s3, same_at k s1 s2 -> same_at k s2 s3 -> same_at k s1 s3.
  Proof.
    intros k s1 s2 s3 [A1 [A2 A3]] [B1 [B2 B3]]. repeat split; try congruence.
    intros tk H. rewrite B2, A2; auto.
  Qed.

  Definition tracked_wf (st : state) : Prop :=
    forall k td, trk st k = Some td -> key_of (t_first td) = k.

  Lemma wf_untrack : forall k (st : state), tracked_wf st -> tracked_wf (untrack k st).
  Proof.
    intros k st H k' td L. simpl in L. destruct (key_eqb_spec k' k) as [->|E].
    - rewrite alookup_adel_same in L. discriminate.
    - rewrite alookup_adel_other in L by (exact key_eqb_eq || auto). auto.
  Qed.
  Lemma wf_track : forall k td (st : state), tracked_wf st -> key_of (t_first td) = k -> tracked_wf (track k td st).
  Proof.
    intros k td st H Hk k' td' L. simpl in L. destruct (key_eqb_spec k' k) as [->|E].
    - rewrite alookup_aset_same in L by exact key_eqb_eq. congruence.
    - rewrite alookup_aset_other in L by (exact key_eqb_eq || auto). auto.
  Qed.

  (* [st'] comes from [st] by the updates Add makes for a chunk of snapshot [k]: tracking or
     untracking [k], creating, writing or removing a temp dir of [k], finalising [k] *)
  Inductive touch (k : key) (st : state) : state -> Prop :=
  | touch_refl : touch k st st
  | touch_track : forall s td, touch k st s -> key_of (t_first td) = k -> touch k st (track k td s)
  | touch_untrack : forall s, touch k st s -> touch k st (untrack k s)
  | touch_rmtemp : forall s tk, touch k st s -> tkey_key tk = k -> touch k st (remove_temp tk s)
  | touch_temps : forall s tk x, touch k st s -> tkey_key tk = k ->
                                 touch k st (set_temps s (aset tkey_eqb tk x (s_temps s)))
  | touch_final : forall s fd n, touch k st s ->
      touch k st (mkState (s_tick s) (s_tracked s) (s_temps s) (aset key_eqb k fd (s_finals s))
                          (s_removed s) (n :: s_out s)).

  Lemma touch_same_at : forall k k' (st st' : state), k' <> k -> touch k st st' -> same_at k' st st'.
  Proof.
    intros k k' st st' Hk T.
    induction T as [|s td T IH E|s T IH|s tk T IH E|s tk x T IH E|s fd n T IH];
      [apply same_at_refl|apply (same_at_trans _ _ _ _ IH); repeat split; auto; simpl ..].
    - apply alookup_aset_other; [exact key_eqb_eq|exact Hk].
    - apply alookup_adel_other; [exact key_eqb_eq|exact Hk].
    - intros tk' E'. apply alookup_adel_other; [exact tkey_eqb_eq|congruence].
    - intros tk' E'. apply alookup_aset_other; [exact tkey_eqb_eq|congruence].
    - apply alookup_aset_other; [exact key_eqb_eq|exact Hk].
  Qed.

  Lemma touch_wf : forall k (st st' : state), tracked_wf st -> touch k st st' -> tracked_wf st'.
  Proof.
    intros k st st' WF T. induction T; auto using wf_track, wf_untrack.
  Qed.

  Lemma touch_fields : forall k (st st' : state), touch k st st' ->
      s_removed st' = s_removed st /\ s_tick st' = s_tick st.
  Proof. intros k st st' T. induction T; auto. Qed.

  Lemma touch_nodup : forall k (st st' : state),
      NoDup (map fst (s_tracked st)) -> touch k st st' -> NoDup (map fst (s_tracked st')).
  Proof.
    intros k st st' ND T. induction T; simpl; auto.
    - apply NoDup_aset; [exact key_eqb_eq|assumption].
    - apply NoDup_adel. assumption.
  Qed.

  (* dropping a tracked stream (gc, Close) *)
  Lemma touch_drop : forall k td (st s : state),
      tracked_wf s -> trk s k = Some td -> touch k st s ->
      touch k st (untrack k (remove_temp (tkey_of (t_first td)) s)).
  Proof.
    intros k td st s WF L T. apply touch_untrack, touch_rmtemp; [exact T|].
    rewrite tkey_key_of. exact (WF _ _ L).
  Qed.

  Lemma touch_save : forall k (st s : state) m x,
      touch k st s -> key_of m = k ->
      touch k st (set_temps s (aset tkey_eqb (tkey_of m) x (open_temps D V s m))).
  Proof.
    intros k st s m x T E. unfold open_temps.
    destruct (c_id m =? 0); [destruct (tmp s (tkey_of m))|]; try (apply touch_temps; assumption).
    set (s' := set_temps s (aset tkey_eqb (tkey_of m) [] (s_temps s))).
    change (touch k st (set_temps s' (aset tkey_eqb (tkey_of m) x (s_temps s')))).
    apply touch_temps; [apply touch_temps|]; assumption.
  Qed.

  Lemma add_touch : forall (st : state) (c : chunk) st' b,
      tracked_wf st -> addM st c = Done st' b -> touch (key_of (fst c)) st st'.
  Proof.
    intros st [m d] st' b WF H. rewrite add_cont in H. simpl fst in *.
    destruct (_ || _); [injection H as <- <-; apply touch_refl|].
    assert (Dis : touch (key_of m) st (discard D V (key_of m) st)).
    { unfold discard. destruct (trk st (key_of m)) as [td|] eqn:L; [|apply touch_refl].
      apply touch_rmtemp; [apply touch_refl|]. rewrite tkey_key_of. exact (WF _ _ L). }
    destruct (record D V vinit vadd fix_first max_slots st (m, d)) as [s1|s1 td|] eqn:R; try discriminate.
    - injection H as <- <-. apply record_ignore in R as [->|[_ ->]]; [apply touch_refl|exact Dis].
    - assert (T1 : touch (key_of m) st s1 /\ key_of (t_first td) = key_of m).
      { apply record_tracked in R as [[_ [[v0 [_ ->]] ->]]|[_ [td0 [L [_ [_ [-> ->]]]]]]].
        - split; [apply touch_track; [exact Dis|]|]; reflexivity.
        - pose proof (WF _ _ L). split; [apply touch_track; [apply touch_refl|]|]; assumption. }
      destruct T1 as [T1 K1].
      apply cont_done in H as [(_ & _ & ->)|(_ & [(v' & _ & _ & ->)|(v1 & f0 & f1 & _ & _ & _ & H)])].
      + apply touch_rmtemp; auto.
      + destruct fix_mid; [apply touch_untrack, touch_rmtemp|apply touch_track]; auto.
      + set (s3 := set_temps _ _) in H. cbv zeta in H.
        assert (T3 : touch (key_of m) st s3)
          by (apply (touch_save _ _ (track (key_of m) (set_v td v1) s1)); [apply touch_track|]; auto).
        destruct (is_last m); [|destruct H as [-> _]; exact T3].
        apply finish_done in H as [[_ ->]|[_ [_ [_ [files2 [_ ->]]]]]].
        * apply touch_rmtemp; auto. apply touch_untrack; exact T3.
        * apply (touch_final _ _ (remove_temp (tkey_of m) (untrack (key_of m) s3))).
          apply touch_rmtemp; auto. apply touch_untrack; exact T3.
  Qed.

  (* what holds of the tracked table in every reachable state *)
  Definition table_ok (st : state) : Prop := tracked_wf st /\ NoDup (map fst (s_tracked st)).

  Lemma touch_ok : forall k (st st' : state), table_ok st -> touch k st st' -> table_ok st'.
  Proof.
    intros k st st' [WF ND] T. split; [exact (touch_wf _ _ _ WF T)|exact (touch_nodup _ _ _ ND T)].
  Qed.

  Lemma gc_list_ok : forall t l (st : state), table_ok st -> table_ok (gc_list D V t l st).
  Proof.
    induction l as [|[k td] l IH]; intros st OK; simpl; auto.
    apply IH. destruct (t <=? s_tick st - t_tick td); auto. destruct OK as [WF ND].
    split; [apply wf_untrack; exact WF|simpl; apply NoDup_adel; exact ND].
  Qed.

  Lemma step_ok : forall (st : state) o st' b, table_ok st -> stepM st o = Done st' b -> table_ok st'.
  Proof.
    intros st o st' b OK H. destruct o as [c| |s r|]; simpl in H.
    - exact (touch_ok _ _ _ OK (add_touch _ _ _ _ (proj1 OK) H)).
    - injection H as <- <-. unfold tick. destruct (_ =? 0); [apply gc_list_ok|]; exact OK.
    - injection H as <- <-. exact OK.
    - injection H as <- <-. unfold close. rewrite close_list_gc. apply gc_list_ok. exact OK.
  Qed.

  Lemma run_ok : forall ops (st st' : state), table_ok st -> runM st ops = Some st' -> table_ok st'.
  Proof.
    induction ops as [|o ops IH]; intros st st' OK H; simpl in H.
    - injection H as <-; auto.
    - destruct (stepM st o) as [s1 b|] eqn:Hs; [|discriminate].
      eapply IH; [|exact H]. eapply step_ok; eauto.
  Qed.

  Lemma init_ok : table_ok (@init D V).
  Proof. split; [intros k td L; discriminate|constructor]. Qed.

  Lemma other_snapshots_untouched :
    forall ops (st st' : state) (c : chunk) b k',
      runM init ops = Some st ->
      addM st c = Done st' b ->
      k' <> key_of (fst c) ->
      same_at k' st st'.
  Proof.
    intros ops st st' c b k' Hr Ha Hk.
    pose proof (proj1 (run_ok _ _ _ init_ok Hr)) as WF.
    exact (touch_same_at _ _ _ _ Hk (add_touch _ _ _ _ WF Ha)).
  Qed.

  Lemma gc_list_none : forall l (st : state) k tk,
      trk st k = None -> tmp st tk = None ->
      trk (gc_list D V timeout l st) k = None /\ tmp (gc_list D V timeout l st) tk = None.
  Proof.
    induction l as [|[k1 td1] l IH]; intros st k tk H1 H2; simpl; auto.
    apply IH; destruct (timeout <=? s_tick st - t_tick td1); simpl; auto;
      apply alookup_adel_none; assumption.
  Qed.

  Lemma gc_list_collects : forall l (st : state) k td,
      In (k, td) l -> timeout <= s_tick st - t_tick td ->
      trk (gc_list D V timeout l st) k = None /\
      tmp (gc_list D V timeout l st) (tkey_of (t_first td)) = None.
  Proof.
    induction l as [|[k1 td1] l IH]; intros st k td Hin Hto; [destruct Hin|].
    simpl. destruct Hin as [Heq|Hin].
    - injection Heq as -> ->. apply N.leb_le in Hto. rewrite Hto.
      apply gc_list_none; simpl; apply alookup_adel_same.
    - apply IH; [exact Hin|].
      destruct (timeout <=? s_tick st - t_tick td1); simpl; exact Hto.
  Qed.

  Lemma stalled_collected :
    forall (st : state) k td,
      alookup key_eqb k (s_tracked st) = Some td ->
      (s_tick st + 1) mod gc_tick = 0 ->
      timeout <= s_tick st + 1 - t_tick td ->
      let st' := tick D V gc_tick timeout st in
      alookup key_eqb k (s_tracked st') = None /\
      alookup tkey_eqb (tkey_of (t_first td)) (s_temps st') = None.
  Proof.
    intros st k td L Hg Ht. unfold tick. apply N.eqb_eq in Hg. rewrite Hg.
    unfold gc. apply gc_list_collects; simpl; [|exact Ht].
    eapply alookup_In; [exact key_eqb_eq|exact L].
  Qed.

  Lemma gc_list_keeps : forall l (st : state) k td,
      alookup key_eqb k (s_tracked st) = Some td ->
      (forall td1, In (k, td1) l -> s_tick st - t_tick td1 < timeout) ->
      alookup key_eqb k (s_tracked (gc_list D V timeout l st)) = Some td.
  Proof.
    induction l as [|[k1 td1] l IH]; intros st k td L Hy; simpl; auto.
    apply IH.
    - destruct (timeout <=? s_tick st - t_tick td1) eqn:E; auto. simpl.
      destruct (key_eqb_spec k k1) as [<-|Ek].
      + apply N.leb_le in E. specialize (Hy td1 (or_introl eq_refl)). lia.
      + rewrite alookup_adel_other by (exact key_eqb_eq || auto). exact L.
    - intros td2 Hin.
      replace (s_tick _) with (s_tick st) by (destruct (timeout <=? s_tick st - t_tick td1); reflexivity).
      apply Hy. right. exact Hin.
  Qed.
  Lemma gc_list_same_at : forall t l (st : state) k,
      (forall k1 td1, In (k1, td1) l -> trk st k1 = Some td1) -> NoDup (map fst l) ->
      tracked_wf st ->
      (forall td1, In (k, td1) l -> s_tick st - t_tick td1 < t) ->
      same_at k st (gc_list D V t l st).
  Proof.
    induction l as [|[k1 td1] l IH]; intros st k Hin ND WF Hage; simpl.
    - apply same_at_refl.
    - inversion ND as [|? ? Hnot ND']; subst.
      assert (Hin' : forall k2 td2, In (k2, td2) l -> trk st k2 = Some td2)
        by (intros; apply Hin; right; assumption).
      assert (Hage' : forall td2, In (k, td2) l -> s_tick st - t_tick td2 < t)
        by (intros; apply Hage; right; assumption).
      destruct (t <=? s_tick st - t_tick td1) eqn:E; [|apply IH; auto].
      assert (Hn : k <> k1).
      { intro X. subst k1. apply N.leb_le in E. specialize (Hage td1 (or_introl eq_refl)). lia. }
      pose proof (touch_drop k1 td1 st st WF (Hin _ _ (or_introl eq_refl)) (touch_refl _ _)) as T.
      refine (same_at_trans _ _ _ _ (touch_same_at _ _ _ _ Hn T) _). apply IH; auto.
      + intros k2 td2 H2. simpl. rewrite alookup_adel_other; [auto|exact key_eqb_eq|].
        intro X. subst k2. apply Hnot. apply (in_map fst _ _ H2).
      + exact (touch_wf _ _ _ WF T).
  Qed.

  Lemma mid_transfer : forall (st st' : state) m0 v fi files n tk0,
      same_at (key_of m0) st st' -> s_removed st' = s_removed st ->
      mid D V st m0 v fi files n tk0 -> mid D V st' m0 v fi files n tk0.
  Proof.
    intros st st' m0 v fi files n tk0 [S1 [S2 S3]] SR [A [B [C E]]].
    split; [rewrite S1; exact A|]. split; [rewrite S2; [exact B|apply tkey_key_of]|].
    split; [rewrite S3; exact C|]. unfold is_removed in *. rewrite SR. exact E.
  Qed.
End Frame.
