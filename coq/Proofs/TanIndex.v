(* C09 — the tan entry index (Model/TanIndex.v): index.update keeps the slice sorted and disjoint,
   the latest writer wins, and index.query returns a contiguous chain. *)
From Coq Require Import List NArith Bool Lia.
From DB Require Import Base.Bytes Gen.GenC09 Model.TanIndex.
Import ListNotations.
Open Scope N_scope.

Definition wf_ie (e : ientry) : Prop := ie_start e <= ie_end e.

(* the slice read backwards: every entry is a non-empty range strictly above all earlier ones *)
Fixpoint rsorted (r : list ientry) : Prop :=
  match r with
  | [] => True
  | a :: t => wf_ie a /\ Forall (fun b => ie_end b < ie_start a) t /\ rsorted t
  end.
Definition sorted_idx (es : list ientry) : Prop := rsorted (rev es).

(* ie (an entry of the index) still addresses the record e was created for *)
Definition same_record (ie e : ientry) : Prop :=
  ie_file ie = ie_file e /\ ie_pos ie <= ie_pos e /\ ie_pos e + ie_len e <= ie_pos ie + ie_len ie /\
  ie_start ie <= ie_start e /\ ie_end ie = ie_end e.

Definition loc_eq (a b : ientry) : Prop :=
  ie_file a = ie_file b /\ ie_pos a = ie_pos b /\ ie_start a = ie_start b.

Lemma ie_merge_some : forall e n m, ie_merge e n = Some m ->
  ie_end e + 1 = ie_start n /\ ie_file e = ie_file n /\ ie_pos e + ie_len e = ie_pos n /\
  m = mkIE (ie_start e) (ie_end n) (ie_file e) (ie_pos e) (ie_len e + ie_len n).
Proof.
  intros e n m H. unfold ie_merge in H.
  destruct ((ie_end e + 1 =? ie_start n) && (ie_pos e + ie_len e =? ie_pos n) &&
            (ie_file e =? ie_file n) && (index_block e =? index_block n)) eqn:E; [|discriminate].
  rewrite !andb_true_iff, !N.eqb_eq in E. destruct E as (((A & B) & C) & D). inversion H. auto.
Qed.

Lemma ie_update_cases : forall e n,
  (exists m, ie_update e n = (m, None, false) /\ ie_end e + 1 = ie_start n /\
             m = mkIE (ie_start e) (ie_end n) (ie_file e) (ie_pos e) (ie_len e + ie_len n) /\
             ie_file e = ie_file n /\ ie_pos e + ie_len e = ie_pos n) \/
  (ie_update e n = (n, None, false) /\ ie_start n = ie_start e) \/
  (ie_update e n = (n, None, true) /\ ie_start n < ie_start e) \/
  (ie_update e n = (mkIE (ie_start e) (ie_start n - 1) (ie_file e) (ie_pos e) (ie_len e), Some n, false) /\
     ie_start e < ie_start n <= ie_end e) \/
  (ie_update e n = (e, Some n, false) /\ ie_end e < ie_start n).
Proof.
  intros e n. unfold ie_update. destruct (ie_merge e n) as [m|] eqn:M.
  - left. apply ie_merge_some in M. destruct M as (A & B & C & ->). eexists. repeat split; auto.
  - right. destruct (ie_start n =? ie_start e) eqn:E1; [left; split; auto; now apply N.eqb_eq|].
    apply N.eqb_neq in E1. right.
    destruct (ie_start n <? ie_start e) eqn:E2; [left; split; auto; now apply N.ltb_lt|].
    apply N.ltb_ge in E2. right.
    destruct ((ie_start e <? ie_start n) && (ie_start n <=? ie_end e)) eqn:E3.
    + left. split; auto. apply andb_true_iff in E3. destruct E3 as [A B].
      apply N.ltb_lt in A. apply N.leb_le in B. lia.
    + right. split; auto. apply andb_false_iff in E3. destruct E3 as [A|A];
        [apply N.ltb_ge in A | apply N.leb_gt in A]; lia.
Qed.

Lemma same_record_refl : forall e, same_record e e.
Proof. intros e. unfold same_record. repeat split; lia. Qed.

Lemma update_rev_sorted : forall r e, rsorted r -> wf_ie e ->
  rsorted (update_rev r e) /\
  (exists h t, update_rev r e = h :: t /\ same_record h e).
Proof.
  induction r as [|last rest IH]; intros e HS We.
  - cbn. split; [repeat split; auto|]. exists e, []. split; [reflexivity|apply same_record_refl].
  - destruct HS as (Wl & Hall & HSr). cbn [update_rev].
    destruct (ie_update_cases last e) as [(m & -> & A & -> & B & C)|[(-> & A)|[(-> & A)|[(-> & A)|(-> & A)]]]].
    + (* merged with the last entry *)
      split.
      * cbn [rsorted]. split; [unfold wf_ie in *; cbn; lia|]. split; auto.
      * eexists. eexists. split; [reflexivity|]. unfold same_record; cbn. unfold wf_ie in *. repeat split; auto; lia.
    + (* same start: overwrite *)
      split.
      * cbn [rsorted]. split; auto. split; auto. rewrite A. exact Hall.
      * exists e, rest. split; [reflexivity|apply same_record_refl].
    + (* starts before the last entry: cut it and go on *)
      destruct rest as [|r0 rest'].
      * split; [cbn; repeat split; auto|]. exists e, []. split; [reflexivity|apply same_record_refl].
      * apply IH; auto.
    + (* partial overwrite of the tail of the last entry *)
      split.
      * cbn [rsorted]. split; auto. split.
        -- constructor; [cbn; lia|]. eapply Forall_impl; [|exact Hall]. cbn. intros b Hb. lia.
        -- split; [unfold wf_ie; cbn; lia|]. split; auto.
      * eexists e, _. split; [reflexivity|apply same_record_refl].
    + (* strictly after the last entry *)
      split.
      * cbn [rsorted]. split; auto. split.
        -- constructor; [lia|]. eapply Forall_impl; [|exact Hall]. cbn. intros b Hb. unfold wf_ie in *. lia.
        -- split; auto.
      * exists e, (last :: rest). split; [reflexivity|apply same_record_refl].
Qed.

Theorem tan_index_sorted_disjoint_proved : forall es e, sorted_idx es -> wf_ie e ->
  sorted_idx (index_update es e).
Proof.
  intros es e HS We. unfold sorted_idx, index_update in *. rewrite rev_involutive.
  now apply update_rev_sorted.
Qed.

Lemma rsorted_in_wf : forall r a, rsorted r -> In a r -> wf_ie a.
Proof.
  induction r as [|b r IH]; intros a HS HI; [contradiction|].
  destruct HS as (Wb & _ & HSr). destruct HI as [<-|HI]; auto.
Qed.

(* l' and l index position x alike: every entry of one that covers x has a counterpart in the
   other that covers x and addresses the same record *)
Definition covers (x : N) (a : ientry) : Prop := ie_start a <= x <= ie_end a.
Definition alike (x : N) (l' l : list ientry) : Prop :=
  (forall a', In a' l' -> covers x a' -> exists a, In a l /\ covers x a /\ loc_eq a' a) /\
  (forall a, In a l -> covers x a -> exists a', In a' l' /\ covers x a' /\ loc_eq a' a).

Lemma alike_refl : forall x l, alike x l l.
Proof. intros x l. split; intros a HI Hc; exists a; unfold loc_eq; auto. Qed.

Lemma alike_skip_new : forall x l' l a', ~ covers x a' -> alike x l' l -> alike x (a' :: l') l.
Proof.
  intros x l' l a' N [I1 I2]. split.
  - intros b [<-|HI] Hc; [contradiction|auto].
  - intros b HI Hc. destruct (I2 b HI Hc) as (b' & H1 & H2). exists b'. split; [now right|exact H2].
Qed.

Lemma alike_skip_old : forall x l' l a, ~ covers x a -> alike x l' l -> alike x l' (a :: l).
Proof.
  intros x l' l a N [I1 I2]. split.
  - intros b' HI Hc. destruct (I1 b' HI Hc) as (b & H1 & H2). exists b. split; [now right|exact H2].
  - intros b [<-|HI] Hc; [contradiction|auto].
Qed.

Lemma alike_cons : forall x l a' a, (covers x a' <-> covers x a) -> loc_eq a' a -> alike x (a' :: l) (a :: l).
Proof.
  intros x l a' a C L. split.
  - intros b [<-|HI] Hc; [exists a; split; [now left|split; [now apply C|exact L]]|].
    exists b. split; [now right|]. unfold loc_eq; auto.
  - intros b [<-|HI] Hc; [exists a'; split; [now left|split; [now apply C|exact L]]|].
    exists b. split; [now right|]. unfold loc_eq; auto.
Qed.

Lemma update_rev_below : forall r e x, rsorted r -> wf_ie e -> x < ie_start e ->
  alike x (update_rev r e) r.
Proof.
  induction r as [|last rest IH]; intros e x HS We Hx.
  - apply alike_skip_new; [unfold covers; lia|apply alike_refl].
  - destruct HS as (Wl & Hall & HSr). cbn [update_rev]. unfold wf_ie in *.
    destruct (ie_update_cases last e) as [(m & -> & A & -> & B & C)|[(-> & A)|[(-> & A)|[(-> & A)|(-> & A)]]]].
    + apply alike_cons; [unfold covers; cbn; lia|unfold loc_eq; cbn; auto].
    + apply alike_skip_new, alike_skip_old, alike_refl; unfold covers; lia.
    + destruct rest as [|r0 rest'].
      * apply alike_skip_new, alike_skip_old, alike_refl; unfold covers; lia.
      * apply alike_skip_old; [unfold covers; lia|now apply IH].
    + apply alike_skip_new; [unfold covers; lia|].
      apply alike_cons; [unfold covers; cbn; lia|unfold loc_eq; cbn; auto].
    + apply alike_skip_new; [unfold covers; lia|apply alike_refl].
Qed.

Theorem tan_index_latest_writer_wins_proved : forall es e, sorted_idx es -> wf_ie e ->
  (* the new range is indexed and addresses the new record *)
  (exists ie, In ie (index_update es e) /\ ie_start ie <= ie_start e /\ ie_end ie = ie_end e /\ same_record ie e) /\
  (* every position above it that was indexed before is gone *)
  (forall ie, In ie (index_update es e) -> ie_end ie <= ie_end e) /\
  (* below it nothing changed: the same positions are indexed and address the same records *)
  (forall x, x < ie_start e ->
     (forall ie', In ie' (index_update es e) -> ie_start ie' <= x <= ie_end ie' ->
        exists ie, In ie es /\ ie_start ie <= x <= ie_end ie /\ loc_eq ie' ie) /\
     (forall ie, In ie es -> ie_start ie <= x <= ie_end ie ->
        exists ie', In ie' (index_update es e) /\ ie_start ie' <= x <= ie_end ie' /\ loc_eq ie' ie)).
Proof.
  intros es e HS We. unfold sorted_idx, index_update in *. split; [|split].
  - destruct (update_rev_sorted _ e HS We) as (_ & h & t & E & B). exists h.
    split; [rewrite <- in_rev, E; now left|]. pose proof B as (_ & _ & _ & B4 & B5). auto.
  - (* the result is sorted and its last entry ends where e ends *)
    intros ie HI. apply in_rev in HI.
    destruct (update_rev_sorted _ e HS We) as (S' & h & t & E & (_ & _ & _ & _ & A)).
    rewrite E in *. destruct S' as (Wh & Hall & _). destruct HI as [<-|HI]; [lia|].
    rewrite Forall_forall in Hall. specialize (Hall _ HI). unfold wf_ie in Wh. lia.
  - intros x Hx. destruct (update_rev_below _ e x HS We Hx) as [I1 I2]. split.
    + intros ie' HI Hc. apply in_rev in HI. destruct (I1 ie' HI Hc) as (ie & H1 & H2). exists ie.
      split; auto. now apply in_rev.
    + intros ie HI Hc. apply in_rev in HI. destruct (I2 ie HI Hc) as (ie' & H1 & H2). exists ie'.
      split; auto. now apply in_rev in H1.
Qed.

(* a chain: consecutive ranges, each starting right after the previous one *)
Fixpoint chain (prev : option ientry) (res : list ientry) : Prop :=
  match res with
  | [] => True
  | e :: t => (match prev with Some p => ie_end p + 1 = ie_start e | None => True end) /\ chain (Some e) t
  end.

Lemma collect_chain : forall es high prev,
  chain prev (collect high prev es) /\
  (forall e, In e (collect high prev es) -> In e es /\ ie_start e < high).
Proof.
  induction es as [|e es IH]; intros high prev; cbn [collect]; [split; [exact I | intros e []]|].
  destruct (high <=? ie_start e) eqn:E; [split; [exact I | intros x []]|]. apply N.leb_gt in E.
  destruct prev as [p|].
  - destruct (ie_end p + 1 =? ie_start e) eqn:E2; [|split; [exact I | intros x []]].
    apply N.eqb_eq in E2. destruct (IH high (Some e)) as [I1 I2]. split; [split; auto|].
    intros x [<-|HI]; [split; [now left | auto]|]. destruct (I2 x HI). split; [now right | auto].
  - destruct (IH high (Some e)) as [I1 I2]. split; [split; auto|].
    intros x [<-|HI]; [split; [now left | auto]|]. destruct (I2 x HI). split; [now right | auto].
Qed.

Lemma drop_until_spec : forall es low e t, drop_until low es = e :: t ->
  low <= ie_end e /\ (forall x, In x (e :: t) -> In x es).
Proof.
  induction es as [|a es IH]; intros low e t H; [discriminate|].
  cbn [drop_until] in H. destruct (low <=? ie_end a) eqn:E.
  - inversion H; subst. apply N.leb_le in E. split; auto.
  - destruct (IH _ _ _ H) as [I1 I2]. split; auto. intros x HI. right. auto.
Qed.

Theorem query_contiguous_proved : forall es low high res ok, index_query es low high = IQRes res ok ->
  low <= high /\
  chain None res /\
  (forall e, In e res -> In e es /\ ie_start e < high) /\
  (match res with e :: _ => ie_start e <= low <= ie_end e | [] => True end) /\
  (ok = false -> res = []).
Proof.
  intros es low high res ok H. unfold index_query in H.
  destruct (high <? low) eqn:E; [discriminate|]. apply N.ltb_ge in E. split; auto.
  destruct (drop_until low es) as [|e t] eqn:D.
  - inversion H; subst. repeat split; auto; try contradiction.
  - destruct (low <? ie_start e) eqn:E2.
    + inversion H; subst. repeat split; auto; try contradiction.
    + apply N.ltb_ge in E2. inversion H; subst. clear H.
      destruct (drop_until_spec _ _ _ _ D) as [D1 D2].
      destruct (collect_chain (e :: t) high None) as [C1 C2]. split; [auto|]. split.
      * intros x HI. destruct (C2 x HI). split; auto.
      * split; [|discriminate]. cbn [collect]. destruct (high <=? ie_start e); [exact I|]. lia.
Qed.
