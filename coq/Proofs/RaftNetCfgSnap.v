(* L2, stages 2 and 3 together: every run of the model with membership change,
   compaction and InstallSnapshot (Model/RaftNetCfgSnap.v) is simulated by a run of the
   stage-3 model whose soup holds the Replicate messages every snapshot stands for. *)
From DB Require Import Model.RaftNet Model.RaftNetSnap Model.RaftNetCfg Model.RaftNetCfgSnap
  Proofs.RaftNetLists Proofs.RaftNetElection Proofs.RaftNetLog Proofs.RaftNetCommitDefs
  Proofs.RaftNetCommit Proofs.RaftNetSafety Proofs.RaftNetSnap Proofs.RaftNetCfgLemmas
  Proofs.RaftNetCfgInv Proofs.RaftNetCfgStep Proofs.RaftNetCfgSafety.

Definition with_msgs3 (s : net3) (ms : list msg) : net3 :=
  set_base s (with_msgs (base3 s) ms).

Section CfgSnapSim.
  Variable cfg_of : list entry -> list id.
  Variable is_cc : entry -> bool.
  Hypothesis HC : cfg_contract cfg_of is_cc.

  Notation cfg_noncc := (proj1 HC).
  Notation cfg_step_near := (proj1 (proj2 HC)).
  Notation cfg_nodup := (proj1 (proj2 (proj2 HC))).
  Notation noop_noncc := (proj2 (proj2 (proj2 HC))).

  Notation ccs := (ccs is_cc).
  Notation cfg := (cfg cfg_of).
  Notation step3 := (step3 cfg_of is_cc).
  Notation steps3 := (steps3 cfg_of is_cc).
  Notation reachable3 := (reachable3 cfg_of is_cc).
  Notation step4 := (step4 cfg_of is_cc).
  Notation steps4 := (steps4 cfg_of is_cc).
  Notation reachable4 := (reachable4 cfg_of is_cc).
  Notation inv4 := (inv4 cfg_of is_cc).
  Notation inv4_reachable := (inv4_reachable cfg_of is_cc cfg_noncc cfg_step_near cfg_nodup noop_noncc).

  Lemma aux_with_msgs s ms l :
    pending' is_cc (with_msgs3 s ms) l = pending' is_cc s l /\
    lcfg' cfg_of (with_msgs3 s ms) l = lcfg' cfg_of s l /\
    lapp' (with_msgs3 s ms) l = lapp' s l /\
    cevents' (with_msgs3 s ms) l = cevents' s l.
  Proof. destruct l; repeat split; reflexivity. Qed.

  Lemma guard3_with_msgs s ms l : guard3 is_cc s l -> guard3 is_cc (with_msgs3 s ms) l.
  Proof. destruct l; simpl; auto. Qed.

  (* a stage-3 step stays possible, with the same effect, in a bigger soup *)
  Lemma step3_soup_mono s l s' ms :
    step3 s l s' -> incl (msgs (base3 s)) ms -> same_acks ms (msgs (base3 s)) ->
    exists new, msgs (base3 s') = new ++ msgs (base3 s) /\
                step3 (with_msgs3 s ms) l (with_msgs3 s' (new ++ ms)).
  Proof.
    intros Hstep Hi Hsa. destruct Hstep; repeat match goal with x := _ |- _ => subst x end; subst.
    - destruct (step_soup_mono _ _ _ _ ms H0 Hi Hsa) as (new & Hnew & Hst).
      exists new. split; [exact Hnew|].
      pose proof (S3Base cfg_of is_cc (with_msgs3 s ms) l (with_msgs b' (new ++ ms))
                         (guard3_with_msgs s ms l H) Hst) as Hs3.
      destruct (aux_with_msgs s ms l) as (E1 & E2 & E3 & E4).
      rewrite E1, E2, E3, E4 in Hs3. exact Hs3.
    - exists []. split; [reflexivity|].
      apply (S3Apply cfg_of is_cc (with_msgs3 s ms) i). exact H.
    - destruct (step_soup_mono _ _ _ _ ms H Hi Hsa) as (new & Hnew & Hst).
      exists new. split; [exact Hnew|].
      apply (S3Crash cfg_of is_cc (with_msgs3 s ms) i c m a (with_msgs b' (new ++ ms))); assumption.
  Qed.

  Definition R4 (s : net4) (ms : list msg) : Prop :=
    incl (msgs (base3 (base4 s))) ms /\
    (forall m, In m (snaps4 s) -> is_covered (llog (base3 (base4 s))) ms m) /\
    same_acks ms (msgs (base3 (base4 s))).

  Definition wf4 (s : net4) : Prop :=
    forall i, first4 s i <= commit (nodes (base3 (base4 s)) i).

  Lemma step3_commit_mono s l s' i :
    step3 s l s' ->
    commit (nodes (base3 s) i) <= commit (nodes (base3 s') i) \/
    exists c m a, l = L3Crash i c m a /\ commit (nodes (base3 s') i) = c.
  Proof.
    intros Hstep. destruct Hstep; repeat match goal with x := _ |- _ => subst x end; subst;
      cbn [base3].
    - destruct (step_commit_mono _ _ _ _ i H0) as [Hle|(c & m & -> & _)]; [now left|].
      simpl in H. contradiction.
    - left. lia.
    - destruct (step_commit_mono _ _ _ _ i H) as [Hle|(c0 & m0 & E & Hc)]; [now left|].
      injection E as -> <- _. right. eauto.
  Qed.

  Lemma wf4_step s l s' : wf4 s -> step4 s l s' -> wf4 s'.
  Proof.
    intros Hwf Hstep i. specialize (Hwf i).
    destruct Hstep; repeat match goal with x := _ |- _ => subst x end; subst;
      cbn [base4 first4 base3 set_base nodes].
    - destruct (step3_commit_mono _ _ _ i H0) as [Hle|(c & m & a & -> & Hc)]; [lia|].
      simpl in H. lia.
    - destruct (Nat.eq_dec i i0) as [->|Hne]; [rewrite updn_eq; lia | now rewrite updn_neq].
    - assumption.
    - simp_upd; lia.
    - simp_upd; lia.
    - destruct (Nat.eq_dec i j) as [->|Hne].
      + rewrite updn_eq, upd_eq. simpl. lia.
      + rewrite updn_neq, upd_neq by assumption. lia.
  Qed.

  (* sending all the Replicate messages a snapshot at sidx stands for *)
  Lemma send_covering3 b ms i sidx :
    role (nodes (base3 b) i) = Leader -> sidx <= commit (nodes (base3 b) i) ->
    sidx <= length (log (nodes (base3 b) i)) ->
    forall k, k <= S sidx ->
    exists ls new,
      steps3 (with_msgs3 b ms) ls (with_msgs3 b (new ++ ms)) /\
      (forall t v l0 k0, ~ In (Ack t v l0 k0) new) /\
      forall p, p < k ->
        In (AE (term (nodes (base3 b) i)) i p (term_at (log (nodes (base3 b) i)) p)
               (firstn (sidx - p) (skipn p (log (nodes (base3 b) i)))) sidx) (new ++ ms).
  Proof.
    intros Hrole Hc Hl.
    apply (send_all net3 label3 steps3 (with_msgs3 b) (fun p => L3Base (LSendAE i p (sidx - p) sidx)));
      try discriminate; [constructor | |].
    - intros a ls c l d H1 H2. eapply (steps3_app cfg_of is_cc); eauto.
    - intros new p Hp. econstructor; [|constructor].
      refine (S3Base cfg_of is_cc (with_msgs3 b (new ++ ms)) (LSendAE i p (sidx - p) sidx)
                     (with_msgs (base3 b) (_ ++ ms)) _ _).
      + cbn. replace (p + (sidx - p)) with sidx by lia.
        rewrite ccs_out; [lia|]. rewrite firstn_length. lia.
      + unfold with_msgs3, set_base, with_msgs. cbn [base3 nodes msgs lead llog0 llog actor].
        apply (SASendAE _ (mkNet (nodes (base3 b)) (new ++ ms) (lead (base3 b)) (llog0 (base3 b))
                                 (llog (base3 b)))); cbn [nodes]; auto; lia.
  Qed.

  Lemma sim_base4 s l b' ms :
    reachable3 (with_msgs3 (base4 s) ms) -> R4 s ms -> step3 (base4 s) l b' ->
    exists ms', step3 (with_msgs3 (base4 s) ms) l (with_msgs3 b' ms') /\
                R4 (mkNet4 b' (first4 s) (snaps4 s)) ms'.
  Proof.
    intros Hreach HR H0.
    destruct (step3_soup_mono _ _ _ ms H0 (proj1 HR) (proj2 (proj2 HR))) as (new & Hnew & Hst).
    exists (new ++ ms). split; [exact Hst|].
    destruct (step3_mono cfg_of is_cc HC _ _ _
                         (inv4_reachable _ Hreach) Hst) as ((_ & _ & Hg & _) & _).
    exact (covers_step (base3 (base4 s)) (base3 b') _ new ms Hnew Hg HR).
  Qed.

  Notation nd s i := (nodes (base3 (base4 s)) i).

  Theorem sim_step4 s l s' ms :
    reachable3 (with_msgs3 (base4 s) ms) -> R4 s ms -> step4 s l s' ->
    exists ls ms', steps3 (with_msgs3 (base4 s) ms) ls (with_msgs3 (base4 s') ms') /\ R4 s' ms'.
  Proof.
    intros Hreach HR Hstep.
    pose proof (inv4_reachable _ Hreach) as Hinv.
    pose proof (s_2 _ _ _ Hinv) as A2. pose proof (s_3a _ _ _ Hinv) as A3a.
    pose proof (agl3 cfg_of is_cc cfg_noncc cfg_step_near _ Hinv) as Hagl.
    cbn [with_msgs3 set_base base3] in A2, A3a, Hagl.
    destruct Hstep; repeat match goal with x := _ |- _ => subst x end; subst;
      cbn [base4 first4 snaps4].
    - destruct (sim_base4 s l b' ms Hreach HR H0) as (ms' & Hst & HR').
      exists [l], ms'. split; [econstructor; [exact Hst | constructor] | exact HR'].
    - exists [], ms. split; [constructor | exact HR].
    - destruct (i_commit_bounds _ A3a i) as (Hc1 & Hc2). cbn [with_msgs nodes] in Hc1, Hc2.
      destruct (send_covering3 (base4 s) ms i sidx H ltac:(lia) ltac:(lia) (S sidx) (le_n _))
        as (ls & new & Hs & Hna & Hp).
      exists ls, (new ++ ms). split; [exact Hs|].
      apply (covers_send (base3 (base4 s))); [exact Hna | | exact HR].
      apply leader_snapshot_covered; [exact (i_leader_log _ A2 i H) | lia | exact Hp].
    - destruct (install_stale (cfg (with_msgs3 (base4 s) ms) j) (with_msgs (base3 (base4 s)) ms) j ldr sidx sterm
                              (proj1 (proj2 HR) _ H) ltac:(assumption)) as (pt & ents & Hst).
      exists [L3Base (LHandleAE j (term (nd s j)) ldr 0 pt ents sidx)],
             (Ack (term (nd s j)) j ldr (commit (nd s j)) :: ms).
      split; [econstructor; [exact (S3Base cfg_of is_cc (with_msgs3 (base4 s) ms) (LHandleAE j _ ldr _ pt ents sidx) _ I Hst) | constructor]|].
      exact (covers_ack (base3 (base4 s)) _ _ _ ms HR).
    - destruct (install_as_append (cfg (with_msgs3 (base4 s) ms) j) (with_msgs (base3 (base4 s)) ms) j ldr sidx _
                                  A2 A3a Hagl (proj1 (proj2 HR) _ H) ltac:(assumption))
        as (pt & ents & Hst).
      cbn [with_msgs nodes] in Hst. rewrite Nat.eqb_refl in Hst.
      exists [L3Base (LHandleAE j (term (nd s j)) ldr (commit (nd s j)) pt ents sidx)],
             (Ack (term (nd s j)) j ldr sidx :: ms).
      split; [econstructor; [exact (S3Base cfg_of is_cc (with_msgs3 (base4 s) ms) (LHandleAE j _ ldr _ pt ents sidx) _ I Hst) | constructor]|].
      exact (covers_ack (base3 (base4 s)) _ _ _ ms HR).
    - destruct (install_as_append (cfg (with_msgs3 (base4 s) ms) j) (with_msgs (base3 (base4 s)) ms) j ldr sidx sterm
                                  A2 A3a Hagl (proj1 (proj2 HR) _ H) ltac:(assumption))
        as (pt & ents & Hst).
      cbn [with_msgs nodes llog] in Hst.
      match goal with E : _ <> sterm |- _ => rewrite (proj2 (Nat.eqb_neq _ _) E) in Hst end.
      exists [L3Base (LHandleAE j (term (nd s j)) ldr (commit (nd s j)) pt ents sidx)],
             (Ack (term (nd s j)) j ldr sidx :: ms).
      split; [econstructor; [exact (S3Base cfg_of is_cc (with_msgs3 (base4 s) ms) (LHandleAE j _ ldr _ pt ents sidx) _ I Hst) | constructor]|].
      exact (covers_ack (base3 (base4 s)) _ _ _ ms HR).
  Qed.

  Lemma sim_steps4 s ls s' : steps4 s ls s' -> forall ms,
    reachable3 (with_msgs3 (base4 s) ms) -> R4 s ms ->
    exists ls1 ms', steps3 (with_msgs3 (base4 s) ms) ls1 (with_msgs3 (base4 s') ms') /\ R4 s' ms'.
  Proof.
    induction 1 as [s|s l s1 ls s2 Hst Hsts IH]; intros ms Hreach HR.
    - exists [], ms. split; [constructor | exact HR].
    - destruct (sim_step4 s l s1 ms Hreach HR Hst) as (la & ms1 & Ha & HR1).
      destruct (IH ms1 (steps3_reachable cfg_of is_cc _ _ _ Hreach Ha) HR1) as (lb & ms2 & Hb & HR2).
      exists (la ++ lb), ms2. split; [eapply (steps3_app cfg_of is_cc); eauto | exact HR2].
  Qed.

  (* every reachable state of the combined model is a reachable stage-3 state with a
     bigger soup *)
  Theorem stage23_refines_stage3 s :
    reachable4 s -> exists ms, reachable3 (with_msgs3 (base4 s) ms) /\ R4 s ms.
  Proof.
    intros (ls & Hs).
    assert (H0 : reachable3 (with_msgs3 (base4 (init4)) [])) by (exists []; constructor).
    assert (HR0 : R4 init4 []) by (split; [intros m [] | split; [intros m [] | intros ? ? ? ? []]]).
    destruct (sim_steps4 _ _ _ Hs [] H0 HR0) as (ls1 & ms & Hst & HR).
    exists ms. split; [|exact HR]. eapply steps3_reachable; eauto.
  Qed.

  Lemma wf4_steps s ls s' : wf4 s -> steps4 s ls s' -> wf4 s'.
  Proof. intros Hw Hs. induction Hs; [assumption|]. apply IHHs. eapply wf4_step; eauto. Qed.

  Lemma steps4_reachable s ls s' : reachable4 s -> steps4 s ls s' -> reachable4 s'.
  Proof.
    intros (l0 & H0) Hs. exists (l0 ++ ls).
    induction H0; simpl; [assumption|]. econstructor; eauto.
  Qed.

  Theorem snapshot_is_committed4 s i : reachable4 s -> first4 s i <= commit (nd s i).
  Proof. intros (ls & Hs). eapply wf4_steps; [|exact Hs]. intros j. simpl. lia. Qed.

  Theorem election_safety4 s i j :
    reachable4 s -> role (nd s i) = Leader -> role (nd s j) = Leader ->
    term (nd s i) = term (nd s j) -> i = j.
  Proof.
    intros Hr. destruct (stage23_refines_stage3 s Hr) as (ms & Hreach & _).
    apply (election_safety3 cfg_of is_cc HC _ i j Hreach).
  Qed.

  Theorem log_matching4 s i j k :
    reachable4 s -> 1 <= k -> k <= length (log (nd s i)) -> k <= length (log (nd s j)) ->
    term_at (log (nd s i)) k = term_at (log (nd s j)) k ->
    firstn k (log (nd s i)) = firstn k (log (nd s j)).
  Proof.
    intros Hr. destruct (stage23_refines_stage3 s Hr) as (ms & Hreach & _).
    apply (log_matching3 cfg_of is_cc HC _ i j k Hreach).
  Qed.

  Theorem state_machine_safety4 s a b k :
    reachable4 s -> k <= commit (nd s a) -> k <= commit (nd s b) ->
    firstn k (log (nd s a)) = firstn k (log (nd s b)).
  Proof.
    intros Hr. destruct (stage23_refines_stage3 s Hr) as (ms & Hreach & _).
    apply (state_machine_safety3 cfg_of is_cc HC _ a b k Hreach).
  Qed.

  Theorem committed_never_replaced4 s ls s' i k :
    reachable4 s -> steps4 s ls s' -> k <= commit (nd s i) ->
    firstn k (log (nd s' i)) = firstn k (log (nd s i)).
  Proof.
    intros Hr Hs Hk. destruct (stage23_refines_stage3 s Hr) as (ms & Hreach & HR).
    destruct (sim_steps4 s ls s' Hs ms Hreach HR) as (ls1 & ms' & Hst & _).
    apply (committed_never_replaced3 cfg_of is_cc HC _ _ _ i k Hreach Hst Hk).
  Qed.

  Theorem leader_completeness4_trace s i k s1 ls s2 j :
    reachable4 s -> step4 s (L4Base (L3Base (LAdvanceCommit i k))) s1 -> steps4 s1 ls s2 ->
    role (nd s2 j) = Leader -> term (nd s i) < term (nd s2 j) ->
    firstn k (log (nd s2 j)) = firstn k (log (nd s i)).
  Proof.
    intros Hr Hstep Hs Hrole Hlt.
    destruct (stage23_refines_stage3 s Hr) as (ms & Hreach & HR).
    inversion Hstep; subst.
    match goal with Hb : RaftNetCfg.step3 _ _ (base4 s) _ b' |- _ =>
      destruct (sim_base4 s _ b' ms Hreach HR Hb) as (ms1 & Hst1 & HR1) end.
    assert (Hreach1 : reachable3 (with_msgs3 b' ms1)).
    { eapply steps3_reachable; [exact Hreach|]. econstructor; [exact Hst1 | constructor]. }
    destruct (sim_steps4 _ ls s2 Hs ms1 Hreach1 HR1) as (ls1 & ms2 & Hst2 & _).
    apply (leader_completeness3_trace cfg_of is_cc HC _ i k _ ls1 _ j Hreach Hst1 Hst2 Hrole Hlt).
  Qed.

  Theorem applied_le_committed4 s i : reachable4 s -> applied (base4 s) i <= commit (nd s i).
  Proof.
    intros Hr. destruct (stage23_refines_stage3 s Hr) as (ms & Hreach & _).
    apply (applied_le_committed cfg_of is_cc cfg_noncc cfg_step_near cfg_nodup noop_noncc _ i Hreach).
  Qed.

End CfgSnapSim.
