(* L2 stage 3, part a: the invariant of the model with membership change and what follows
   from it in one state: leader completeness across configurations, and that a term
   never gets a second leader although candidates may count votes in different
   configurations. *)
From DB Require Import Model.RaftNet Model.RaftNetCfg Proofs.RaftNetLists Proofs.RaftNetElection
  Proofs.RaftNetLog Proofs.RaftNetCommitDefs Proofs.RaftNetCommit Proofs.RaftNetCfgLemmas.

Section CfgInv.
  Variable cfg_of : list entry -> list id.
  Variable is_cc : entry -> bool.
  Hypothesis cfg_noncc : forall l e, is_cc e = false -> cfg_of (l ++ [e]) = cfg_of l.
  Hypothesis cfg_step_near : forall l e, qnear (cfg_of l) (cfg_of (l ++ [e])).
  Hypothesis cfg_nodup : forall l, NoDup (cfg_of l).
  Hypothesis noop_noncc : forall t, is_cc (noop t) = false.

  Notation ccs := (ccs is_cc).
  Notation cfg := (cfg cfg_of).

  Definition event := (nat * nat * nat)%type.

  (* (t, k, a): the leader of term t, having applied a entries, advanced its commit index
     to k because a quorum of the configuration of its first a entries acknowledged k *)
  Definition ev_ok (n : net) (e : event) : Prop :=
    let '(t, k, a) := e in
    lead n t <> None /\ a < k /\ k <= length (llog n t) /\ term_at (llog n t) k = t /\
    ccs (firstn k (llog n t)) a <= 1 /\
    exists Q, is_quorum (cfg_of (firstn a (llog n t))) Q /\ forall w, In w Q -> acked n t w k.

  (* the first c entries of l are covered by an event of evs of a term <= tmax *)
  Definition cprefix3 (n : net) (evs : list event) tmax c (l : list entry) : Prop :=
    c = 0 \/ exists t k a, In (t, k, a) evs /\ t <= tmax /\ c <= k /\ agree c l (llog n t).

  Section OneState.
    Variable s : net3.
    Notation n := (base3 s).

    Definition S_app := forall i, applied s i <= commit (nodes n i).
    Definition S_cand := forall i, role (nodes n i) = Candidate ->
      applied s i = commit (nodes n i) /\
      last_term (log (nodes n i)) < term (nodes n i) /\
      cprefix3 n (cevents s) (term (nodes n i) - 1) (commit (nodes n i)) (log (nodes n i)).
    Definition S_b := forall i, ccs (log (nodes n i)) (commit (nodes n i)) <= 1.
    Definition S_lead := forall i, role (nodes n i) = Leader ->
      ccs (log (nodes n i)) (applied s i) <= 1 /\
      (ccs (log (nodes n i)) (applied s i) = 1 -> pending s i = true).
    Definition S_ae := forall t ldr prev pt ents lc,
      In (AE t ldr prev pt ents lc) (msgs n) ->
      ccs (firstn (prev + length ents) (llog n t)) lc <= 1.
    Definition S_ev := forall e, In e (cevents s) -> ev_ok n e.
    Definition S_chain := forall pre t k a post,
      cevents s = pre ++ (t, k, a) :: post -> cprefix3 n post t a (llog n t).
    Definition S_lcfg := forall T c, lead n T = Some c ->
      lapp s T <= length (llog0 n T) /\
      lcfg s T = cfg_of (firstn (lapp s T) (llog0 n T)) /\
      ccs (llog0 n T) (lapp s T) <= 1 /\
      cprefix3 n (cevents s) (T - 1) (lapp s T) (llog0 n T).
    Definition S_elected := forall T c, lead n T = Some c ->
      exists Q, is_quorum (lcfg s T) Q /\ forall w, In w Q ->
        voted_msg n T w c /\
        forall t k, t < T -> 1 <= k -> acked n t w k -> term_at (llog n t) k = t ->
                    agree k (llog0 n T) (llog n t) \/ blamed n t k (T - 1).
    Definition S_hc := forall i,
      cprefix3 n (cevents s) (term (nodes n i)) (hcommit (nodes n i)) (log (nodes n i)).
    Definition S_aec := forall t ldr prev pt ents lc,
      In (AE t ldr prev pt ents lc) (msgs n) -> cprefix3 n (cevents s) t lc (llog n t).
    Definition S_hb := forall t ldr to c,
      In (HB t ldr to c) (msgs n) ->
      c = 0 \/ (acked n t to c /\ cprefix3 n (cevents s) t c (llog n t)).

    Record inv4 : Prop := {
      s_1 : inv1 n;
      s_2 : inv2 n;
      s_3a : inv3a n;
      s_app : S_app;
      s_cand : S_cand;
      s_b : S_b;
      s_lead : S_lead;
      s_ae : S_ae;
      s_ev : S_ev;
      s_chain : S_chain;
      s_lcfg : S_lcfg;
      s_elected : S_elected;
      s_hc : S_hc;
      s_aec : S_aec;
      s_hb : S_hb
    }.
  End OneState.

  Lemma cprefix3_le n evs tmax c c' l : cprefix3 n evs tmax c l -> c' <= c -> cprefix3 n evs tmax c' l.
  Proof.
    intros [->|(t & k & a & Hin & Ht & Hc & Hag)] Hle; [left; lia|].
    right. exists t, k, a. repeat split; auto; try lia. eapply agree_le; eauto.
  Qed.

  Lemma cprefix3_tmax n evs tmax tmax' c l :
    cprefix3 n evs tmax c l -> tmax <= tmax' -> cprefix3 n evs tmax' c l.
  Proof.
    intros [->|(t & k & a & Hin & Ht & Hc & Hag)] Hle; [now left|].
    right. exists t, k, a. repeat split; auto; lia.
  Qed.

  Lemma cprefix3_agree n evs tmax c l l' :
    cprefix3 n evs tmax c l -> agree c l' l -> cprefix3 n evs tmax c l'.
  Proof.
    intros [->|(t & k & a & Hin & Ht & Hc & Hag)] Hl; [now left|].
    right. exists t, k, a. repeat split; auto. eapply agree_trans; eauto.
  Qed.

  Lemma cprefix3_evs n evs evs' tmax c l :
    cprefix3 n evs tmax c l -> incl evs evs' -> cprefix3 n evs' tmax c l.
  Proof.
    intros [->|(t & k & a & Hin & Ht & Hc & Hag)] Hi; [now left|].
    right. exists t, k, a. repeat split; auto.
  Qed.

  Lemma descent s :
    S_chain s ->
    forall post pre, cevents s = pre ++ post ->
    forall tmax c l p, 1 <= p <= c -> cprefix3 (base3 s) post tmax c l ->
    exists t k a, In (t, k, a) (cevents s) /\ t <= tmax /\ a < p <= k /\
                  agree p l (llog (base3 s) t).
  Proof.
    intros Hch. induction post as [|e0 post IH]; intros pre Hsplit tmax c l p Hp Hcp.
    - destruct Hcp as [->|(t & k & a & [] & _)]. lia.
    - destruct Hcp as [->|(t & k & a & Hin & Ht & Hc & Hag)]; [lia|].
      assert (Hsplit' : cevents s = (pre ++ [e0]) ++ post) by (now rewrite <- app_assoc).
      destruct Hin as [->|Hin].
      + destruct (Nat.lt_ge_cases a p) as [Hap|Hpa].
        * exists t, k, a. split; [rewrite Hsplit; apply in_or_app; right; now left|].
          split; [exact Ht|]. split; [lia|]. eapply agree_le; eauto. lia.
        * pose proof (Hch pre t k a post Hsplit) as Hcp1.
          destruct (IH _ Hsplit' t a (llog (base3 s) t) p ltac:(lia) Hcp1)
            as (t1 & k1 & a1 & Hin1 & Ht1 & Hp1 & Hag1).
          exists t1, k1, a1. split; [exact Hin1|]. split; [lia|]. split; [exact Hp1|].
          eapply agree_trans; [eapply agree_le; [exact Hag | lia] | exact Hag1].
      + apply (IH _ Hsplit' tmax c l p Hp). right. exists t, k, a. auto.
  Qed.

  Section LC.
    Variable s : net3.
    Hypothesis Hinv : inv4 s.
    Notation n := (base3 s).

    Let H2 := s_2 s Hinv.

    Lemma ev_len t k a : In (t, k, a) (cevents s) -> k <= length (llog n t).
    Proof. intros H. apply (s_ev s Hinv) in H. simpl in H. tauto. Qed.

    Lemma llog0_agree T k l :
      k <= length l -> agree k (llog0 n T) l -> agree k (llog n T) l.
    Proof.
      intros Hk Hag. destruct (i_llog0 n H2 T) as (ext & ->).
      apply agree_ext_l; [exact Hag|]. apply agree_sym in Hag. eapply agree_len; eauto.
    Qed.

    Theorem LC3 : forall T c, lead n T = Some c ->
      forall t k a, In (t, k, a) (cevents s) -> t < T -> agree k (llog0 n T) (llog n t).
    Proof.
      induction T as [T IH] using lt_wf_ind. intros c Hl.
      (* leaders below T hold every earlier event *)
      assert (LCle : forall U, U < T -> lead n U <> None ->
                forall t k a, In (t, k, a) (cevents s) -> t < U -> agree k (llog n U) (llog n t)).
      { intros U HU HlU t k a Hin Hlt. destruct (lead n U) as [cU|] eqn:E; [|congruence].
        apply llog0_agree; [eapply ev_len; eauto|]. eapply (IH U HU cU E); eauto. }
      (* two events of terms below T are comparable *)
      assert (Hcmp : forall t1 k1 a1 t2 k2 a2,
                In (t1, k1, a1) (cevents s) -> In (t2, k2, a2) (cevents s) -> t1 < T -> t2 < T ->
                agree (Nat.min k1 k2) (llog n t1) (llog n t2)).
      { intros t1 k1 a1 t2 k2 a2 Hi1 Hi2 Ht1 Ht2.
        pose proof (s_ev s Hinv _ Hi1) as (Hl1 & _). pose proof (s_ev s Hinv _ Hi2) as (Hl2 & _).
        destruct (Nat.lt_trichotomy t1 t2) as [Hlt|[->|Hlt]].
        - apply agree_sym. eapply agree_le; [apply (LCle t2 Ht2 Hl2 t1 k1 a1 Hi1 Hlt)|lia].
        - apply agree_refl.
        - eapply agree_le; [apply (LCle t1 Ht1 Hl1 t2 k2 a2 Hi2 Hlt)|lia]. }
      destruct (s_lcfg s Hinv T c Hl) as (HaTlen & Hlcfg & HccsT & HcpT).
      set (aT := lapp s T) in *.
      (* the near case *)
      assert (Hnear : forall t k a, In (t, k, a) (cevents s) -> t < T ->
                qnear (lcfg s T) (cfg_of (firstn a (llog n t))) ->
                agree k (llog0 n T) (llog n t)).
      { intros t k a Hin Hlt Hq.
        pose proof (s_ev s Hinv _ Hin) as (Hlt_lead & Hak & Hklen & Hterm & _ & (Qe & HQe & HQew)).
        destruct (s_elected s Hinv T c Hl) as (QT & HQT & HQTw).
        destruct (Hq QT Qe HQT HQe) as (w & Hw1 & Hw2).
        destruct (HQTw w Hw1) as (_ & Hpair).
        destruct (Hpair t k Hlt ltac:(lia) (HQew w Hw2) Hterm) as [Hag|(U & HU & HlU & Hna)];
          [exact Hag|].
        exfalso. apply Hna. destruct (lead n U) as [cU|] eqn:E; [|congruence].
        eapply (IH U ltac:(lia) cU E); eauto. lia. }
      intros t k a Hin Hlt.
      pose proof (s_ev s Hinv _ Hin) as (Hlt_lead & Hak & Hklen & Hterm & Hccs & _).
      (* the leader's applied prefix agrees with llog t as far as both go *)
      assert (Hmin : agree (Nat.min aT k) (llog0 n T) (llog n t)).
      { destruct HcpT as [E|(t' & k' & a' & Hin' & Ht' & Hk' & Hag')].
        - rewrite E. apply agree_0.
        - eapply agree_trans; [eapply agree_le; [exact Hag'|lia]|].
          eapply agree_le; [apply (Hcmp t' k' a' t k a Hin' Hin); lia | lia]. }
      destruct (Nat.le_gt_cases k aT) as [HkaT|HaTk].
      { replace (Nat.min aT k) with k in Hmin by lia. exact Hmin. }
      replace (Nat.min aT k) with aT in Hmin by lia.
      assert (Elcfg : lcfg s T = cfg_of (firstn aT (llog n t))).
      { rewrite Hlcfg. unfold agree in Hmin. now rewrite Hmin. }
      destruct (Nat.le_gt_cases a aT) as [HaaT|HaTa].
      { apply (Hnear t k a Hin Hlt). rewrite Elcfg. apply qnear_sym.
        apply (cfg_near is_cc cfg_of cfg_noncc cfg_step_near (llog n t) a aT HaaT).
        pose proof (ccs_firstn_mono is_cc (llog n t) aT k a ltac:(lia)). lia. }
      destruct (Nat.le_gt_cases (ccs (firstn a (llog n t)) aT) 1) as [Hle1|Hge2].
      { apply (Hnear t k a Hin Hlt). rewrite Elcfg.
        apply (cfg_near is_cc cfg_of cfg_noncc cfg_step_near (llog n t) aT a); [lia | exact Hle1]. }
      (* two config changes between the leader's applied prefix and the event's: impossible *)
      exfalso.
      destruct (second_cc is_cc (llog n t) aT a Hge2) as (p & Hp & Hp2 & Hp1).
      destruct (in_split _ _ Hin) as (pre & post & Hsplit).
      pose proof (s_chain s Hinv pre t k a post Hsplit) as Hcp.
      assert (Hsplit' : cevents s = (pre ++ [(t, k, a)]) ++ post) by (now rewrite <- app_assoc).
      destruct (descent s (s_chain s Hinv) post _ Hsplit' t a (llog n t) p
                        ltac:(lia) Hcp) as (t1 & k1 & a1 & Hin1 & Ht1 & Hp1' & Hag1).
      pose proof (s_ev s Hinv _ Hin1) as (_ & _ & Hk1len & _ & Hccs1 & _).
      assert (Hq1 : qnear (lcfg s T) (cfg_of (firstn a1 (llog n t1)))).
      { assert (E1 : firstn a1 (llog n t1) = firstn a1 (llog n t)).
        { symmetry. apply (agree_le p); [exact Hag1 | lia]. }
        rewrite E1, Elcfg.
        apply (cfg_near_event is_cc cfg_of cfg_noncc cfg_step_near (llog n t) (llog n t1) aT a1 p k1);
          auto; lia. }
      pose proof (Hnear t1 k1 a1 Hin1 ltac:(lia) Hq1) as HagT.
      assert (HagTp : agree p (llog0 n T) (llog n t)).
      { eapply agree_trans; [eapply agree_le; [exact HagT|lia]|]. now apply agree_sym. }
      pose proof (ccs_firstn_le is_cc (llog0 n T) p aT) as Hc1.
      rewrite (ccs_agree is_cc _ _ p aT HagTp) in Hc1. lia.
    Qed.

    Lemma cprefix3_llog T c l :
      cprefix3 n (cevents s) T c l -> lead n T <> None -> agree c l (llog n T).
    Proof.
      intros [->|(t & k & a & Hin & Ht & Hc & Hag)] Hl; [apply agree_0|].
      destruct (Nat.eq_dec t T) as [->|Hne]; [exact Hag|].
      eapply agree_trans; [exact Hag|]. apply agree_sym. eapply agree_le; [|exact Hc].
      destruct (lead n T) as [cT|] eqn:E; [|congruence].
      apply llog0_agree; [eapply ev_len; eauto|]. eapply (LC3 T cT E); eauto. lia.
    Qed.

    Lemma agl3 : agl n.
    Proof.
      intros w T HT Hl. pose proof (s_hc s Hinv w) as Hc. rewrite HT in Hc.
      pose proof (cprefix3_llog T _ _ Hc Hl) as Hag. split; [exact Hag|].
      eapply agree_len; [exact Hag|]. apply (i_commit_bounds n (s_3a s Hinv) w).
    Qed.

    Lemma cprefix3_agree2 T1 T2 c1 c2 l1 l2 k :
      cprefix3 n (cevents s) T1 c1 l1 -> cprefix3 n (cevents s) T2 c2 l2 ->
      k <= c1 -> k <= c2 -> agree k l1 l2.
    Proof.
      intros [->|(t1 & k1 & a1 & Hi1 & Ht1 & Hc1 & Hag1)] P2 Hk1 Hk2.
      { replace k with 0 by lia. apply agree_0. }
      destruct P2 as [->|(t2 & k2 & a2 & Hi2 & Ht2 & Hc2 & Hag2)].
      { replace k with 0 by lia. apply agree_0. }
      pose proof (s_ev s Hinv _ Hi1) as (Hl1 & _ & Hlen1 & _).
      pose proof (s_ev s Hinv _ Hi2) as (Hl2 & _ & Hlen2 & _).
      apply (agree_le _ k) in Hag1; [|lia]. apply (agree_le _ k) in Hag2; [|lia].
      eapply agree_trans; [exact Hag1|]. eapply agree_trans; [|apply agree_sym; exact Hag2].
      destruct (Nat.lt_trichotomy t1 t2) as [Hlt|[->|Hlt]].
      - apply agree_sym. destruct (lead n t2) as [c2'|] eqn:E; [|congruence].
        eapply agree_le; [apply llog0_agree; [exact Hlen1|]; eapply (LC3 t2 c2' E); eauto | lia].
      - apply agree_refl.
      - destruct (lead n t1) as [c1'|] eqn:E; [|congruence].
        eapply agree_le; [apply llog0_agree; [exact Hlen2|]; eapply (LC3 t1 c1' E); eauto | lia].
    Qed.

    (* a candidate that owns a quorum of votes of its own configuration is in a term
       without leader *)
    Lemma fresh3 i :
      role (nodes n i) = Candidate ->
      quorum (cfg s i) <= vote_count (cfg s i) (msgs n) (term (nodes n i)) i ->
      lead n (term (nodes n i)) = None.
    Proof.
      intros Hrole Hq. set (T0 := term (nodes n i)) in *.
      destruct (lead n T0) as [c|] eqn:Hl; [|reflexivity]. exfalso.
      pose proof (s_1 s Hinv) as H1. pose proof (s_3a s Hinv) as H3a.
      destruct (s_cand s Hinv i Hrole) as (Happ & HUT & Hcpi). fold T0 in Hcpi, HUT.
      set (ai := commit (nodes n i)) in *. set (L := log (nodes n i)) in *.
      assert (Ecfg : cfg s i = cfg_of (firstn ai L)) by (unfold RaftNetCfg.cfg; now rewrite Happ).
      destruct (count_vote_quorum (cfg s i) (cfg_nodup _) n T0 i Hq) as (Qi & HQi & HQiw).
      destruct (s_lcfg s Hinv T0 c Hl) as (HaTlen & Hlcfg & HccsT & HcpT).
      set (aT := lapp s T0) in *.
      destruct (s_elected s Hinv T0 c Hl) as (QT & HQT & HQTw).
      (* if the two configurations are near, the quorums share a voter: c = i *)
      assert (Hnearcase : qnear (cfg s i) (lcfg s T0) -> False).
      { intros Hqn. destruct (Hqn Qi QT HQi HQT) as (w & Hw1 & Hw2).
        destruct (HQiw w Hw1) as (vl1 & Hv1). destruct (HQTw w Hw2) as ((vl2 & Hv2) & _).
        assert (i = c) by (eapply (i_one_vote n H1); eauto). subst c.
        eapply (i_lead_cand n H1); eauto. }
      (* both applied prefixes are committed below T0: they agree as far as both go *)
      assert (Hmin : agree (Nat.min aT ai) (llog0 n T0) L).
      { apply (cprefix3_agree2 (T0 - 1) (T0 - 1) aT ai); auto; lia. }
      pose proof (s_b s Hinv i) as Hb. fold L ai in Hb.
      destruct (Nat.le_gt_cases aT ai) as [Hle|Hgt].
      - replace (Nat.min aT ai) with aT in Hmin by lia.
        assert (Elcfg : lcfg s T0 = cfg_of (firstn aT L)).
        { rewrite Hlcfg. unfold agree in Hmin. now rewrite Hmin. }
        destruct (Nat.le_gt_cases (ccs (firstn ai L) aT) 1) as [Hle1|Hge2].
        { apply Hnearcase. rewrite Ecfg, Elcfg. apply qnear_sym.
          now apply (cfg_near is_cc cfg_of cfg_noncc cfg_step_near L aT ai). }
        destruct (second_cc is_cc L aT ai Hge2) as (p & Hp & Hp2 & Hp1).
        destruct (descent s (s_chain s Hinv) (cevents s) [] eq_refl (T0 - 1) ai L p
                          ltac:(lia) Hcpi) as (t1 & k1 & a1 & Hin1 & Ht1 & Hp1' & Hag1).
        pose proof (LC3 T0 c Hl t1 k1 a1 Hin1 ltac:(lia)) as HagT.
        assert (HagTp : agree p (llog0 n T0) L).
        { eapply agree_trans; [eapply agree_le; [exact HagT|lia]|]. now apply agree_sym. }
        pose proof (ccs_firstn_le is_cc (llog0 n T0) p aT) as Hc1.
        rewrite (ccs_agree is_cc _ _ p aT HagTp) in Hc1. lia.
      - replace (Nat.min aT ai) with ai in Hmin by lia.
        assert (Ecfg' : cfg s i = cfg_of (firstn ai (llog0 n T0))).
        { rewrite Ecfg. unfold agree in Hmin. now rewrite Hmin. }
        destruct (Nat.le_gt_cases (ccs (firstn aT (llog0 n T0)) ai) 1) as [Hle1|Hge2].
        { apply Hnearcase. rewrite Ecfg', Hlcfg.
          apply (cfg_near is_cc cfg_of cfg_noncc cfg_step_near (llog0 n T0) ai aT); [lia|exact Hle1]. }
        destruct (second_cc is_cc (llog0 n T0) ai aT Hge2) as (p & Hp & Hp2 & Hp1).
        destruct (descent s (s_chain s Hinv) (cevents s) [] eq_refl (T0 - 1) aT
                          (llog0 n T0) p ltac:(lia) HcpT)
          as (t1 & k1 & a1 & Hin1 & Ht1 & Hp1' & Hag1).
        pose proof (s_ev s Hinv _ Hin1) as (Hl1 & Hak1 & Hk1len & Hterm1 & Hccs1 & (Q1 & HQ1 & HQ1w)).
        assert (Hq1 : qnear (cfg s i) (cfg_of (firstn a1 (llog n t1)))).
        { assert (E1 : firstn a1 (llog n t1) = firstn a1 (llog0 n T0)).
          { symmetry. apply (agree_le p); [exact Hag1 | lia]. }
          rewrite E1, Ecfg'.
          apply (cfg_near_event is_cc cfg_of cfg_noncc cfg_step_near (llog0 n T0) (llog n t1) ai a1 p k1);
            auto; lia. }
        destruct (Hq1 Qi Q1 HQi HQ1) as (w & Hw1 & Hw2).
        destruct (HQiw w Hw1) as (vl & Hv).
        destruct (elect_core n i w vl t1 k1 H2 H3a Hrole HUT Hv ltac:(fold T0; lia) ltac:(lia)
                             (HQ1w w Hw2) Hterm1) as [(Hag & HkL)|(U & HU & HlU & Hna)].
        + assert (HagLp : agree p L (llog0 n T0)).
          { eapply agree_trans; [eapply agree_le; [exact Hag|lia]|]. now apply agree_sym. }
          pose proof (ccs_firstn_le is_cc L p ai) as Hc1.
          rewrite (ccs_agree is_cc _ _ p ai HagLp) in Hc1. lia.
        + apply Hna. destruct (lead n U) as [cU|] eqn:E; [|congruence].
          eapply (LC3 U cU E); eauto. lia.
    Qed.

  End LC.

End CfgInv.
