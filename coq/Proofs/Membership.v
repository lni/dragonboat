(* C07, the membership rules.  handleConfigChange is characterised once
   ([handle_spec]: an applied request has one of three shapes, a panic means a
   type outside the enum); each invariant is shown per shape and carried over
   runs by [shape_invariant_run]; [run_ind] serves where the verdicts matter.
   What does not depend on the address normalisation stands before Section
   WithNorm. *)
From DB Require Import Base.Bytes Gen.GenC07 Model.Membership.
From Coq Require Import Permutation.
Open Scope N_scope.

Lemma alookup_adelete k k' m :
  alookup k' (adelete k m) = if k =? k' then None else alookup k' m.
Proof.
  induction m as [|[k0 v] r IH]; cbn [adelete filter alookup fst].
  - destruct (k =? k'); reflexivity.
  - destruct (N.eqb_spec k0 k) as [->|Hne]; cbn [negb].
    + fold (adelete k r). rewrite IH. destruct (N.eqb_spec k k'); reflexivity.
    + cbn [alookup]. fold (adelete k r). rewrite IH.
      destruct (N.eqb_spec k0 k') as [->|]; [|reflexivity].
      destruct (N.eqb_spec k k'); [congruence|reflexivity].
Qed.

Lemma amem_adelete k k' m : amem k' (adelete k m) = negb (k =? k') && amem k' m.
Proof. unfold amem. rewrite alookup_adelete. destruct (k =? k'); reflexivity. Qed.

Lemma alookup_ainsert k v k' m :
  alookup k' (ainsert k v m) = if k =? k' then Some v else alookup k' m.
Proof.
  unfold ainsert. cbn [alookup]. rewrite alookup_adelete. destruct (k =? k'); reflexivity.
Qed.

Lemma amem_ainsert k v k' m : amem k' (ainsert k v m) = (k =? k') || amem k' m.
Proof. unfold amem. rewrite alookup_ainsert. destruct (k =? k'); reflexivity. Qed.

Lemma rmem_radd k k' l : rmem k' (radd k l) = (k' =? k) || rmem k' l.
Proof.
  unfold radd. destruct (rmem k l) eqn:E; [|reflexivity].
  destruct (N.eqb_spec k' k) as [->|]; [rewrite E|]; reflexivity.
Qed.

Lemma In_adelete x k m : In x (adelete k m) <-> In x m /\ fst x <> k.
Proof.
  unfold adelete. rewrite filter_In, negb_true_iff, N.eqb_neq. reflexivity.
Qed.

Lemma In_ainsert x k v m : In x (ainsert k v m) <-> x = (k, v) \/ (In x m /\ fst x <> k).
Proof. unfold ainsert. cbn [In]. rewrite In_adelete. intuition congruence. Qed.

Lemma alookup_In k v m : alookup k m = Some v -> In (k, v) m.
Proof.
  induction m as [|[k0 v0] r IH]; cbn; [discriminate|].
  destruct (N.eqb_spec k0 k) as [->|]; intros H; [inversion H; auto|auto].
Qed.

Lemma amem_alookup_none k m : amem k m = false <-> alookup k m = None.
Proof. unfold amem. destruct (alookup k m); intuition discriminate. Qed.

Definition keys (m : amap) : list N := map fst m.
Definition nodup_keys (m : amap) : Prop := NoDup (keys m).

Lemma amem_keys k m : amem k m = true <-> In k (keys m).
Proof.
  unfold amem, keys. induction m as [|[k0 v0] r IH]; cbn; [intuition discriminate|].
  destruct (N.eqb_spec k0 k); [intuition|]. rewrite IH. intuition.
Qed.

Lemma In_amem k v m : In (k, v) m -> amem k m = true.
Proof. intros H. apply amem_keys. exact (in_map fst _ _ H). Qed.

Lemma amem_false_notin k m : amem k m = false -> forall v, ~ In (k, v) m.
Proof. intros H v Hin. apply In_amem in Hin. congruence. Qed.

Lemma In_alookup_nodup k v m : nodup_keys m -> In (k, v) m -> alookup k m = Some v.
Proof.
  induction m as [|[k0 v0] r IH]; cbn; [tauto|].
  intros Hnd [H|H]; inversion Hnd as [|? ? Hnotin Hnd']; subst.
  - inversion H; subst. rewrite N.eqb_refl. reflexivity.
  - destruct (N.eqb_spec k0 k) as [->|]; [|auto].
    destruct Hnotin. exact (in_map fst _ _ H).
Qed.

Lemma amem_false_adelete k m : amem k m = false -> adelete k m = m.
Proof.
  unfold amem. induction m as [|[k0 v0] r IH]; cbn; [reflexivity|].
  destruct (N.eqb_spec k0 k); cbn; [discriminate|]. intros H. f_equal. apply IH, H.
Qed.

Lemma keys_adelete k m : keys (adelete k m) = filter (fun x => negb (x =? k)) (keys m).
Proof.
  induction m as [|[k0 v] r IH]; [reflexivity|].
  cbn. destruct (k0 =? k); cbn; [|f_equal]; exact IH.
Qed.

Lemma nodup_keys_adelete k m : nodup_keys m -> nodup_keys (adelete k m).
Proof. unfold nodup_keys. rewrite keys_adelete. apply NoDup_filter. Qed.

Lemma nodup_keys_ainsert k v m : nodup_keys m -> nodup_keys (ainsert k v m).
Proof.
  intros H. constructor; [|apply nodup_keys_adelete, H].
  fold (keys (adelete k m)). rewrite keys_adelete, filter_In, N.eqb_refl. intros [_ E]. discriminate.
Qed.

Lemma length_adelete_mem k m :
  nodup_keys m -> amem k m = true -> S (length (adelete k m)) = length m.
Proof.
  unfold nodup_keys, keys. induction m as [|[k0 v0] r IH]; cbn.
  - unfold amem; cbn; discriminate.
  - intros Hnd Hm. inversion Hnd as [|? ? Hnotin Hnd']; subst.
    destruct (N.eqb_spec k0 k) as [->|Hne]; cbn.
    + f_equal. fold (adelete k r). rewrite amem_false_adelete; [reflexivity|].
      destruct (amem k r) eqn:E; [|reflexivity]. apply amem_keys in E. tauto.
    + f_equal. apply IH; [exact Hnd'|].
      unfold amem in *. cbn in Hm. destruct (N.eqb_spec k0 k); [congruence|exact Hm].
Qed.

Lemma bytes_eqb_spec a b : bytes_eqb a b = true <-> a = b.
Proof.
  revert b. induction a as [|x a IH]; destruct b as [|y b]; cbn; try (intuition congruence).
  rewrite andb_true_iff, N.eqb_eq, IH. intuition congruence.
Qed.

Definition unknown_type (t : Z) : Prop :=
  (t =? cc_add_node)%Z = false /\ (t =? cc_remove_node)%Z = false /\
  (t =? cc_add_non_voting)%Z = false /\ (t =? cc_add_witness)%Z = false.

Definition add_type (k : kind) : Z :=
  match k with Voting => cc_add_node | NonVoting => cc_add_non_voting | Witness => cc_add_witness end.

(* the values of the enum are distinct: this is all the proofs use of them *)
Lemma tests_add_node t : t = cc_add_node ->
  (t =? cc_add_node)%Z = true /\ (t =? cc_remove_node)%Z = false /\
  (t =? cc_add_non_voting)%Z = false /\ (t =? cc_add_witness)%Z = false.
Proof. intros ->. vm_compute. auto. Qed.
Lemma tests_remove_node t : t = cc_remove_node ->
  (t =? cc_add_node)%Z = false /\ (t =? cc_remove_node)%Z = true /\
  (t =? cc_add_non_voting)%Z = false /\ (t =? cc_add_witness)%Z = false.
Proof. intros ->. vm_compute. auto. Qed.

(* a request type is the add of some kind, the remove, or none of the four;
   each case with what the four tests of the code then answer *)
Inductive type_case (t : Z) : Type :=
| IsAdd k : t = add_type k ->
    (t =? cc_add_node)%Z = match k with Voting => true | _ => false end /\
    (t =? cc_remove_node)%Z = false /\
    (t =? cc_add_non_voting)%Z = match k with NonVoting => true | _ => false end /\
    (t =? cc_add_witness)%Z = match k with Witness => true | _ => false end -> type_case t
| IsRemove : t = cc_remove_node ->
    (t =? cc_add_node)%Z = false /\ (t =? cc_remove_node)%Z = true /\
    (t =? cc_add_non_voting)%Z = false /\ (t =? cc_add_witness)%Z = false -> type_case t
| IsUnknown : unknown_type t -> type_case t.

Lemma type_case_of t : type_case t.
Proof.
  destruct (Z.eqb_spec t cc_add_node) as [->|];
    [apply (IsAdd _ Voting); [reflexivity|vm_compute; auto]|].
  destruct (Z.eqb_spec t cc_remove_node) as [E|];
    [exact (IsRemove _ E (tests_remove_node _ E))|].
  destruct (Z.eqb_spec t cc_add_non_voting) as [->|];
    [apply (IsAdd _ NonVoting); [reflexivity|vm_compute; auto]|].
  destruct (Z.eqb_spec t cc_add_witness) as [->|];
    [apply (IsAdd _ Witness); [reflexivity|vm_compute; auto]|].
  apply IsUnknown; repeat split; apply Z.eqb_neq; assumption.
Qed.

Definition valid_type (t : Z) : Prop :=
  t = cc_add_node \/ t = cc_remove_node \/ t = cc_add_non_voting \/ t = cc_add_witness.

Lemma valid_not_unknown t : valid_type t -> ~ unknown_type t.
Proof.
  intros [->|[->|[->| ->]]] (U1 & U2 & U3 & U4);
    [vm_compute in U1|vm_compute in U2|vm_compute in U3|vm_compute in U4]; discriminate.
Qed.

Lemma standing m id :
  (kind_of m id, addr_of m id) =
  match alookup id (m_addresses m), alookup id (m_nonvotings m), alookup id (m_witnesses m) with
  | Some a, _, _ => (Some Voting, Some a)
  | None, Some a, _ => (Some NonVoting, Some a)
  | None, None, Some a => (Some Witness, Some a)
  | None, None, None => (None, None)
  end.
Proof.
  unfold kind_of, addr_of, amem.
  destruct (alookup id (m_addresses m)), (alookup id (m_nonvotings m)), (alookup id (m_witnesses m));
    reflexivity.
Qed.

Lemma kind_of_none m id :
  kind_of m id = None <->
  amem id (m_addresses m) = false /\ amem id (m_nonvotings m) = false /\ amem id (m_witnesses m) = false.
Proof.
  unfold kind_of.
  destruct (amem id (m_addresses m)), (amem id (m_nonvotings m)), (amem id (m_witnesses m));
    intuition discriminate.
Qed.

Lemma kind_addr_none m id : kind_of m id = None <-> addr_of m id = None.
Proof.
  unfold kind_of, addr_of, amem.
  destruct (alookup id (m_addresses m)); [split; discriminate|].
  destruct (alookup id (m_nonvotings m)); [split; discriminate|].
  destruct (alookup id (m_witnesses m)); split; (discriminate || reflexivity).
Qed.

Definition kinds_disjoint_inv (m : membership) : Prop :=
  forall id,
    (amem id (m_addresses m) && amem id (m_nonvotings m) = false) /\
    (amem id (m_addresses m) && amem id (m_witnesses m) = false) /\
    (amem id (m_nonvotings m) && amem id (m_witnesses m) = false).

(* used through [removed_disjoint_kind]: a removed id has no kind *)
Definition removed_disjoint_inv (m : membership) : Prop :=
  forall id, rmem id (m_removed m)
             && (amem id (m_addresses m) || amem id (m_nonvotings m) || amem id (m_witnesses m)) = false.

Lemma removed_disjoint_kind m :
  removed_disjoint_inv m <-> forall id, rmem id (m_removed m) = true -> kind_of m id = None.
Proof.
  split; intros H id; specialize (H id); rewrite kind_of_none in *;
    destruct (rmem id (m_removed m)); cbn [andb] in *.
  - rewrite !orb_false_iff in H. tauto.
  - discriminate.
  - destruct (H eq_refl) as (-> & -> & ->). reflexivity.
  - reflexivity.
Qed.

Definition voters_inv (m : membership) : Prop :=
  nodup_keys (m_addresses m) /\ m_addresses m <> [].

(* Go maps have unique keys by construction; the model's lists keep them *)
Definition nodup_inv (m : membership) : Prop :=
  nodup_keys (m_addresses m) /\ nodup_keys (m_nonvotings m) /\ nodup_keys (m_witnesses m).

Fixpoint last_applied (d : N) (reqs : list req) (vs : list verdict) : N :=
  match reqs, vs with
  | r :: reqs', v :: vs' =>
      last_applied (match v with VApplied => snd r | _ => d end) reqs' vs'
  | _, _ => d
  end.

Definition has_panic (vs : list verdict) : bool :=
  existsb (fun v => match v with VPanic => true | _ => false end) vs.

Fixpoint idx_increasing (lo : N) (reqs : list req) : Prop :=
  match reqs with
  | [] => True
  | r :: rest => lo < snd r /\ idx_increasing (snd r) rest
  end.

(* ConfigChangeIDs carried by the applied requests that are not Initialize *)
Fixpoint applied_ccids (reqs : list req) (vs : list verdict) : list N :=
  match reqs, vs with
  | r :: reqs', v :: vs' =>
      match v with
      | VApplied => if cc_init (fst r) then applied_ccids reqs' vs'
                    else cc_ccid (fst r) :: applied_ccids reqs' vs'
      | _ => applied_ccids reqs' vs'
      end
  | _, _ => []
  end.

Lemma up_to_date_ordered m c :
  is_up_to_date true m c = true -> cc_init c = false -> m_ccid m = cc_ccid c.
Proof.
  unfold is_up_to_date. intros H Hi. rewrite Hi in H. cbn in H.
  destruct (N.eqb_spec (m_ccid m) (cc_ccid c)); [assumption|discriminate].
Qed.

(* The outcome depends on the content of the maps only.  Two replicas hold
   the same abstract membership in Go maps whose internal layout / iteration
   order differ (and differ from run to run); in the model: association lists
   with the same lookups but any order. *)
Definition amap_equiv (a b : amap) : Prop := forall k, alookup k a = alookup k b.
Definition mequiv (m1 m2 : membership) : Prop :=
  m_ccid m1 = m_ccid m2 /\
  amap_equiv (m_addresses m1) (m_addresses m2) /\
  amap_equiv (m_nonvotings m1) (m_nonvotings m2) /\
  amap_equiv (m_witnesses m1) (m_witnesses m2) /\
  (forall k, rmem k (m_removed m1) = rmem k (m_removed m2)).

Lemma mequiv_refl m : mequiv m m.
Proof. repeat split. Qed.

Lemma amem_equiv a b k : amap_equiv a b -> amem k a = amem k b.
Proof. unfold amem. intros H. rewrite H. reflexivity. Qed.

Lemma alen_equiv m1 m2 :
  nodup_keys m1 -> nodup_keys m2 -> amap_equiv m1 m2 -> alen m1 = alen m2.
Proof.
  intros H1 H2 He. unfold alen, nlen. f_equal.
  rewrite <- (map_length fst m1), <- (map_length fst m2).
  apply Permutation_length, NoDup_Permutation; [exact H1|exact H2|].
  intros x. fold (keys m1) (keys m2). rewrite <- !amem_keys, (amem_equiv _ _ x He). reflexivity.
Qed.

Lemma ainsert_equiv k v a b : amap_equiv a b -> amap_equiv (ainsert k v a) (ainsert k v b).
Proof. intros H k'. rewrite !alookup_ainsert, H. reflexivity. Qed.
Lemma adelete_equiv k a b : amap_equiv a b -> amap_equiv (adelete k a) (adelete k b).
Proof. intros H k'. rewrite !alookup_adelete, H. reflexivity. Qed.

Lemma cc_reqs_app l1 l2 : cc_reqs (l1 ++ l2) = cc_reqs l1 ++ cc_reqs l2.
Proof.
  induction l1 as [|[e i] rest IH]; [reflexivity|].
  destruct e; cbn; rewrite IH; reflexivity.
Qed.

Section WithNorm.
  Variable norm : addr -> addr.

  Lemma address_equal_spec a b : address_equal norm a b = true <-> norm a = norm b.
  Proof. unfold address_equal. apply bytes_eqb_spec. Qed.

  Lemma address_equal_refl a : address_equal norm a a = true.
  Proof. apply address_equal_spec. reflexivity. Qed.

  Lemma address_equal_sym a b : address_equal norm a b = address_equal norm b a.
  Proof. apply eq_true_iff_eq. rewrite !address_equal_spec. split; congruence. Qed.

  Lemma address_equal_trans a b c :
    address_equal norm a b = true -> address_equal norm b c = true -> address_equal norm a c = true.
  Proof. rewrite !address_equal_spec. congruence. Qed.

  Lemma address_equal_false_l a b c :
    address_equal norm a b = true -> address_equal norm a c = false -> address_equal norm b c = false.
  Proof.
    intros H1 H2. destruct (address_equal norm b c) eqn:E; [|reflexivity].
    rewrite (address_equal_trans _ _ _ H1 E) in H2. discriminate.
  Qed.

  Lemma addr_in_use_false a mp :
    addr_in_use norm a mp = false <-> forall k v, In (k, v) mp -> address_equal norm v a = false.
  Proof.
    unfold addr_in_use. induction mp as [|[k0 v0] r IH]; cbn.
    - intuition.
    - rewrite orb_false_iff, IH. split.
      + intros [H1 H2] k v [Heq|Hin]; [inversion Heq; subst; exact H1|eauto].
      + intros H. split; eauto.
  Qed.

  Lemma accepted_true ordered m c :
    accepted norm ordered m c = true ->
    is_up_to_date ordered m c = true /\
    is_add_removed_node m c = false /\
    is_add_existing_member norm m c = false /\
    is_add_node_as_non_voting m c = false /\
    is_add_node_as_witness m c = false /\
    is_add_witness_as_node m c = false /\
    is_add_witness_as_non_voting m c = false /\
    is_add_non_voting_as_witness m c = false /\
    is_delete_only_node m c = false /\
    is_invalid_non_voting_promotion norm m c = false.
  Proof.
    unfold accepted. intros H.
    do 9 (apply andb_prop in H; destruct H as [H ?H]).
    repeat split; try apply negb_true_iff; assumption.
  Qed.

  (* the panic "rejected for unknown reasons" is unreachable *)
  Lemma reject_reason_some ordered m c :
    accepted norm ordered m c = false -> exists r, reject_reason norm ordered m c = Some r.
  Proof.
    unfold accepted, reject_reason.
    destruct (is_up_to_date ordered m c); cbn [negb andb]; [|eauto].
    destruct (is_add_removed_node m c); cbn [negb andb]; [eauto|].
    destruct (is_add_existing_member norm m c); cbn [negb andb]; [eauto|].
    destruct (is_add_node_as_non_voting m c); cbn [negb andb]; [eauto|].
    destruct (is_add_node_as_witness m c); cbn [negb andb]; [eauto|].
    destruct (is_add_witness_as_node m c); cbn [negb andb]; [eauto|].
    destruct (is_add_witness_as_non_voting m c); cbn [negb andb]; [eauto|].
    destruct (is_add_non_voting_as_witness m c); cbn [negb andb]; [eauto|].
    destruct (is_delete_only_node m c); cbn [negb andb]; [eauto|].
    destruct (is_invalid_non_voting_promotion norm m c); cbn [negb andb]; [eauto|].
    discriminate.
  Qed.

  (* a request that fails the first test or trips one of the nine others (in the
     order of [rule_vector]) is rejected, membership untouched *)
  Lemma rule_rejects ordered m c i :
    is_up_to_date ordered m c = false \/ In true (tl (rule_vector norm ordered m c)) ->
    step norm ordered m (c, i) = (m, VRejected).
  Proof.
    intros H.
    assert (Hacc : accepted norm ordered m c = false).
    { unfold accepted. cbn [rule_vector tl In] in H.
      destruct H as [->|[->|[->|[->|[->|[->|[->|[->|[->|[->|[]]]]]]]]]]];
        cbn [negb]; rewrite ?andb_false_r; reflexivity. }
    unfold step, handle. cbn [fst snd]. rewrite Hacc.
    destruct (reject_reason_some _ _ _ Hacc) as [r ->]. reflexivity.
  Qed.

  Definition fresh_id (m : membership) (id : N) : Prop :=
    alookup id (m_addresses m) = None /\ alookup id (m_nonvotings m) = None /\
    alookup id (m_witnesses m) = None /\ rmem id (m_removed m) = false.
  Definition fresh_addr (m : membership) (a : addr) : Prop :=
    addr_in_use norm a (m_addresses m) = false /\ addr_in_use norm a (m_nonvotings m) = false /\
    addr_in_use norm a (m_witnesses m) = false.

  (* an AddNode for the non-voting replica [id] under a spelling of its address *)
  Definition promotion (m : membership) (c : cc) (id : N) : Prop :=
    id = cc_replica c /\ cc_type c = cc_add_node /\
    exists oa, alookup id (m_nonvotings m) = Some oa /\ address_equal norm oa (cc_addr c) = true.

  Definition joined (i id : N) (a : addr) (k : kind) (m : membership) : membership :=
    match k with
    | Voting => mkM i (ainsert id a (m_addresses m)) (m_removed m) (m_nonvotings m) (m_witnesses m)
    | NonVoting => mkM i (m_addresses m) (m_removed m) (ainsert id a (m_nonvotings m)) (m_witnesses m)
    | Witness => mkM i (m_addresses m) (m_removed m) (m_nonvotings m) (ainsert id a (m_witnesses m))
    end.

  Inductive applied_shape (m : membership) (c : cc) (i : N) (m' : membership) : Prop :=
  | ShapeJoin k :
      cc_type c = add_type k -> fresh_id m (cc_replica c) -> fresh_addr m (cc_addr c) ->
      m' = joined i (cc_replica c) (cc_addr c) k m ->
      applied_shape m c i m'
  | ShapePromote :
      promotion m c (cc_replica c) ->
      alookup (cc_replica c) (m_addresses m) = None ->
      alookup (cc_replica c) (m_witnesses m) = None ->
      rmem (cc_replica c) (m_removed m) = false ->
      m' = mkM i (ainsert (cc_replica c) (cc_addr c) (m_addresses m)) (m_removed m)
               (adelete (cc_replica c) (m_nonvotings m)) (m_witnesses m) ->
      applied_shape m c i m'
  | ShapeRemove :
      cc_type c = cc_remove_node ->
      (alen (m_addresses m) = 1 -> amem (cc_replica c) (m_addresses m) = false) ->
      m' = mkM i (adelete (cc_replica c) (m_addresses m)) (radd (cc_replica c) (m_removed m))
               (adelete (cc_replica c) (m_nonvotings m)) (adelete (cc_replica c) (m_witnesses m)) ->
      applied_shape m c i m'.

  Lemma fresh_addr_of_tests m a :
    addr_in_use norm a (m_addresses m) || addr_in_use norm a (m_nonvotings m)
      || addr_in_use norm a (m_witnesses m) = false -> fresh_addr m a.
  Proof. rewrite !orb_false_iff. unfold fresh_addr. tauto. Qed.

  Lemma accepted_apply ordered m c i :
    accepted norm ordered m c = true ->
    match apply_cc m c i with
    | AOk m' => applied_shape m c i m'
    | APanic t => t = panic_unknown_type /\ unknown_type (cc_type c)
    end.
  Proof.
    intros Hacc. apply accepted_true in Hacc.
    destruct Hacc as (_ & Hrem & Hex & Hnv & Hnw & Hwn & Hwnv & Hnvw & Hdel & Hinv).
    unfold is_add_removed_node, is_add_existing_member, is_promote_non_voting,
      is_add_node_as_non_voting, is_add_node_as_witness, is_add_witness_as_node,
      is_add_witness_as_non_voting, is_add_non_voting_as_witness, is_delete_only_node,
      is_invalid_non_voting_promotion, is_add_type, amem in *.
    unfold apply_cc, amem.
    destruct (type_case_of (cc_type c)) as [k Ht (E1 & E2 & E3 & E4)|Ht (E1 & E2 & E3 & E4)|Hu].
    - rewrite ?E1, ?E2, ?E3, ?E4 in *. destruct k; cbn [andb orb negb] in *;
        (destruct (alookup (cc_replica c) (m_addresses m)) eqn:HA; [discriminate|]);
        (destruct (alookup (cc_replica c) (m_witnesses m)) eqn:HW; [discriminate|]);
        destruct (alookup (cc_replica c) (m_nonvotings m)) as [oa|] eqn:HN; try discriminate.
      (* left: AddNode of a non-voting member, then the id absent from all three maps for each k *)
      1: destruct (address_equal norm oa (cc_addr c)) eqn:HE; [|discriminate];
        apply ShapePromote; unfold promotion; eauto 6.
      1: rewrite (amem_false_adelete _ _ (proj2 (amem_alookup_none _ _) HN)).
      all: eapply ShapeJoin;
        [exact Ht|repeat split; assumption|apply fresh_addr_of_tests, Hex|reflexivity].
    - rewrite E1, E2, E3, E4. rewrite E2 in Hdel.
      apply ShapeRemove; [exact Ht| |reflexivity].
      intros Hlen. apply N.eqb_eq in Hlen. rewrite Hlen in Hdel. exact Hdel.
    - pose proof Hu as (E1 & E2 & E3 & E4). rewrite E1, E2, E3, E4. auto.
  Qed.

  Lemma handle_spec ordered m c i :
    match handle norm ordered m c i with
    | Applied m' => is_up_to_date ordered m c = true /\ applied_shape m c i m'
    | Rejected _ => accepted norm ordered m c = false
    | Panicked t => t = panic_unknown_type /\ is_up_to_date ordered m c = true /\
                    unknown_type (cc_type c)
    end.
  Proof.
    unfold handle. destruct (accepted norm ordered m c) eqn:Hacc.
    - pose proof (accepted_apply ordered m c i Hacc) as Ha. apply accepted_true in Hacc.
      destruct (apply_cc m c i); tauto.
    - destruct (reject_reason_some _ _ _ Hacc) as [r ->]. reflexivity.
  Qed.

  Lemma step_cases ordered m r :
    (exists m', step norm ordered m r = (m', VApplied) /\
                is_up_to_date ordered m (fst r) = true /\ applied_shape m (fst r) (snd r) m')
    \/ step norm ordered m r = (m, VRejected)
    \/ (step norm ordered m r = (m, VPanic) /\ unknown_type (cc_type (fst r))).
  Proof.
    unfold step. pose proof (handle_spec ordered m (fst r) (snd r)) as H.
    destruct (handle norm ordered m (fst r) (snd r)); [left; eauto|auto|tauto].
  Qed.

  Lemma run_ind ordered (P : membership -> list req -> membership -> list verdict -> Prop) :
    (forall m, P m [] m []) ->
    (forall m r rest, unknown_type (cc_type (fst r)) -> P m (r :: rest) m [VPanic]) ->
    (forall m r rest m2 vs,
       run norm ordered m rest = (m2, vs) -> P m rest m2 vs -> P m (r :: rest) m2 (VRejected :: vs)) ->
    (forall m r rest m1 m2 vs,
       is_up_to_date ordered m (fst r) = true -> applied_shape m (fst r) (snd r) m1 ->
       run norm ordered m1 rest = (m2, vs) -> P m1 rest m2 vs -> P m (r :: rest) m2 (VApplied :: vs)) ->
    forall reqs m, P m reqs (fst (run norm ordered m reqs)) (snd (run norm ordered m reqs)).
  Proof.
    intros Hnil Hpanic Hrej Happ. induction reqs as [|r rest IH]; intros m; [apply Hnil|].
    cbn [run].
    destruct (step_cases ordered m r) as [(m1 & Hs & Hup & Hsh)|[Hs|[Hs Hu]]]; rewrite Hs.
    - specialize (IH m1). destruct (run norm ordered m1 rest) eqn:Hr. eapply Happ; eassumption.
    - specialize (IH m). destruct (run norm ordered m rest) eqn:Hr. apply Hrej; assumption.
    - apply Hpanic; assumption.
  Qed.

  Lemma shape_invariant_run (P : membership -> Prop) ordered :
    (forall m c i m', P m -> applied_shape m c i m' -> P m') ->
    forall reqs m, P m -> P (fst (run norm ordered m reqs)).
  Proof.
    intros Hshape reqs m. apply (run_ind ordered (fun m _ m2 _ => P m -> P m2)); eauto.
  Qed.

  Lemma shape_other m c i m' id :
    applied_shape m c i m' -> cc_replica c <> id ->
    alookup id (m_addresses m') = alookup id (m_addresses m) /\
    alookup id (m_nonvotings m') = alookup id (m_nonvotings m) /\
    alookup id (m_witnesses m') = alookup id (m_witnesses m) /\
    rmem id (m_removed m') = rmem id (m_removed m).
  Proof.
    intros Hs Hne. pose proof (proj2 (N.eqb_neq _ _) Hne) as E.
    assert (E' : id =? cc_replica c = false) by (rewrite N.eqb_sym; exact E).
    destruct Hs as [[| |] _ _ _ ->|_ _ _ _ ->|_ _ ->];
      cbn [joined m_addresses m_nonvotings m_witnesses m_removed];
      rewrite ?alookup_ainsert, ?alookup_adelete, ?rmem_radd, ?E, ?E'; auto.
  Qed.

  (* what a change does to the standing of one id: its kind, its address,
     whether it is in the removed set *)
  Inductive id_change (m m' : membership) (c : cc) (id : N) : Prop :=
  | Untouched :
      kind_of m' id = kind_of m id -> addr_of m' id = addr_of m id ->
      rmem id (m_removed m') = rmem id (m_removed m) -> id_change m m' c id
  | Joined k :
      kind_of m id = None -> rmem id (m_removed m) = false -> rmem id (m_removed m') = false ->
      kind_of m' id = Some k -> addr_of m' id = Some (cc_addr c) -> id_change m m' c id
  | Promoted :
      promotion m c id -> kind_of m id = Some NonVoting ->
      (forall a, addr_of m id = Some a -> address_equal norm a (cc_addr c) = true) ->
      rmem id (m_removed m) = false -> rmem id (m_removed m') = false ->
      kind_of m' id = Some Voting -> addr_of m' id = Some (cc_addr c) -> id_change m m' c id
  | Left :
      kind_of m' id = None -> rmem id (m_removed m') = true -> id_change m m' c id.

  Lemma shape_id_change m c i m' id : applied_shape m c i m' -> id_change m m' c id.
  Proof.
    intros Hs. destruct (N.eq_dec (cc_replica c) id) as [<-|Hne].
    2:{ destruct (shape_other _ _ _ _ _ Hs Hne) as (EA & EN & EW & ER).
        apply Untouched; [unfold kind_of, amem|unfold addr_of|exact ER]; rewrite EA, EN, EW; reflexivity. }
    pose proof (standing m (cc_replica c)) as S. pose proof (standing m' (cc_replica c)) as S'.
    destruct Hs as [[| |] _ (HA & HN & HW & HR) _ ->|Hp HA HW HR ->|_ _ ->];
      try (pose proof Hp as (_ & _ & oa & HN & HE));
      cbn [joined m_addresses m_nonvotings m_witnesses] in S';
      rewrite ?alookup_ainsert, ?alookup_adelete, ?N.eqb_refl, ?HA, ?HN, ?HW in S';
      rewrite ?HA, ?HN, ?HW in S;
      injection S' as Sk Sa.
    1-3: injection S as Sk0 _; refine (Joined _ _ _ _ _ Sk0 HR _ Sk Sa); exact HR.
    - injection S as Sk0 Sa0. refine (Promoted _ _ _ _ Hp Sk0 _ HR _ Sk Sa); [|exact HR]. intros a Ea. congruence.
    - apply Left; [assumption|]. cbn [m_removed]. rewrite rmem_radd, N.eqb_refl. reflexivity.
  Qed.

  Lemma kinds_disjoint_shape m c i m' :
    kinds_disjoint_inv m -> applied_shape m c i m' -> kinds_disjoint_inv m'.
  Proof.
    intros Hinv Hs id. destruct (N.eq_dec (cc_replica c) id) as [<-|Hne].
    2:{ destruct (shape_other _ _ _ _ _ Hs Hne) as (EA & EN & EW & _).
        unfold amem. rewrite EA, EN, EW. apply Hinv. }
    destruct Hs as [[| |] _ (HA & HN & HW & _) _ ->|(_ & _ & oa & HN & _) HA HW _ ->|_ _ ->];
      unfold amem; cbn [joined m_addresses m_nonvotings m_witnesses];
      rewrite ?alookup_ainsert, ?alookup_adelete, ?N.eqb_refl, ?HA, ?HN, ?HW; auto.
  Qed.

  Lemma removed_disjoint_shape m c i m' :
    removed_disjoint_inv m -> applied_shape m c i m' -> removed_disjoint_inv m'.
  Proof.
    rewrite !removed_disjoint_kind. intros Hinv Hs id Hr.
    destruct (shape_id_change _ _ _ _ id Hs) as [-> _ E|k _ _ E|_ _ _ _ E|]; try congruence.
    apply Hinv. congruence.
  Qed.

  Lemma removed_monotone_shape m c i m' id :
    applied_shape m c i m' -> rmem id (m_removed m) = true -> rmem id (m_removed m') = true.
  Proof.
    intros Hs H. destruct (shape_id_change _ _ _ _ id Hs) as [_ _ E|k _ E|_ _ _ E|_ E]; congruence.
  Qed.

  Lemma removed_permanent ordered reqs m :
    removed_disjoint_inv m ->
    removed_disjoint_inv (fst (run norm ordered m reqs)) /\
    forall id, rmem id (m_removed m) = true ->
               rmem id (m_removed (fst (run norm ordered m reqs))) = true /\
               kind_of (fst (run norm ordered m reqs)) id = None.
  Proof.
    intros Hinv.
    assert (Hfin : removed_disjoint_inv (fst (run norm ordered m reqs)))
      by (revert m Hinv; apply shape_invariant_run, removed_disjoint_shape).
    split; [exact Hfin|]. intros id Hid.
    assert (Hr : rmem id (m_removed (fst (run norm ordered m reqs))) = true).
    { clear Hinv Hfin. revert m Hid.
      apply (shape_invariant_run (fun m => rmem id (m_removed m) = true)).
      intros m0 c i m' H Hs. exact (removed_monotone_shape _ _ _ _ _ Hs H). }
    split; [exact Hr|]. apply removed_disjoint_kind; assumption.
  Qed.

  Lemma voters_shape m c i m' : voters_inv m -> applied_shape m c i m' -> voters_inv m'.
  Proof.
    intros [Hnd Hne] [[| |] _ _ _ ->|_ _ _ _ ->|_ Hd ->];
      unfold voters_inv; cbn [joined m_addresses]; auto.
    1,2: split; [apply nodup_keys_ainsert, Hnd|discriminate].
    split; [apply nodup_keys_adelete, Hnd|].
    destruct (amem (cc_replica c) (m_addresses m)) eqn:E.
    - (* the voter goes, and was not the only one *)
      pose proof (length_adelete_mem _ _ Hnd E) as Hlen. intros E0. rewrite E0 in Hlen.
      discriminate Hd. unfold alen, nlen. rewrite <- Hlen. reflexivity.
    - rewrite amem_false_adelete by exact E. exact Hne.
  Qed.

  Lemma nodup_shape m c i m' : nodup_inv m -> applied_shape m c i m' -> nodup_inv m'.
  Proof.
    intros (HA & HN & HW) [[| |] _ _ _ ->|_ _ _ _ ->|_ _ ->];
      repeat split; cbn [joined m_addresses m_nonvotings m_witnesses];
      auto using nodup_keys_ainsert, nodup_keys_adelete.
  Qed.

  Lemma shape_ccid m c i m' : applied_shape m c i m' -> m_ccid m' = i.
  Proof. intros [[| |] _ _ _ ->|_ _ _ _ ->|_ _ ->]; reflexivity. Qed.

  Lemma ccid_run ordered reqs m :
    m_ccid (fst (run norm ordered m reqs)) =
    last_applied (m_ccid m) reqs (snd (run norm ordered m reqs)).
  Proof.
    revert reqs m.
    apply (run_ind ordered (fun m reqs m2 vs => m_ccid m2 = last_applied (m_ccid m) reqs vs));
      cbn [last_applied]; auto.
    - intros m r [|? ?] _; reflexivity.
    - intros m r rest m1 m2 vs _ Hs _ ->. rewrite (shape_ccid _ _ _ _ Hs). reflexivity.
  Qed.

  Lemma step_not_applied_same ordered m r m' v :
    step norm ordered m r = (m', v) -> v <> VApplied -> m' = m.
  Proof.
    unfold step. destruct (handle norm ordered m (fst r) (snd r)); intros [= <- <-]; congruence.
  Qed.

  Lemma run_no_panic ordered reqs m :
    Forall (fun r : req => valid_type (cc_type (fst r))) reqs ->
    ~ In VPanic (snd (run norm ordered m reqs)) /\
    length (snd (run norm ordered m reqs)) = length reqs.
  Proof.
    revert reqs m.
    apply (run_ind ordered (fun _ reqs _ vs =>
             Forall (fun r : req => valid_type (cc_type (fst r))) reqs ->
             ~ In VPanic vs /\ length vs = length reqs)).
    - auto.
    - intros m r rest Hu Hv. inversion Hv; subst. destruct (valid_not_unknown _ H1 Hu).
    - intros m r rest m2 vs _ IH Hv. inversion Hv; subst. destruct (IH H2) as [IH1 IH2].
      cbn. split; [intros [?|?]; [discriminate|tauto]|congruence].
    - intros m r rest m1 m2 vs _ _ _ IH Hv. inversion Hv; subst. destruct (IH H2) as [IH1 IH2].
      cbn. split; [intros [?|?]; [discriminate|tauto]|congruence].
  Qed.

  Lemma kind_shape m c i m' id k k' :
    applied_shape m c i m' -> kind_of m id = Some k -> kind_of m' id = Some k' ->
    k = k' \/ (k = NonVoting /\ k' = Voting /\ promotion m c id).
  Proof.
    intros Hs Hk Hk'.
    destruct (shape_id_change _ _ _ _ id Hs) as [E _ _|k0 E|Hp E _ _ _ E' _|E _]; try congruence.
    - left. congruence.
    - right. split; [congruence|]. split; [congruence|exact Hp].
  Qed.

  Lemma kind_step ordered m c i m' v id k k' :
    step norm ordered m (c, i) = (m', v) ->
    kind_of m id = Some k -> kind_of m' id = Some k' -> k <> k' ->
    v = VApplied /\ k = NonVoting /\ k' = Voting /\ promotion m c id.
  Proof.
    intros Hs Hk Hk' Hne.
    destruct (step_cases ordered m (c, i)) as [(m1 & Hs1 & _ & Hsh)|[Hs1|[Hs1 _]]];
      rewrite Hs1 in Hs; inversion Hs; subst; try congruence.
    destruct (kind_shape _ _ _ _ _ _ _ Hsh Hk Hk'); tauto.
  Qed.

  Lemma gone_shape id m c i m' :
    rmem id (m_removed m) = true /\ kind_of m id = None -> applied_shape m c i m' ->
    rmem id (m_removed m') = true /\ kind_of m' id = None.
  Proof.
    intros [Hr Hk] Hs. pose proof (removed_monotone_shape _ _ _ _ id Hs Hr) as Hr'.
    split; [exact Hr'|].
    destruct (shape_id_change _ _ _ _ id Hs) as [E _ _|k0 _ _ E|_ _ _ _ E|E _]; congruence.
  Qed.

  (* A replica that is a member before and after a run was one at every step in
     between: a member that leaves is removed and no member, which no change
     undoes ([gone_shape]; no invariant of the start membership is needed).  So
     a relation that holds across every single change between two states where
     [id] is a member, and is transitive, holds across the run. *)
  Lemma member_throughout ordered id (Q : membership -> membership -> Prop) :
    (forall m, Q m m) ->
    (forall m c i m1 m2, applied_shape m c i m1 -> kind_of m1 id <> None -> Q m1 m2 -> Q m m2) ->
    forall reqs m, kind_of m id <> None ->
      kind_of (fst (run norm ordered m reqs)) id <> None -> Q m (fst (run norm ordered m reqs)).
  Proof.
    intros Hrefl Hstep.
    apply (run_ind ordered (fun m _ m2 _ => kind_of m id <> None -> kind_of m2 id <> None -> Q m m2)); auto.
    intros m r rest m1 m2 vs _ Hsh Hrun IH Hk Hk2.
    assert (Hk1 : kind_of m1 id <> None).
    { intros Hk1. destruct (shape_id_change _ _ _ _ id Hsh) as [E|k E|_ _ _ _ _ E|_ Hr]; try congruence.
      apply Hk2.
      pose proof (shape_invariant_run _ ordered (gone_shape id) rest m1 (conj Hr Hk1)) as Hp.
      rewrite Hrun in Hp. apply Hp. }
    eauto.
  Qed.

  Lemma kind_run ordered reqs m id k k' :
    kind_of m id = Some k -> kind_of (fst (run norm ordered m reqs)) id = Some k' ->
    k = k' \/ (k = NonVoting /\ k' = Voting).
  Proof.
    intros Hk Hk'.
    refine (member_throughout ordered id
              (fun m m2 => forall k k', kind_of m id = Some k -> kind_of m2 id = Some k' ->
                                        k = k' \/ (k = NonVoting /\ k' = Voting))
              _ _ reqs m _ _ k k' Hk Hk'); try congruence.
    - left. congruence.
    - intros m0 c i m1 m2 Hsh H1 IH k0 k2 H0 H2.
      destruct (kind_of m1 id) as [k1|] eqn:E1; [|congruence].
      destruct (kind_shape _ _ _ _ _ _ _ Hsh H0 E1) as [->|(-> & -> & _)]; [auto|].
      destruct (IH _ _ eq_refl H2) as [<-|[? _]]; [auto|discriminate].
  Qed.

  Lemma addr_shape m c i m' id a a' :
    applied_shape m c i m' -> addr_of m id = Some a -> addr_of m' id = Some a' ->
    address_equal norm a a' = true.
  Proof.
    intros Hs Ha Ha'.
    destruct (shape_id_change _ _ _ _ id Hs) as [_ E _|k E|_ _ HE _ _ _ E'|E _].
    - rewrite E, Ha in Ha'. inversion Ha'. apply address_equal_refl.
    - apply kind_addr_none in E. congruence.
    - rewrite E' in Ha'. inversion Ha'; subst. exact (HE _ Ha).
    - apply kind_addr_none in E. congruence.
  Qed.

  Lemma addr_run ordered reqs m id a a' :
    addr_of m id = Some a -> addr_of (fst (run norm ordered m reqs)) id = Some a' ->
    address_equal norm a a' = true.
  Proof.
    intros Ha Ha'.
    refine (member_throughout ordered id
              (fun m m2 => forall a a', addr_of m id = Some a -> addr_of m2 id = Some a' ->
                                        address_equal norm a a' = true)
              _ _ reqs m _ _ a a' Ha Ha'); try (rewrite kind_addr_none; congruence).
    - intros m0 a0 a1 H0 H1. rewrite H0 in H1. inversion H1. apply address_equal_refl.
    - intros m0 c i m1 m2 Hsh H1 IH a0 a2 H0 H2. rewrite kind_addr_none in H1.
      destruct (addr_of m1 id) as [a1|] eqn:E1; [|congruence].
      exact (address_equal_trans _ _ _ (addr_shape _ _ _ _ _ _ _ Hsh H0 E1) (IH _ _ eq_refl H2)).
  Qed.

  Definition all_members (m : membership) : amap :=
    m_addresses m ++ m_nonvotings m ++ m_witnesses m.

  Definition address_unique_inv (m : membership) : Prop :=
    forall id1 a1 id2 a2,
      In (id1, a1) (all_members m) -> In (id2, a2) (all_members m) -> id1 <> id2 ->
      address_equal norm a1 a2 = false.

  Lemma in_members m x :
    In x (all_members m) <-> In x (m_addresses m) \/ In x (m_nonvotings m) \/ In x (m_witnesses m).
  Proof. unfold all_members. rewrite !in_app_iff. reflexivity. Qed.

  Lemma fresh_addr_all m a :
    fresh_addr m a -> forall k v, In (k, v) (all_members m) -> address_equal norm a v = false.
  Proof.
    intros (H1 & H2 & H3) k v Hin. apply in_members in Hin.
    rewrite addr_in_use_false in H1, H2, H3. rewrite address_equal_sym.
    destruct Hin as [H|[H|H]]; eauto.
  Qed.

  (* the address of an applied add request is used by no other member: fresh, or
     (promotion) a spelling of the promoted replica's own *)
  Lemma add_addr_free m c i m' id2 a2 :
    address_unique_inv m -> applied_shape m c i m' -> is_add_type (cc_type c) = true ->
    In (id2, a2) (all_members m) -> id2 <> cc_replica c ->
    address_equal norm (cc_addr c) a2 = false.
  Proof.
    intros Hinv [k _ _ Hfa _|(_ & _ & oa & HN & HE) _ _ _ _|Ht _ _] Ha Hin Hne.
    - exact (fresh_addr_all _ _ Hfa _ _ Hin).
    - apply (address_equal_false_l _ _ _ HE), (Hinv (cc_replica c) oa id2 a2); auto.
      apply in_members. right; left. apply alookup_In, HN.
    - rewrite Ht in Ha. vm_compute in Ha. discriminate.
  Qed.

  Lemma shape_members m c i m' x :
    applied_shape m c i m' -> In x (all_members m') ->
    In x (all_members m) \/ (x = (cc_replica c, cc_addr c) /\ is_add_type (cc_type c) = true).
  Proof.
    intros Hs Hin. apply in_members in Hin. rewrite in_members.
    destruct Hs as [[| |] Ht _ _ ->|(_ & Ht & _) _ _ _ ->|_ _ ->];
      try (assert (Ha : is_add_type (cc_type c) = true) by (rewrite Ht; reflexivity));
      cbn [joined m_addresses m_nonvotings m_witnesses] in Hin; destruct Hin as [Hin|[Hin|Hin]];
      try apply In_ainsert in Hin; try apply In_adelete in Hin; tauto.
  Qed.

  Lemma address_unique_shape m c i m' :
    address_unique_inv m -> applied_shape m c i m' -> address_unique_inv m'.
  Proof.
    intros Hinv Hs id1 a1 id2 a2 H1 H2 Hne.
    destruct (shape_members _ _ _ _ _ Hs H1) as [O1|[E1 T1]];
      destruct (shape_members _ _ _ _ _ Hs H2) as [O2|[E2 T2]].
    - eapply Hinv; eauto.
    - inversion E2; subst. rewrite address_equal_sym. eapply add_addr_free; eauto.
    - inversion E1; subst. eapply add_addr_free; eauto.
    - congruence.
  Qed.

  Lemma used_address_rejected ordered m c i id2 a2 :
    is_add_type (cc_type c) = true ->
    In (id2, a2) (all_members m) -> id2 <> cc_replica c ->
    address_equal norm a2 (cc_addr c) = true ->
    address_unique_inv m ->
    step norm ordered m (c, i) = (m, VRejected).
  Proof.
    intros Ht Hin Hne He Hau.
    destruct (step_cases ordered m (c, i)) as [(m' & _ & _ & Hsh)|[Hs|[_ (U1 & _ & U3 & U4)]]];
      [|exact Hs|]; exfalso; cbn [fst snd] in *.
    - rewrite address_equal_sym, (add_addr_free _ _ _ _ _ _ Hau Hsh Ht Hin Hne) in He. discriminate.
    - unfold is_add_type in Ht. rewrite U1, U3, U4 in Ht. discriminate.
  Qed.

  Lemma run_app ordered l1 l2 m :
    run norm ordered m (l1 ++ l2) =
    let '(m1, v1) := run norm ordered m l1 in
    if has_panic v1 then (m1, v1)
    else let '(m2, v2) := run norm ordered (m_set (m_get m1)) l2 in (m2, v1 ++ v2).
  Proof.
    revert m. induction l1 as [|r rest IH]; intros m.
    - cbn. unfold m_set, m_get. destruct (run norm ordered m l2); reflexivity.
    - cbn [app run]. destruct (step norm ordered m r) as [m1 [| |]]; [| |reflexivity].
      1,2: rewrite IH; destruct (run norm ordered m1 rest) as [m1' v1];
        cbn [has_panic existsb orb]; fold (has_panic v1); destruct (has_panic v1); [reflexivity|];
        destruct (run norm ordered (m_set (m_get m1')) l2); reflexivity.
  Qed.

  (* [run] has no argument for the shard or the replica: its outcome is a
     function of the start membership and the log *)
  Lemma outcome_deterministic ordered reqs m1 m2 :
    m1 = m2 -> run norm ordered m1 reqs = run norm ordered m2 reqs.
  Proof. intros ->. reflexivity. Qed.

  (* an applied request carries the index of the applied request before it, and
     indexes increase: the ids applied after a state are all at or above its own *)
  Lemma one_winner_aux reqs m lo :
    m_ccid m <= lo -> idx_increasing lo reqs ->
    NoDup (applied_ccids reqs (snd (run norm true m reqs))) /\
    Forall (fun x => m_ccid m <= x) (applied_ccids reqs (snd (run norm true m reqs))).
  Proof.
    revert reqs m lo.
    apply (run_ind true (fun m reqs _ vs => forall lo, m_ccid m <= lo -> idx_increasing lo reqs ->
             NoDup (applied_ccids reqs vs) /\ Forall (fun x => m_ccid m <= x) (applied_ccids reqs vs))).
    - split; constructor.
    - intros m r [|? ?] _ lo _ _; split; constructor.
    - intros m r rest m2 vs _ IH lo Hlo [Hlt Hidx]. apply (IH (snd r)); [lia|exact Hidx].
    - intros m r rest m1 m2 vs Hup Hsh _ IH lo Hlo [Hlt Hidx].
      rewrite (shape_ccid _ _ _ _ Hsh) in IH. destruct (IH (snd r) (N.le_refl _) Hidx) as [IHnd IHall].
      assert (Hall : Forall (fun x => m_ccid m <= x) (applied_ccids rest vs))
        by (revert IHall; apply Forall_impl; intros x Hx; lia).
      cbn [applied_ccids]. destruct (cc_init (fst r)) eqn:Hinit; [auto|].
      rewrite <- (up_to_date_ordered _ _ Hup Hinit). split; constructor; auto using N.le_refl.
      intros Hin. rewrite Forall_forall in IHall. specialize (IHall _ Hin). lia.
  Qed.

  Lemma addr_in_use_equiv_imp a m1 m2 :
    nodup_keys m1 -> amap_equiv m1 m2 -> addr_in_use norm a m1 = true -> addr_in_use norm a m2 = true.
  Proof.
    intros Hnd He. unfold addr_in_use. rewrite !existsb_exists.
    intros ([k v] & Hin & Ha). exists (k, v). split; [|exact Ha].
    apply alookup_In. rewrite <- He. apply In_alookup_nodup; assumption.
  Qed.

  Lemma addr_in_use_equiv a m1 m2 :
    nodup_keys m1 -> nodup_keys m2 -> amap_equiv m1 m2 ->
    addr_in_use norm a m1 = addr_in_use norm a m2.
  Proof.
    intros H1 H2 He. apply eq_true_iff_eq.
    split; apply addr_in_use_equiv_imp; auto. intros k. symmetry. apply He.
  Qed.

  (* each of the ten tests reads the maps through lookups, membership of a key,
     the number of keys and the set of addresses only *)
  Lemma accepted_equiv ordered m1 m2 c :
    nodup_inv m1 -> nodup_inv m2 -> mequiv m1 m2 ->
    accepted norm ordered m1 c = accepted norm ordered m2 c /\
    reject_reason norm ordered m1 c = reject_reason norm ordered m2 c.
  Proof.
    intros (NA1 & NN1 & NW1) (NA2 & NN2 & NW2) (Hc & HA & HN & HW & HR).
    assert (P1 : is_up_to_date ordered m1 c = is_up_to_date ordered m2 c)
      by (unfold is_up_to_date; rewrite Hc; reflexivity).
    assert (P2 : is_add_removed_node m1 c = is_add_removed_node m2 c)
      by (unfold is_add_removed_node; rewrite HR; reflexivity).
    assert (Pp : is_promote_non_voting norm m1 c = is_promote_non_voting norm m2 c)
      by (unfold is_promote_non_voting; rewrite HN; reflexivity).
    assert (P3 : is_add_existing_member norm m1 c = is_add_existing_member norm m2 c).
    { unfold is_add_existing_member.
      rewrite Pp, (amem_equiv _ _ _ HA), (amem_equiv _ _ _ HN), (amem_equiv _ _ _ HW),
        (addr_in_use_equiv _ _ _ NA1 NA2 HA), (addr_in_use_equiv _ _ _ NN1 NN2 HN),
        (addr_in_use_equiv _ _ _ NW1 NW2 HW). reflexivity. }
    assert (P4 : is_add_node_as_non_voting m1 c = is_add_node_as_non_voting m2 c)
      by (unfold is_add_node_as_non_voting; rewrite (amem_equiv _ _ _ HA); reflexivity).
    assert (P5 : is_add_node_as_witness m1 c = is_add_node_as_witness m2 c)
      by (unfold is_add_node_as_witness; rewrite (amem_equiv _ _ _ HA); reflexivity).
    assert (P6 : is_add_witness_as_node m1 c = is_add_witness_as_node m2 c)
      by (unfold is_add_witness_as_node; rewrite (amem_equiv _ _ _ HW); reflexivity).
    assert (P7 : is_add_witness_as_non_voting m1 c = is_add_witness_as_non_voting m2 c)
      by (unfold is_add_witness_as_non_voting; rewrite (amem_equiv _ _ _ HW); reflexivity).
    assert (P8 : is_add_non_voting_as_witness m1 c = is_add_non_voting_as_witness m2 c)
      by (unfold is_add_non_voting_as_witness; rewrite (amem_equiv _ _ _ HN); reflexivity).
    assert (P9 : is_delete_only_node m1 c = is_delete_only_node m2 c)
      by (unfold is_delete_only_node; rewrite (alen_equiv _ _ NA1 NA2 HA), (amem_equiv _ _ _ HA); reflexivity).
    assert (P10 : is_invalid_non_voting_promotion norm m1 c = is_invalid_non_voting_promotion norm m2 c)
      by (unfold is_invalid_non_voting_promotion; rewrite HN; reflexivity).
    unfold accepted, reject_reason.
    rewrite P1, P2, P3, P4, P5, P6, P7, P8, P9, P10. split; reflexivity.
  Qed.

  Definition apply_result_equiv (r1 r2 : apply_result) : Prop :=
    match r1, r2 with
    | AOk a, AOk b => mequiv a b
    | APanic t1, APanic t2 => t1 = t2
    | _, _ => False
    end.

  Lemma apply_equiv m1 m2 c i :
    mequiv m1 m2 -> apply_result_equiv (apply_cc m1 c i) (apply_cc m2 c i).
  Proof.
    intros (Hc & HA & HN & HW & HR). unfold apply_cc.
    rewrite !(amem_equiv _ _ _ HA), !(amem_equiv _ _ _ HN), !(amem_equiv _ _ _ HW).
    destruct (cc_type c =? cc_add_node)%Z.
    { destruct (amem (cc_replica c) (m_witnesses m2)); cbn; [reflexivity|].
      repeat split; cbn; auto using ainsert_equiv, adelete_equiv. }
    destruct (cc_type c =? cc_add_non_voting)%Z.
    { destruct (amem (cc_replica c) (m_addresses m2)); cbn; [reflexivity|].
      repeat split; cbn; auto using ainsert_equiv. }
    destruct (cc_type c =? cc_add_witness)%Z.
    { destruct (amem (cc_replica c) (m_addresses m2)); cbn; [reflexivity|].
      destruct (amem (cc_replica c) (m_nonvotings m2)); cbn; [reflexivity|].
      repeat split; cbn; auto using ainsert_equiv. }
    destruct (cc_type c =? cc_remove_node)%Z; cbn [apply_result_equiv]; [|reflexivity].
    repeat split; cbn [m_addresses m_nonvotings m_witnesses m_removed]; auto using adelete_equiv.
    intros k. rewrite !rmem_radd, HR. reflexivity.
  Qed.

  Lemma step_equiv ordered m1 m2 r :
    nodup_inv m1 -> nodup_inv m2 -> mequiv m1 m2 ->
    snd (step norm ordered m1 r) = snd (step norm ordered m2 r) /\
    mequiv (fst (step norm ordered m1 r)) (fst (step norm ordered m2 r)).
  Proof.
    intros N1 N2 He. unfold step, handle.
    destruct (accepted_equiv ordered m1 m2 (fst r) N1 N2 He) as [-> ->].
    destruct (accepted norm ordered m2 (fst r)).
    - pose proof (apply_equiv m1 m2 (fst r) (snd r) He) as Ha.
      destruct (apply_cc m1 (fst r) (snd r)), (apply_cc m2 (fst r) (snd r)); cbn in *;
        try contradiction; auto.
    - destruct (reject_reason norm ordered m2 (fst r)); cbn; auto.
  Qed.

  Lemma nodup_step ordered m r : nodup_inv m -> nodup_inv (fst (step norm ordered m r)).
  Proof.
    intros H. destruct (step_cases ordered m r) as [(m' & -> & _ & Hs)|[->|[-> _]]]; [|exact H..].
    exact (nodup_shape _ _ _ _ H Hs).
  Qed.

  Lemma run_equiv ordered reqs : forall m1 m2,
    nodup_inv m1 -> nodup_inv m2 -> mequiv m1 m2 ->
    snd (run norm ordered m1 reqs) = snd (run norm ordered m2 reqs) /\
    mequiv (fst (run norm ordered m1 reqs)) (fst (run norm ordered m2 reqs)).
  Proof.
    induction reqs as [|r rest IH]; intros m1 m2 N1 N2 He; cbn [run]; [cbn; auto|].
    destruct (step_equiv ordered m1 m2 r N1 N2 He) as [Hv Hm].
    pose proof (nodup_step ordered m1 r N1) as N1'. pose proof (nodup_step ordered m2 r N2) as N2'.
    destruct (step norm ordered m1 r) as [m1' v1], (step norm ordered m2 r) as [m2' v2].
    cbn [fst snd] in *. subst v2.
    destruct v1; [| |auto].
    1,2: destruct (IH m1' m2' N1' N2' Hm) as [IHv IHm];
      destruct (run norm ordered m1' rest), (run norm ordered m2' rest);
      cbn [fst snd] in *; split; [congruence|exact IHm].
  Qed.

  Lemma sm_run_is_run ordered on_disk odi es : forall r,
    r_members (fst (sm_run norm ordered on_disk odi r es)) =
      fst (run norm ordered (r_members r) (cc_reqs es)) /\
    snd (sm_run norm ordered on_disk odi r es) =
      snd (run norm ordered (r_members r) (cc_reqs es)).
  Proof.
    induction es as [|[e i] rest IH]; intros r; [cbn; auto|].
    destruct e as [c|].
    - cbn [sm_run sm_handle_entry cc_reqs run fst snd].
      destruct (step norm ordered (r_members r) (c, i)) as [m1 v].
      specialize (IH (mkR m1 i (r_updates r))). cbn [r_members] in IH.
      destruct v; [| |cbn; auto].
      1,2: destruct (sm_run norm ordered on_disk odi (mkR m1 i (r_updates r)) rest),
             (run norm ordered m1 (cc_reqs rest)); cbn [fst snd] in *;
           destruct IH as [-> ->]; auto.
    - cbn [sm_run sm_handle_entry cc_reqs fst snd].
      destruct (entry_in_init_disk_sm on_disk odi i); exact (IH (mkR (r_members r) i _)).
  Qed.

  Lemma restart_replay ordered od1 k1 od2 k2 r l1 l2 ss_index :
    let a := sm_run norm ordered od1 k1 r (l1 ++ l2) in
    let s := sm_run norm ordered od1 k1 r l1 in
    let b := sm_run norm ordered od2 k2 (sm_recover (m_get (r_members (fst s))) ss_index) l2 in
    has_panic (snd s) = false ->
    r_members (fst b) = r_members (fst a) /\ snd a = snd s ++ snd b.
  Proof.
    intros a s b Hp. subst a s b.
    destruct (sm_run_is_run ordered od1 k1 (l1 ++ l2) r) as [-> ->].
    destruct (sm_run_is_run ordered od1 k1 l1 r) as [E1 E2]. rewrite E1, E2 in *. clear E1 E2.
    destruct (sm_run_is_run ordered od2 k2 l2
                (sm_recover (m_get (fst (run norm ordered (r_members r) (cc_reqs l1)))) ss_index))
      as [-> ->].
    rewrite cc_reqs_app, run_app.
    unfold sm_recover. cbn [r_members].
    destruct (run norm ordered (r_members r) (cc_reqs l1)) as [m1 v1]. cbn [fst snd] in *.
    rewrite Hp.
    destruct (run norm ordered (m_set (m_get m1)) (cc_reqs l2)) as [m2 v2]. cbn. auto.
  Qed.
End WithNorm.

Definition A (s : list N) : addr := s.
Definition sample_reqs : list req :=
  [ (mkCC 0 cc_add_node 1 [104; 49] true, 1);          (* bootstrap "h1" *)
    (mkCC 0 cc_add_node 2 [104; 50] true, 2);          (* bootstrap "h2" *)
    (mkCC 2 cc_add_non_voting 3 [72; 51; 32] false, 3);  (* non-voting "H3 " *)
    (mkCC 3 cc_add_witness 4 [104; 52] false, 4);      (* witness "h4" *)
    (mkCC 4 cc_remove_node 2 [] false, 5);             (* remove 2 *)
    (mkCC 5 cc_add_node 3 [32; 104; 51] false, 6);     (* promote 3 with " h3" *)
    (mkCC 5 cc_add_node 5 [104; 53] false, 7);         (* stale id: rejected when ordered *)
    (mkCC 6 cc_add_node 2 [104; 54] false, 8);         (* removed id: rejected *)
    (mkCC 6 cc_add_node 6 [72; 49] false, 9);          (* address "H1" in use: rejected *)
    (mkCC 6 cc_add_non_voting 1 [104; 55] false, 10);  (* voting -> non-voting: rejected *)
    (mkCC 6 cc_add_node 4 [104; 52] false, 11) ].      (* witness -> voting: rejected *)

Definition sample_state : membership := fst (run norm_ascii true empty_membership sample_reqs).

Lemma empty_invariants norm :
  kinds_disjoint_inv empty_membership /\ removed_disjoint_inv empty_membership /\
  address_unique_inv norm empty_membership /\ nodup_inv empty_membership.
Proof.
  repeat split; try (intros id; reflexivity); try constructor.
  intros id1 a1 id2 a2 H. inversion H.
Qed.

Lemma sample_state_invariants :
  kinds_disjoint_inv sample_state /\ removed_disjoint_inv sample_state /\
  address_unique_inv norm_ascii sample_state /\ nodup_inv sample_state /\ voters_inv sample_state.
Proof.
  destruct (empty_invariants norm_ascii) as (H1 & H2 & H3 & H4).
  pose proof (fun P H => shape_invariant_run norm_ascii P true H sample_reqs empty_membership) as R.
  pose proof (R _ (nodup_shape norm_ascii) H4) as Hn.
  split; [exact (R _ (kinds_disjoint_shape norm_ascii) H1)|].
  split; [exact (R _ (removed_disjoint_shape norm_ascii) H2)|].
  split; [exact (R _ (address_unique_shape norm_ascii) H3)|].
  split; [exact Hn|]. split; [exact (proj1 Hn)|]. vm_compute. discriminate.
Qed.
