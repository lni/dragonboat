From DB Require Import Base.Bytes Base.CRC32 Model.Frame Proofs.Bytes Proofs.CRC32.
From Coq Require Import ZifyN ZifyNat ZifyBool.
Open Scope N_scope.

Lemma app_eq_len {A} (a a' b b' : list A) :
  length a = length a' -> a ++ b = a' ++ b' -> a = a' /\ b = b'.
Proof.
  revert a'; induction a as [|x a IH]; intros [|y a'] Hl H; simpl in *; try discriminate.
  - auto.
  - injection H as -> H. destruct (IH a' ltac:(lia) H) as [-> ->]. auto.
Qed.

Lemma bytes_eqb_eq a : forall b, bytes_eqb a b = true <-> a = b.
Proof.
  induction a as [|x a IH]; intros [|y b]; simpl; split; intros H; try discriminate; auto.
  - apply andb_true_iff in H as [H1 H2]. apply N.eqb_eq in H1. apply IH in H2. subst. reflexivity.
  - injection H as -> ->. rewrite N.eqb_refl. apply IH. reflexivity.
Qed.

Lemma bytes_eqb_refl a : bytes_eqb a a = true.
Proof. apply bytes_eqb_eq. reflexivity. Qed.

Lemma hdr_layout :
  (hdr_len, off_method, off_size, off_hcrc, off_crc) = (18, 0, 2, 10, 14)%nat.
Proof. reflexivity. Qed.

Lemma hdr_len_18 : hdr_len = 18%nat. Proof. reflexivity. Qed.

Lemma layout_slices (a b c d : bytes) :
  length a = 2%nat -> length b = 8%nat -> length c = 4%nat -> length d = 4%nat ->
  let hb := a ++ b ++ c ++ d in
  length hb = hdr_len /\
  slice off_method 2 hb = a /\ slice off_size 8 hb = b /\
  slice off_hcrc 4 hb = c /\ slice off_crc 4 hb = d /\
  zero_hcrc hb = a ++ b ++ [0; 0; 0; 0] ++ d.
Proof.
  intros Ha Hb Hc Hd hb. unfold slice, zero_hcrc.
  change off_method with 0%nat. change off_size with 2%nat. change off_hcrc with 10%nat.
  change off_crc with 14%nat. change (10 + 4)%nat with 14%nat.
  assert (S2 : skipn 2 hb = b ++ c ++ d) by (apply skipn_app_exact; auto).
  assert (S10 : skipn 10 hb = c ++ d).
  { unfold hb. rewrite app_assoc. apply skipn_app_exact. rewrite app_length, Ha, Hb. reflexivity. }
  assert (S14 : skipn 14 hb = d).
  { unfold hb. rewrite (app_assoc b), app_assoc. apply skipn_app_exact. rewrite !app_length, Ha, Hb, Hc. reflexivity. }
  rewrite S2, S10, S14. repeat split.
  - unfold hb. rewrite !app_length, Ha, Hb, Hc, Hd. reflexivity.
  - apply firstn_app_exact. auto.
  - apply firstn_app_exact. auto.
  - apply firstn_app_exact. auto.
  - apply firstn_all2. rewrite Hd. reflexivity.
  - unfold hb. rewrite (app_assoc a b), firstn_app_exact, <- app_assoc by (rewrite app_length, Ha, Hb; reflexivity).
    reflexivity.
Qed.

Lemma split_header (hb : bytes) : length hb = hdr_len ->
  exists a b c d, hb = a ++ b ++ c ++ d /\
    length a = 2%nat /\ length b = 8%nat /\ length c = 4%nat /\ length d = 4%nat.
Proof.
  rewrite hdr_len_18. intros H.
  exists (firstn 2 hb), (firstn 8 (skipn 2 hb)), (firstn 4 (skipn 10 hb)), (skipn 14 hb).
  split; [|rewrite !firstn_length, !skipn_length, H; auto].
  transitivity (firstn 2 hb ++ skipn 2 hb); [symmetry; apply firstn_skipn|f_equal].
  transitivity (firstn 8 (skipn 2 hb) ++ skipn 8 (skipn 2 hb)); [symmetry; apply firstn_skipn|f_equal].
  rewrite skipn_skipn. transitivity (firstn 4 (skipn 10 hb) ++ skipn 4 (skipn 10 hb)); [symmetry; apply firstn_skipn|].
  rewrite skipn_skipn. reflexivity.
Qed.

Lemma be4_0 : be 4 0 = [0; 0; 0; 0]. Proof. reflexivity. Qed.

Lemma header_bytes_wf m s v c : wf_bytes (header_bytes m s v c).
Proof.
  unfold header_bytes, wf_bytes. do 3 (apply Forall_app; split; [apply be_wf|]). apply be_wf.
Qed.

Lemma encode_header_length h : length (encode_header h) = hdr_len.
Proof.
  unfold encode_header, header_bytes. rewrite !app_length, !be_length. rewrite hdr_len_18. reflexivity.
Qed.

Lemma encode_header_wf h : wf_bytes (encode_header h).
Proof. apply header_bytes_wf. Qed.

Definition header_accepts (hb : bytes) (h : header) : Prop :=
  length hb = hdr_len /\
  be_dec (slice off_hcrc 4 hb) = crc32 (zero_hcrc hb) /\
  method_ok (be_dec (slice off_method 2 hb)) = true /\
  h = mkHeader (be_dec (slice off_method 2 hb)) (be_dec (slice off_size 8 hb))
               (be_dec (slice off_crc 4 hb)).

Lemma decode_header_iff hb h : length hb = hdr_len ->
  (decode_header hb = Some h <-> header_accepts hb h).
Proof.
  intros Hl. unfold decode_header, header_accepts.
  rewrite Hl, Nat.ltb_irrefl.
  assert (Fh : firstn hdr_len hb = hb) by (rewrite <- Hl; apply firstn_all).
  cbv zeta. rewrite !Fh.
  destruct (N.eqb_spec (be_dec (slice off_hcrc 4 hb)) (crc32 (zero_hcrc hb))) as [E|E]; cbn [negb].
  - destruct (method_ok (be_dec (slice off_method 2 hb))) eqn:M; cbn [negb].
    + split.
      * intros H. injection H as <-. auto.
      * intros (_ & _ & _ & ->). reflexivity.
    + split; [discriminate|]. intros (_ & _ & F & _). discriminate.
  - split; [discriminate|]. intros (_ & F & _). contradiction.
Qed.

Lemma header_accepts_parts a b c d :
  length a = 2%nat -> length b = 8%nat -> length c = 4%nat -> length d = 4%nat ->
  be_dec c = crc32 (a ++ b ++ [0; 0; 0; 0] ++ d) -> method_ok (be_dec a) = true ->
  header_accepts (a ++ b ++ c ++ d) (mkHeader (be_dec a) (be_dec b) (be_dec d)).
Proof.
  intros Ha Hb Hc Hd Hcrc Hok.
  destruct (layout_slices a b c d Ha Hb Hc Hd) as (L & S1 & S2 & S3 & S4 & Z).
  unfold header_accepts. rewrite S1, S2, S3, S4, Z. auto.
Qed.

Lemma encode_header_accepts h :
  wf_header h -> method_ok (h_method h) = true -> header_accepts (encode_header h) h.
Proof.
  intros (Hm & Hs & Hc) Hok. destruct h as [m sz c]. cbn [h_method h_size h_crc] in *.
  unfold encode_header, header_bytes. cbn [h_method h_size h_crc].
  set (v := crc32 _).
  assert (Hv : v < 2 ^ 32) by (apply crc32_lt, header_bytes_wf).
  replace (mkHeader m sz c) with (mkHeader (be_dec (be 2 m)) (be_dec (be 8 sz)) (be_dec (be 4 c)))
    by (rewrite !be_dec_be by assumption; reflexivity).
  apply header_accepts_parts; rewrite ?be_length, ?be_dec_be; trivial.
Qed.

Lemma decode_encode_header h :
  wf_header h -> method_ok (h_method h) = true -> decode_header (encode_header h) = Some h.
Proof.
  intros Hw Hok. apply (decode_header_iff _ _ (encode_header_length h)).
  apply encode_header_accepts; assumption.
Qed.

Lemma decode_header_short hb : (length hb < hdr_len)%nat -> decode_header hb = None.
Proof. intros H. unfold decode_header. apply Nat.ltb_lt in H. rewrite H. reflexivity. Qed.

Definition frame_ok (enc : bool) (s : bytes) (h : header) (p rest : bytes) : Prop :=
  exists hb, s = magic ++ hb ++ p ++ rest /\ header_accepts hb h /\
    h_size h = nlen p /\ p <> [] /\ (enc = true \/ crc32 p = h_crc h).

Lemma magic_not_poison : bytes_eqb magic poison = false.
Proof. reflexivity. Qed.

Lemma magic_length : length magic = 2%nat. Proof. reflexivity. Qed.

Lemma read_frame_magic enc s : read_frame enc (magic ++ s) = read_message enc s.
Proof.
  unfold read_frame, read_magic. rewrite app_length, magic_length. cbn [Nat.ltb Nat.leb plus].
  rewrite firstn_app_exact, skipn_app_exact by reflexivity.
  rewrite magic_not_poison, bytes_eqb_refl. reflexivity.
Qed.

Lemma read_message_run enc hb h p rest :
  header_accepts hb h -> h_size h = nlen p -> p <> [] ->
  read_message enc (hb ++ p ++ rest) =
  if negb enc && negb (crc32 p =? h_crc h) then Bad else Delivered h p rest.
Proof.
  intros D Hsz Hne. assert (Hl : length hb = hdr_len) by apply D.
  unfold read_message. rewrite app_length, Hl.
  replace (hdr_len + length (p ++ rest) <? hdr_len)%nat with false by (symmetry; apply Nat.ltb_ge, Nat.le_add_r).
  rewrite firstn_app_exact, skipn_app_exact by (symmetry; exact Hl).
  apply (decode_header_iff _ _ Hl) in D. rewrite D, Hsz.
  replace (nlen p =? 0) with false by (symmetry; apply N.eqb_neq; destruct p; [contradiction|discriminate]).
  replace (nlen (p ++ rest) <? nlen p) with false by (symmetry; apply N.ltb_ge; rewrite nlen_app; lia).
  rewrite to_nat_nlen, firstn_app_exact, skipn_app_exact by reflexivity. reflexivity.
Qed.

Lemma read_message_iff enc s h p rest :
  read_message enc s = Delivered h p rest <->
  exists hb, s = hb ++ p ++ rest /\ header_accepts hb h /\
    h_size h = nlen p /\ p <> [] /\ (enc = true \/ crc32 p = h_crc h).
Proof.
  split.
  - unfold read_message.
    destruct (Nat.ltb_spec (length s) hdr_len) as [Hs|Hs]; [discriminate|].
    destruct (decode_header (firstn hdr_len s)) as [h0|] eqn:D; [|discriminate].
    assert (Hl : length (firstn hdr_len s) = hdr_len) by (rewrite firstn_length; lia).
    apply (decode_header_iff _ _ Hl) in D.
    destruct (N.eqb_spec (h_size h0) 0) as [Z|Z]; [discriminate|].
    remember (skipn hdr_len s) as body eqn:Eb.
    destruct (N.ltb_spec (nlen body) (h_size h0)) as [L|L]; [discriminate|].
    remember (N.to_nat (h_size h0)) as n eqn:En.
    destruct (negb enc && negb (crc32 (firstn n body) =? h_crc h0)) eqn:C; [discriminate|].
    intros H. injection H as <- <- <-.
    exists (firstn hdr_len s). split; [|split; [exact D|split; [|split]]].
    + rewrite (firstn_skipn n body). subst body. rewrite firstn_skipn. reflexivity.
    + unfold nlen in *. rewrite firstn_length. lia.
    + intros E. apply (f_equal (@length N)) in E. rewrite firstn_length in E.
      unfold nlen in L. cbn in E. lia.
    + apply andb_false_iff in C as [C|C].
      * left. destruct enc; [reflexivity|discriminate].
      * right. apply negb_false_iff, N.eqb_eq in C. exact C.
  - intros (hb & -> & D & Hsz & Hne & Hc). rewrite (read_message_run enc hb h) by assumption.
    destruct Hc as [-> | ->]; [reflexivity|]. rewrite N.eqb_refl, andb_false_r. reflexivity.
Qed.

Lemma read_frame_iff enc s h p rest :
  read_frame enc s = Delivered h p rest <-> frame_ok enc s h p rest.
Proof.
  unfold frame_ok. split.
  - unfold read_frame, read_magic.
    destruct (Nat.ltb_spec (length s) 2) as [Hs|Hs]; [discriminate|].
    destruct (bytes_eqb (firstn 2 s) poison) eqn:P; [discriminate|].
    destruct (bytes_eqb (firstn 2 s) magic) eqn:M; cbn [negb]; [|discriminate].
    apply bytes_eqb_eq in M.
    intros H. apply read_message_iff in H as (hb & E & H).
    exists hb. split; [|exact H].
    rewrite <- E, <- M. symmetry. apply firstn_skipn.
  - intros (hb & -> & H). rewrite read_frame_magic.
    apply read_message_iff. exists hb. split; [reflexivity|exact H].
Qed.

Lemma frame_roundtrip_proved h0 p enc rest :
  method_ok (h_method h0) = true -> h_crc h0 < 2 ^ 32 ->
  p <> [] -> wf_bytes p -> nlen p < 2 ^ 64 ->
  read_frame enc (write_message h0 p enc ++ rest) = Delivered (write_header h0 p enc) p rest.
Proof.
  intros Hm Hc Hne Hw Hl. apply read_frame_iff.
  exists (encode_header (write_header h0 p enc)).
  assert (Hwf : wf_header (write_header h0 p enc)).
  { unfold wf_header, write_header, method_ok in *. cbn.
    repeat split.
    - apply orb_true_iff in Hm as [Hm|Hm]; apply N.eqb_eq in Hm; rewrite Hm; reflexivity.
    - apply N.mod_lt. lia.
    - destruct enc; [exact Hc|apply crc32_lt, Hw]. }
  split; [|split; [apply encode_header_accepts; assumption|split; [|split]]].
  - unfold write_message. rewrite <- !app_assoc. reflexivity.
  - cbn. apply N.mod_small. exact Hl.
  - exact Hne.
  - destruct enc; [left; reflexivity|right; reflexivity].
Qed.

Lemma frame_truncated_rejected_proved enc s h p rest k :
  read_frame enc s = Delivered h p rest ->
  (k < 2 + hdr_len + length p)%nat ->
  forall h' p' rest', read_frame enc (firstn k s) <> Delivered h' p' rest'.
Proof.
  intros H Hk h' p' rest' H'.
  apply read_frame_iff in H as (hb & Es & Hacc & Hsz & _).
  apply read_frame_iff in H' as (hb' & Es' & Hacc' & Hsz' & _).
  assert (Hl : length hb = hdr_len) by apply Hacc.
  assert (Hl' : length hb' = hdr_len) by apply Hacc'.
  assert (Sp : firstn k s ++ skipn k s = magic ++ hb ++ p ++ rest) by (rewrite firstn_skipn; exact Es).
  rewrite Es' in Sp.
  rewrite <- !app_assoc in Sp.
  apply app_inv_head in Sp.
  apply app_eq_len in Sp as [Ehb Sp]; [|lia]. subst hb'.
  assert (h' = h).
  { destruct Hacc as (_ & _ & _ & ->). destruct Hacc' as (_ & _ & _ & ->). reflexivity. }
  subst h'.
  assert (Hlen : length p' = length p) by (unfold nlen in *; lia).
  apply (f_equal (@length N)) in Es'.
  rewrite firstn_length, !app_length, magic_length in Es'. lia.
Qed.

Lemma frame_payload_crc_rejected hb p p' rest h :
  read_frame false (magic ++ hb ++ p ++ rest) = Delivered h p rest ->
  length hb = hdr_len -> length p' = length p -> crc32 p' <> crc32 p ->
  read_frame false (magic ++ hb ++ p' ++ rest) = Bad.
Proof.
  intros H Hl Hlen Hcrc.
  apply read_frame_iff in H as (hb0 & Es & Hacc & Hsz & Hne & Hc).
  apply app_inv_head in Es. apply app_eq_len in Es as [<- _]; [|destruct Hacc; lia].
  destruct Hc as [F|Hc]; [discriminate|].
  rewrite read_frame_magic, (read_message_run false hb h p'); trivial.
  - rewrite <- Hc. apply N.eqb_neq in Hcrc. rewrite Hcrc. reflexivity.
  - unfold nlen. rewrite Hlen. exact Hsz.
  - destruct p'; [destruct p; [contradiction|discriminate Hlen]|discriminate].
Qed.

Lemma differ_one_bit_length l1 l2 : differ_one_bit l1 l2 -> length l2 = length l1.
Proof. intros (pre & post & b & k & -> & -> & _). rewrite !app_length. reflexivity. Qed.

Lemma frame_payload_bit_flip_rejected_proved hb p p' rest h :
  read_frame false (magic ++ hb ++ p ++ rest) = Delivered h p rest ->
  length hb = hdr_len -> wf_bytes p -> differ_one_bit p p' ->
  read_frame false (magic ++ hb ++ p' ++ rest) = Bad.
Proof.
  intros H Hl Hw Hd. eapply frame_payload_crc_rejected; eauto.
  - apply differ_one_bit_length. exact Hd.
  - intros E. symmetry in E. revert E. apply crc32_single_bit_detected; assumption.
Qed.

Lemma read_frame_ex_fst enc s : fst (read_frame_ex enc s) = read_frame enc s.
Proof.
  unfold read_frame_ex, read_frame, read_magic, read_message.
  destruct (length s <? 2)%nat; [reflexivity|].
  destruct (bytes_eqb (firstn 2 s) poison); [reflexivity|].
  destruct (bytes_eqb (firstn 2 s) magic); cbn [negb]; [|reflexivity].
  destruct (length (skipn 2 s) <? hdr_len)%nat; [reflexivity|].
  destruct (decode_header (firstn hdr_len (skipn 2 s))) as [h|]; [|reflexivity].
  destruct (h_size h =? 0); [reflexivity|].
  destruct (nlen (skipn hdr_len (skipn 2 s)) <? h_size h); [reflexivity|].
  destruct (negb enc && negb (crc32 (firstn (N.to_nat (h_size h)) (skipn hdr_len (skipn 2 s))) =? h_crc h));
    reflexivity.
Qed.

Definition frame_in_ok (f : header * bytes) : Prop :=
  method_ok (h_method (fst f)) = true /\ h_crc (fst f) < 2 ^ 32 /\
  snd f <> [] /\ wf_bytes (snd f) /\ nlen (snd f) < 2 ^ 64.

Lemma serve_stops_at_bad_proved enc handle s fuel :
  (forall h p r, read_frame enc s <> Delivered h p r) ->
  fst (fst (serve fuel enc handle s)) = [].
Proof.
  intros Hbad. destruct fuel as [|fuel]; [reflexivity|]. cbn [serve].
  pose proof (read_frame_ex_fst enc s) as E.
  destruct (read_frame_ex enc s) as [v u]. cbn [fst] in E. subst v.
  destruct (read_frame enc s) as [h p r| | |] eqn:R; try reflexivity.
  exfalso. exact (Hbad h p r eq_refl).
Qed.

Lemma serve_accepted enc handle s fuel h p rest :
  read_frame enc s = Delivered h p rest -> handle h p = Accepted ->
  fst (fst (serve (S fuel) enc handle s)) = (h, p) :: fst (fst (serve fuel enc handle rest)).
Proof.
  intros R Hacc. cbn [serve]. pose proof (read_frame_ex_fst enc s) as E.
  destruct (read_frame_ex enc s) as [v u]. cbn [fst] in E. rewrite E, R, Hacc.
  destruct (serve fuel enc handle rest) as [[d u'] a]. reflexivity.
Qed.

Lemma serve_delivers_exactly_prefix_proved enc handle frames : forall bad fuel,
  Forall (fun f => frame_in_ok f /\ handle (write_header (fst f) (snd f) enc) (snd f) = Accepted) frames ->
  (forall h p r, read_frame enc bad <> Delivered h p r) ->
  (length frames < fuel)%nat ->
  fst (fst (serve fuel enc handle (stream_of enc frames ++ bad))) =
  map (fun f => (write_header (fst f) (snd f) enc, snd f)) frames.
Proof.
  induction frames as [|f frames IH]; intros bad fuel Hok Hbad Hfuel.
  - apply serve_stops_at_bad_proved, Hbad.
  - inversion Hok as [|? ? [(Hm & Hc & Hne & Hw & Hl) Hacc] Hrest]; subst.
    destruct fuel as [|fuel]; [inversion Hfuel|]. apply Nat.succ_lt_mono in Hfuel.
    change (stream_of enc (f :: frames)) with (write_message (fst f) (snd f) enc ++ stream_of enc frames).
    rewrite <- app_assoc, (serve_accepted _ _ _ _ _ _ _ (frame_roundtrip_proved _ _ _ _ Hm Hc Hne Hw Hl) Hacc).
    cbn [map]. rewrite IH by assumption. reflexivity.
Qed.
