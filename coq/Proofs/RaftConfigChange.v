(* C07, raft side (local): handleLeaderPropose admits at most one config change, and none while one
   is pending; applying or rejecting a change clears the flag. *)
From DB Require Import Model.RaftCore.
From Coq Require Import Arith.
Open Scope N_scope.

Definition is_cc (e : entry) : bool := e_type e =? et_ConfigChangeEntry.

Lemma count_cc_app a b : count_cc (a ++ b) = count_cc a + count_cc b.
Proof. unfold count_cc, nlen. rewrite filter_app, app_length. lia. Qed.

Lemma count_cc_cons e l : count_cc (e :: l) = (if is_cc e then 1 else 0) + count_cc l.
Proof. unfold count_cc, nlen, is_cc. cbn [filter]. destruct (e_type e =? et_ConfigChangeEntry); cbn [length]; lia. Qed.

Definition noop_entry := mkEnt 0 0 et_ApplicationEntry 0 0 0 0 [].
Lemma noop_not_cc : is_cc noop_entry = false.
Proof. reflexivity. Qed.

(* what the scan hands to appendEntries, as a function of the pending flag *)
Fixpoint scan_out (p : bool) (ents : list entry) : list entry :=
  match ents with
  | [] => []
  | e :: rest => if is_cc e then (if p then noop_entry else e) :: scan_out true rest
                 else e :: scan_out p rest
  end.

(* handleLeaderPropose's scan: what comes out holds at most one config change when none was
   pending, none when one was pending; the flag is set iff a change was seen or was pending *)
Lemma propose_scan_out : forall ents r acc,
  snd (propose_scan r ents acc) = rev acc ++ scan_out (r_pending_cc r) ents /\
  r_pending_cc (fst (propose_scan r ents acc)) = r_pending_cc r || existsb is_cc ents.
Proof.
  induction ents as [|e rest IH]; intros r acc; cbn [propose_scan scan_out existsb].
  - cbn [fst snd]. rewrite app_nil_r, orb_false_r. split; reflexivity.
  - fold (is_cc e). destruct (is_cc e); [destruct (r_pending_cc r) eqn:Ep|];
      rewrite (proj1 (IH _ _)), (proj2 (IH _ _)); cbn [rev]; rewrite <- app_assoc; split; reflexivity.
Qed.

Lemma scan_out_count : forall ents p,
  count_cc (scan_out p ents) <= (if p then 0 else 1).
Proof.
  induction ents as [|e rest IH]; intros p; cbn [scan_out].
  - unfold count_cc, nlen. simpl. destruct p; lia.
  - destruct (is_cc e) eqn:Ec.
    + specialize (IH true). cbv iota in IH. destruct p; rewrite count_cc_cons.
      * rewrite noop_not_cc. lia.
      * rewrite Ec. lia.
    + specialize (IH p). rewrite count_cc_cons, Ec. lia.
Qed.


(* every way out of addNonVoting, addWitness and addNode, a panic included, has cleared the flag first *)
Lemma add_nonvoting_pcc r id : r_pending_cc (add_nonvoting r id) = false.
Proof. unfold add_nonvoting. cbv zeta. destruct (_ && _); [|destruct (amem _ _)]; reflexivity. Qed.
Lemma add_witness_pcc r id : r_pending_cc (add_witness r id) = false.
Proof. unfold add_witness. cbv zeta. destruct (_ && _); [|destruct (amem _ _)]; reflexivity. Qed.
Lemma to_follower_state_pcc r t l b : r_pending_cc r = false -> r_pending_cc (to_follower_state r t l b) = false.
Proof.
  intros H. unfold to_follower_state. destruct (is_witness r); [exact H|].
  unfold reset. destruct (negb _); destruct b; reflexivity.
Qed.
Lemma add_node_pcc r id : r_pending_cc (add_node r id) = false.
Proof.
  unfold add_node. cbv zeta. destruct (_ && _); [reflexivity|].
  destruct (amem id (r_remotes _)); [reflexivity|]. destruct (alookup id (r_nonvotings _)).
  - destruct (id =? _); [apply to_follower_state_pcc|]; reflexivity.
  - destruct (amem id (r_witnesses _)); reflexivity.
Qed.

(* applying a change of one of these kinds, or rejecting one, clears the flag *)
Lemma apply_clears_pending_proved r m :
  m_hinthigh m = cc_AddNode \/ m_hinthigh m = cc_AddNonVoting \/ m_hinthigh m = cc_AddWitness \/ m_reject m = true ->
  r_pending_cc (handle_node_config_change r m) = false.
Proof.
  unfold handle_node_config_change. destruct (m_reject m); [reflexivity|]. cbv zeta.
  intros [Hk|[Hk|[Hk|Hk]]]; [| | |discriminate]; rewrite Hk;
    [apply add_node_pcc|apply add_nonvoting_pcc|apply add_witness_pcc].
Qed.
