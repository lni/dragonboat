(* C09: the batched entry format (Model/LogDBBatched.v) refines the same spec. The relation of one
   replica, RB1, is the plain-format relation on the node with its log forgotten (strip) together with
   BC, which says what every stored batch holds once restored; the operations that do not touch entry
   batches are taken over from Proofs/LogDBPlain.v (RB_of_R). *)
From Coq Require Import List NArith Bool Lia.
From DB Require Import Base.Bytes Gen.GenC09 Model.LogStoreSpec Model.KV Model.LogDBPlain
  Model.LogDBBatched Proofs.LogStoreSpec Proofs.LogDBKV Proofs.LogDBPlain.
Import ListNotations.
Open Scope N_scope.

(* strictly ascending indexes above pi, non-decreasing terms above pt *)
Fixpoint good_from (pi pt : N) (l : list entry) : Prop :=
  match l with
  | [] => True
  | e :: t => pi < e_index e /\ pt <= e_term e /\ good_from (e_index e) (e_term e) t
  end.

Lemma good_from_weaken : forall l pi pt pi' pt', good_from pi pt l -> pi' <= pi -> pt' <= pt -> good_from pi' pt' l.
Proof. destruct l as [|e l]; cbn; intros; auto. destruct H as (A & B & C). repeat split; auto; lia. Qed.

Lemma last_cons2 : forall (e0 e1 : entry) r d, last (e0 :: e1 :: r) d = last (e1 :: r) d.
Proof. reflexivity. Qed.

Lemma good_last_bounds : forall l pi pt d, good_from pi pt l -> l <> [] ->
  pi + nlen l <= e_index (last l d) /\ pt <= e_term (last l d).
Proof.
  induction l as [|e l IH]; intros pi pt d H Hn; [contradiction|].
  destruct H as (A & B & C). rewrite nlen_cons. destruct l as [|e1 l'].
  - cbn [last]. unfold nlen; cbn [length]. lia.
  - rewrite last_cons2. destruct (IH (e_index e) (e_term e) d C ltac:(discriminate)) as [I1 I2].
    rewrite nlen_cons in *. lia.
Qed.

Fixpoint uniform (t i : N) (l : list entry) : Prop :=
  match l with [] => True | e :: r => e_term e = t /\ e_index e = i /\ uniform t (i + 1) r end.

Lemma good_uniform : forall l pi pt d, good_from pi pt l -> l <> [] ->
  e_term (last l d) = pt -> e_index (last l d) = pi + nlen l -> uniform pt (pi + 1) l.
Proof.
  induction l as [|e l IH]; intros pi pt d H Hn HT HI; [contradiction|].
  destruct H as (A & B & C). rewrite nlen_cons in HI. destruct l as [|e1 l'].
  - cbn [last] in *. unfold nlen in HI; cbn [length] in HI. cbn. repeat split; auto; lia.
  - rewrite last_cons2 in HT, HI.
    destruct (good_last_bounds _ _ _ d C ltac:(discriminate)) as [I1 I2].
    assert (e_term e = pt) by lia. assert (e_index e = pi + 1) by lia.
    split; auto. split; auto.
    replace (pi + 1 + 1) with (e_index e + 1) by lia.
    apply (IH (e_index e) pt d); auto; try discriminate; try lia.
    rewrite <- H. exact C.
Qed.

Lemma restore_from_uniform : forall r t i, uniform t i r ->
  restore_from t i (map (fun e => set_term_index e 0 0) r) = r.
Proof.
  induction r as [|e r IH]; intros t i H; [reflexivity|].
  destruct H as (A & B & C). cbn [map restore_from]. rewrite (IH _ _ C). f_equal.
  destruct e; cbn in *. subst. reflexivity.
Qed.

Lemma last_map_cons : forall (f : entry -> entry) r e0 d, r <> [] ->
  last (e0 :: map f r) d = f (last r d).
Proof.
  induction r as [|e r IH]; intros e0 d Hn; [contradiction|].
  destruct r as [|e1 r']; [reflexivity|].
  change (last (e0 :: map f (e :: e1 :: r')) d) with (last (f e :: map f (e1 :: r')) d).
  rewrite IH by discriminate. reflexivity.
Qed.

Lemma restore_idem : forall R pi, good_from pi 1 R -> restore_if_many R = R.
Proof.
  intros [|e0 [|e1 r]] pi H; try reflexivity. cbn [restore_if_many]. unfold restore_batch.
  destruct H as (A & B & C).
  destruct (good_last_bounds (e1 :: r) _ _ e0 C ltac:(discriminate)) as [_ I2].
  change (last (e0 :: e1 :: r) e0) with (last (e1 :: r) e0).
  assert (e_term (last (e1 :: r) e0) =? 0 = false) as -> by (apply N.eqb_neq; lia). reflexivity.
Qed.

Theorem batch_compact_restore_id_proved : forall l pi, good_from pi 1 l ->
  restore_if_many (compact_if_many l) = l.
Proof.
  intros l pi H. destruct l as [|e0 [|e1 r]]; try reflexivity.
  cbn [compact_if_many]. unfold compact_batch.
  destruct H as (A & B & C).
  set (l := e0 :: e1 :: r) in *. set (lst := last l e0).
  destruct (good_last_bounds (e1 :: r) _ _ e0 C ltac:(discriminate)) as [I1 I2].
  change (last (e1 :: r) e0) with lst in I1, I2.
  destruct ((e_term e0 =? e_term lst) && (e_index e0 + nlen l - 1 =? e_index lst)) eqn:E.
  - apply andb_true_iff in E. destruct E as [E1 E2]. apply N.eqb_eq in E1, E2.
    cbn [restore_if_many map]. unfold restore_batch.
    assert (e_term (last (e0 :: set_term_index e1 0 0 :: map (fun e => set_term_index e 0 0) r) e0) = 0) as ->.
    { change (set_term_index e1 0 0 :: map (fun e => set_term_index e 0 0) r)
        with (map (fun e => set_term_index e 0 0) (e1 :: r)).
      rewrite last_map_cons by discriminate. reflexivity. }
    cbn [N.eqb]. unfold l. f_equal.
    change (set_term_index e1 0 0 :: map (fun e => set_term_index e 0 0) r)
      with (map (fun e => set_term_index e 0 0) (e1 :: r)).
    apply restore_from_uniform.
    apply (good_uniform (e1 :: r) (e_index e0) (e_term e0) e0 C); try discriminate.
    + change (last (e1 :: r) e0) with lst. lia.
    + change (last (e1 :: r) e0) with lst. subst l. rewrite nlen_cons in E2. lia.
  - (* not compacted: the last term is not 0, restore leaves the batch alone *)
    exact (restore_idem l pi (conj A (conj B C))).
Qed.

Lemma batch_id_spec : forall x, bsz * batch_id x <= x < bsz * batch_id x + bsz.
Proof.
  intros x. unfold batch_id.
  pose proof (N.div_mod x bsz ltac:(discriminate)). pose proof (N.mod_lt x bsz ltac:(discriminate)).
  generalize dependent (x / bsz). generalize dependent (x mod bsz). unfold bsz, c09_batch_size. lia.
Qed.

(* the batch size as a numeral: with [batch_id_spec] of the indexes involved, facts about batch ids are linear *)
Ltac bid := unfold bsz, c09_batch_size in *.

Lemma batch_id_mono : forall a b, a <= b -> batch_id a <= batch_id b.
Proof. intros a b H. pose proof (batch_id_spec a). pose proof (batch_id_spec b). bid. lia. Qed.
Lemma batch_id_lt : forall a b, batch_id a < batch_id b -> a < b.
Proof. intros a b H. pose proof (batch_id_spec a). pose proof (batch_id_spec b). bid. lia. Qed.
Lemma aligned_spec : forall i, i mod bsz = 0 -> forall x, x < i -> batch_id x < batch_id i.
Proof.
  intros i Hi x Hx. pose proof (batch_id_spec x). pose proof (N.div_mod i bsz ltac:(discriminate)).
  fold (batch_id i) in *. rewrite Hi in *. bid. lia.
Qed.
Lemma batch_id_succ : forall a, batch_id (a + 1) = batch_id a \/ batch_id (a + 1) = batch_id a + 1.
Proof. intros a. pose proof (batch_id_spec a). pose proof (batch_id_spec (a + 1)). bid. lia. Qed.
Lemma batch_id_mul : forall b, batch_id (b * bsz) = b.
Proof. intros b. pose proof (batch_id_spec (b * bsz)). bid. lia. Qed.

Lemma batch_id_range_spec : forall low high, exists h,
  batch_id_range low high = (batch_id low, h) /\ forall x, x < high -> batch_id x < h.
Proof.
  intros low high. unfold batch_id_range.
  destruct (high mod bsz =? 0) eqn:E; eexists; (split; [reflexivity|]); intros x Hx.
  - apply N.eqb_eq in E. now apply aligned_spec.
  - pose proof (batch_id_mono x high ltac:(lia)). lia.
Qed.

Definition bfilter (b : N) (es : list entry) : list entry :=
  filter (fun e => batch_id (e_index e) =? b) es.

Lemma good_from_in : forall l pi pt x, good_from pi pt l -> In x l -> pi < e_index x /\ pt <= e_term x.
Proof.
  induction l as [|e l IH]; intros pi pt x H HI; [contradiction|].
  destruct H as (A & B & C). destruct HI as [<-|HI]; [auto|].
  destruct (IH _ _ _ C HI). lia.
Qed.

Lemma good_from_filter : forall (f : entry -> bool) l pi pt, good_from pi pt l -> good_from pi pt (filter f l).
Proof.
  induction l as [|e l IH]; intros pi pt H; [exact I|].
  destruct H as (A & B & C). cbn [filter]. destruct (f e).
  - cbn [good_from]. repeat split; auto.
  - apply IH. eapply good_from_weaken; eauto; lia.
Qed.

Lemma good_from_app : forall a b pi pt qi qt, good_from pi pt a ->
  (forall x, In x a -> e_index x <= qi /\ e_term x <= qt) -> pi <= qi -> pt <= qt ->
  good_from qi qt b -> good_from pi pt (a ++ b).
Proof.
  induction a as [|e a IH]; intros b pi pt qi qt Ha Hb Hi Ht Hg; cbn [app].
  - eapply good_from_weaken; eauto.
  - destruct Ha as (A & B & C). cbn [good_from]. repeat split; auto.
    destruct (Hb e (or_introl eq_refl)). eapply IH; eauto.
    intros x HI. apply Hb. now right.
Qed.

(* in an ascending list, what lies below i is a prefix: lb.Entries[:i] *)
Lemma take_below_filter : forall l pi pt i, good_from pi pt l ->
  take_below i l = filter (fun x => e_index x <? i) l.
Proof.
  induction l as [|e l IH]; intros pi pt i H; [reflexivity|].
  destruct H as (A & B & C). cbn [take_below filter].
  destruct (i <=? e_index e) eqn:E.
  - apply N.leb_le in E. assert (e_index e <? i = false) as -> by (apply N.ltb_ge; lia).
    symmetry. apply filter_nil. intros x HI. destruct (good_from_in _ _ _ _ C HI). apply N.ltb_ge. lia.
  - apply N.leb_gt in E. assert (e_index e <? i = true) as -> by (apply N.ltb_lt; lia).
    f_equal. eapply IH; eauto.
Qed.

Lemma good_last_in : forall (l : list entry) d, l <> [] -> In (last l d) l.
Proof.
  induction l as [|e l IH]; intros d H; [contradiction|].
  destruct l as [|e1 l']; [now left|]. right. rewrite last_cons2. apply IH. discriminate.
Qed.

Lemma last_default : forall (l : list entry) d d', l <> [] -> last l d = last l d'.
Proof.
  induction l as [|e l IH]; intros d d' H; [contradiction|].
  destruct l as [|e1 l']; [reflexivity|]. rewrite !last_cons2. apply IH. discriminate.
Qed.

Lemma good_le_last : forall l pi pt d x, good_from pi pt l -> In x l -> e_index x <= e_index (last l d).
Proof.
  induction l as [|e l IH]; intros pi pt d x H HI; [contradiction|].
  destruct H as (A & B & C). destruct l as [|e1 l'].
  - destruct HI as [<-|[]]. cbn. lia.
  - rewrite last_cons2. destruct HI as [<-|HI].
    + destruct (good_last_bounds (e1 :: l') _ _ d C ltac:(discriminate)). lia.
    + eapply IH; eauto.
Qed.

Lemma merge_first_batch_spec : forall eb lb e0 pi pt, good_from pi pt lb -> lb <> [] ->
  hd e0 eb = e0 -> eb <> [] ->
  (forall x, In x lb -> batch_id (e_index x) = batch_id (e_index e0)) ->
  merge_first_batch eb lb = Some (filter (fun x => e_index x <? e_index e0) lb ++ eb).
Proof.
  intros eb lb e0 pi pt Hg Hn Hh Hne Hid. destruct eb as [|e eb']; [contradiction|]. cbn in Hh. subst e.
  destruct lb as [|l0 lr]; [contradiction|]. unfold merge_first_batch.
  rewrite (Hid l0 (or_introl eq_refl)). rewrite N.ltb_irrefl.
  pose proof Hg as (A & B & C).
  destruct (e_index l0 <? e_index e0) eqn:E.
  - apply N.ltb_lt in E. destruct (e_index e0 <=? e_index (last (l0 :: lr) l0)) eqn:E2.
    + rewrite (take_below_filter _ _ _ _ Hg). reflexivity.
    + apply N.leb_gt in E2. rewrite filter_all; [reflexivity|].
      intros x HI. apply N.ltb_lt. pose proof (good_le_last _ _ _ l0 x Hg HI). lia.
  - apply N.ltb_ge in E. rewrite filter_nil; [reflexivity|].
    intros x HI. apply N.ltb_ge. destruct HI as [<-|HI]; [lia|].
    destruct (good_from_in _ _ _ _ C HI). lia.
Qed.

Definition dummy_entry : entry := mkEnt 0 0 0 0.
Definition gid (g : list entry) : N := batch_id (e_index (hd dummy_entry g)).
Definition uniform_id (g : list entry) (c : N) : Prop := forall x, In x g -> batch_id (e_index x) = c.

Fixpoint ids_sorted (c : N) (es : list entry) : Prop :=
  match es with [] => True | e :: t => c <= batch_id (e_index e) /\ ids_sorted (batch_id (e_index e)) t end.

Fixpoint inc_groups (lo : N) (gs : list (list entry)) : Prop :=
  match gs with
  | [] => True
  | g :: t => g <> [] /\ uniform_id g (gid g) /\ lo < gid g /\ inc_groups (gid g) t
  end.

Lemma split_concat : forall es cur, concat (split_batches cur es) = rev cur ++ es.
Proof.
  induction es as [|e r IH]; intros cur.
  - cbn [split_batches]. destruct cur; [reflexivity|]. cbn [concat]. now rewrite !app_nil_r.
  - cbn [split_batches]. destruct cur as [|c cur'].
    + rewrite IH. reflexivity.
    + destruct (batch_id (e_index e) =? batch_id (e_index c)).
      * rewrite IH. cbn [rev]. now rewrite <- app_assoc.
      * cbn [concat]. rewrite IH. reflexivity.
Qed.

Lemma uniform_gid : forall g c, g <> [] -> uniform_id g c -> gid g = c.
Proof. intros [|e g] c H U; [contradiction|]. unfold gid. cbn. apply U. now left. Qed.

Lemma split_ok : forall es cur c, cur <> [] -> uniform_id cur c -> ids_sorted c es ->
  exists g t, split_batches cur es = g :: t /\ g <> [] /\ uniform_id g c /\ inc_groups c t.
Proof.
  induction es as [|e r IH]; intros cur c Hn HU HS.
  - cbn [split_batches]. destruct cur as [|c0 cur']; [contradiction|].
    exists (rev (c0 :: cur')), []. split; [reflexivity|]. split; [|split; [|exact I]].
    + intros X. apply (f_equal (@length entry)) in X. rewrite rev_length in X. discriminate.
    + intros x HI. apply HU. now apply in_rev.
  - destruct HS as [HS1 HS2]. cbn [split_batches]. destruct cur as [|c0 cur']; [contradiction|].
    rewrite (HU c0 (or_introl eq_refl)).
    destruct (batch_id (e_index e) =? c) eqn:E.
    + apply N.eqb_eq in E. apply (IH (e :: c0 :: cur') c); [discriminate | | now rewrite <- E].
      intros x [<-|HI]; auto.
    + apply N.eqb_neq in E.
      destruct (IH [e] (batch_id (e_index e))) as (g' & t' & E' & G1 & G2 & G3); [discriminate | | auto |].
      { intros x [<-|[]]. reflexivity. }
      exists (rev (c0 :: cur')), (g' :: t'). rewrite E'. split; [reflexivity|]. split; [|split].
      * intros X. apply (f_equal (@length entry)) in X. rewrite rev_length in X. discriminate.
      * intros x HI. apply HU. now apply in_rev.
      * cbn [inc_groups]. rewrite (uniform_gid _ _ G1 G2). split; [auto|]. split; [auto|]. split; [lia | auto].
Qed.

Lemma good_ids_sorted : forall l pi pt, good_from pi pt l -> ids_sorted (batch_id pi) l.
Proof.
  induction l as [|e l IH]; intros pi pt H; [exact I|].
  destruct H as (A & B & C). split; [apply batch_id_mono; lia | eapply IH; eauto].
Qed.

Lemma contig_ids_sorted : forall es i, contig i es -> ids_sorted (batch_id i) es.
Proof.
  induction es as [|e es IH]; intros i HC; [exact I|].
  destruct HC as [HC1 HC2]. split; [rewrite HC1; lia|]. rewrite HC1.
  assert (ids_sorted (batch_id (i + 1)) es) by (apply IH; auto).
  destruct es as [|e1 es']; [exact I|]. destruct H as [H1 H2]. split; auto.
  destruct HC2 as [HC3 _]. rewrite HC3. apply batch_id_mono. lia.
Qed.

Lemma split_contig : forall e0 es, contig (e_index e0) (e0 :: es) ->
  exists g t, split_batches [] (e0 :: es) = g :: t /\ g <> [] /\ uniform_id g (batch_id (e_index e0)) /\
              inc_groups (batch_id (e_index e0)) t /\ concat (g :: t) = e0 :: es.
Proof.
  intros e0 es HC. cbn [split_batches].
  destruct (split_ok es [e0] (batch_id (e_index e0))) as (g & t & E & G1 & G2 & G3); [discriminate | | |].
  - intros x [<-|[]]. reflexivity.
  - destruct HC as [_ HC2]. pose proof (contig_ids_sorted _ _ HC2) as H.
    destruct es as [|e1 es']; [exact I|]. destruct H as [H1 H2]. split; auto.
    destruct HC2 as [HC3 _]. rewrite HC3. apply batch_id_mono. lia.
  - exists g, t. rewrite E. repeat split; auto. rewrite <- E, split_concat. reflexivity.
Qed.

Lemma inc_groups_lower : forall gs lo g x, inc_groups lo gs -> In g gs -> In x g -> lo < batch_id (e_index x).
Proof.
  induction gs as [|g0 gs IH]; intros lo g x H HI HX; [contradiction|].
  destruct H as (A & B & C & D). destruct HI as [<-|HI].
  - rewrite (B x HX). exact C.
  - pose proof (IH _ _ _ D HI HX). lia.
Qed.

Lemma bfilter_app : forall b a c, bfilter b (a ++ c) = bfilter b a ++ bfilter b c.
Proof. intros. unfold bfilter. apply filter_app. Qed.

Lemma inc_groups_nonempty : forall gs lo g, inc_groups lo gs -> In g gs -> g <> [].
Proof.
  induction gs as [|h t IH]; intros lo g H HI; [contradiction|].
  destruct H as (A & B & C & D). destruct HI as [<-|HI]; eauto.
Qed.

Lemma inc_groups_uniform : forall gs lo g, inc_groups lo gs -> In g gs -> uniform_id g (gid g).
Proof.
  induction gs as [|h t IH]; intros lo g H HI; [contradiction|].
  destruct H as (A & B & C & D). destruct HI as [<-|HI]; eauto.
Qed.

Lemma inc_groups_gid_gt : forall gs lo g, inc_groups lo gs -> In g gs -> lo < gid g.
Proof.
  induction gs as [|h t IH]; intros lo g H HI; [contradiction|].
  destruct H as (A & B & C & D). destruct HI as [<-|HI]; [exact C|].
  pose proof (IH _ _ D HI). lia.
Qed.

Lemma bfilter_groups : forall gs lo, inc_groups lo gs ->
  (forall g, In g gs -> bfilter (gid g) (concat gs) = g) /\
  (forall b, (forall g, In g gs -> gid g <> b) -> bfilter b (concat gs) = []).
Proof.
  induction gs as [|g0 gs IH]; intros lo H.
  - split; [intros g [] | reflexivity].
  - destruct H as (A & B & C & D). destruct (IH _ D) as [I1 I2]. cbn [concat]. split.
    + intros g [<-|HI]; rewrite bfilter_app.
      * rewrite I2.
        -- rewrite app_nil_r. unfold bfilter. apply filter_all. intros x HX. apply N.eqb_eq. now apply B.
        -- intros g HI X. pose proof (inc_groups_gid_gt _ _ _ D HI). lia.
      * rewrite (I1 g HI). unfold bfilter at 1. rewrite filter_nil; [reflexivity|].
        intros x HX. apply N.eqb_neq. rewrite (B x HX).
        pose proof (inc_groups_gid_gt _ _ _ D HI). lia.
    + intros b Hb. rewrite bfilter_app. rewrite I2 by (intros g HI; apply Hb; now right).
      rewrite app_nil_r. unfold bfilter. apply filter_nil. intros x HX. apply N.eqb_neq.
      rewrite (B x HX). apply Hb. now left.
Qed.

Definition bput (n : nid) (g : list entry) : wop := WPut (KBatch n (gid g)) (VBatch (compact_if_many g)).

Lemma record_tail : forall m n first_id last_id t lo cn, inc_groups lo t -> first_id <= lo ->
  exists cn', record_groups m n first_id last_id cn t = Some (cn', map (bput n) t) /\
    c_state cn' = c_state cn /\ c_snap cn' = c_snap cn /\
    ((forall g, In g t -> gid g <> last_id) -> c_batch cn' = c_batch cn) /\
    (forall g, In g t -> gid g = last_id -> c_batch cn' = Some g).
Proof.
  induction t as [|g t IH]; intros lo cn H Hlo.
  - exists cn. cbn [record_groups map]. split; [reflexivity|]. split; [auto|]. split; [auto|].
    split; [auto|]. intros g HI. destruct HI.
  - destruct H as (A & B & C & D). destruct g as [|e0 g']; [contradiction|].
    cbn [record_groups]. change (batch_id (e_index e0)) with (gid (e0 :: g')).
    assert (first_id =? gid (e0 :: g') = false) as -> by (apply N.eqb_neq; lia).
    set (cn1 := if last_id =? gid (e0 :: g') then mkC (c_state cn) (c_max cn) (c_snap cn) (Some (e0 :: g')) else cn).
    destruct (IH (gid (e0 :: g')) cn1 D ltac:(lia)) as (cn' & E & S1 & S3 & S4 & S5).
    exists cn'. rewrite E. split; [reflexivity|].
    assert (c_state cn1 = c_state cn /\ c_snap cn1 = c_snap cn) as (T1 & T3)
      by (unfold cn1; destruct (last_id =? gid (e0 :: g')); auto).
    split; [congruence|]. split; [congruence|]. split.
    + intros Hne. rewrite S4 by (intros g HI; apply Hne; now right).
      unfold cn1. assert (last_id =? gid (e0 :: g') = false) as ->; [|reflexivity].
      apply N.eqb_neq. intros X. apply (Hne (e0 :: g')); [now left | auto].
    + intros g [<-|HI] Hg.
      * rewrite S4.
        -- unfold cn1. rewrite <- Hg, N.eqb_refl. reflexivity.
        -- intros g HI X. pose proof (inc_groups_gid_gt _ _ _ D HI). lia.
      * now apply S5.
Qed.

Definition in_log (nd : rnode) (x : entry) : bool := (n_marker nd <? e_index x) && (e_index x <=? n_last nd).
Definition hterm (nd : rnode) : N := N.max 1 (n_last_term nd).

Record BC (g : gfun) (cb : option (list entry)) (nd : rnode) (n : nid) : Prop := mkBC {
  bc_good : good_from (n_marker nd) (N.max 1 (n_mterm nd)) (n_ents nd);
  bc_typed : forall b v, g (KBatch n b) = Some v -> exists raw, v = VBatch raw;
  bc_all : forall b raw, g (KBatch n b) = Some (VBatch raw) ->
     raw <> [] /\ good_from 0 1 (restore_if_many raw) /\
     (forall x, In x (restore_if_many raw) ->
        batch_id (e_index x) = b /\ e_term x <= hterm nd /\ e_index x < max_index) /\
     filter (in_log nd) (restore_if_many raw) = bfilter b (n_ents nd);
  bc_exists : forall e, In e (n_ents nd) ->
     exists raw, g (KBatch n (batch_id (e_index e))) = Some (VBatch raw);
  bc_cache : forall lb, cb = Some lb -> lb <> [] /\
     (forall e, In e (n_ents nd) -> batch_id (e_index e) <= gid lb) /\
     (batch_id (n_marker nd + 1) <= gid lb ->
        exists raw, g (KBatch n (gid lb)) = Some (VBatch raw) /\ restore_if_many raw = lb)
}.

Lemma BC_ext : forall g g' cb nd n, BC g cb nd n -> (forall b, g' (KBatch n b) = g (KBatch n b)) -> BC g' cb nd n.
Proof.
  intros g g' cb nd n H HE. destruct H. constructor; auto.
  - intros b v X. rewrite HE in X. exact (bc_typed0 b v X).
  - intros b raw X. rewrite HE in X. exact (bc_all0 b raw X).
  - intros e HI. rewrite HE. auto.
  - intros lb Hc. destruct (bc_cache0 lb Hc) as (A & B & C). split; [auto|]. split; [auto|].
    intros X. rewrite HE. auto.
Qed.

Definition strip (nd : rnode) : rnode := mkNode (n_last nd) (n_last_term nd) [] (n_st nd) (n_ss nd).

Lemma n_last_strip : forall nd, n_last (strip nd) = n_last nd.
Proof. intros. unfold strip, n_last at 1, nlen. cbn [n_marker n_ents length]. lia. Qed.

Record RB1 (g : gfun) (cn : cnode) (nd : rnode) (n : nid) : Prop := mkRB1 {
  rb_core : RnG g cn (strip nd) n;
  rb_batches : BC g (c_batch cn) nd n;
  rb_contig : contig (n_marker nd + 1) (n_ents nd)
}.

Lemma RB1_ext : forall g g' cn nd n, RB1 g cn nd n -> (forall k, key_node k = n -> g' k = g k) -> RB1 g' cn nd n.
Proof.
  intros g g' cn nd n [A B C] HE. constructor; auto.
  - eapply RnG_node_ext; eauto.
  - eapply BC_ext; eauto. intros b. apply HE, key_node_mk.
Qed.

Lemma ents_okb_good : forall es i prev pi, ents_okb i prev es = true -> pi < i -> good_from pi prev es.
Proof.
  induction es as [|e es IH]; intros i prev pi H Hp; [exact I|].
  cbn [ents_okb] in H. rewrite !andb_true_iff in H. destruct H as ((((H1 & H2) & H3) & H4) & H5).
  apply N.eqb_eq in H1. apply N.leb_le in H2. cbn [good_from]. repeat split; try lia.
  apply (IH (i + 1)); auto. lia.
Qed.

Lemma last_term_app : forall a b d, last_term d (a ++ b) = last_term (last_term d a) b.
Proof. induction a as [|e a IH]; intros; [reflexivity|]. cbn [app last_term]. apply IH. Qed.

Lemma good_le_last_term : forall l pi pt, good_from pi pt l -> pt <= last_term pt l /\
  forall x, In x l -> e_term x <= last_term pt l.
Proof.
  induction l as [|e l IH]; intros pi pt H; cbn [last_term].
  - split; [lia | intros x []].
  - destruct H as (A & B & C). destruct (IH _ _ C) as [I1 I2]. split; [lia|].
    intros x [<-|HI]; [lia | auto].
Qed.

Lemma term_at_in : forall es e i, contig i es -> In e es -> term_at es (e_index e) = e_term e.
Proof.
  induction es as [|e0 es IH]; intros e i HC HI; [contradiction|].
  destruct HC as [HC1 HC2]. unfold term_at. cbn [find].
  destruct (e_index e0 =? e_index e) eqn:E.
  - apply N.eqb_eq in E. destruct HI as [<-|HI]; [reflexivity|].
    pose proof (contig_bounds _ _ _ HC2 HI). lia.
  - apply N.eqb_neq in E. destruct HI as [<-|HI]; [contradiction|].
    apply (IH e (i + 1) HC2 HI).
Qed.

Lemma last_term_in : forall l d, l <> [] -> exists x, In x l /\ last_term d l = e_term x /\ x = last l x.
Proof.
  induction l as [|e l IH]; intros d H; [contradiction|]. cbn [last_term].
  destruct l as [|e1 l'].
  - exists e. split; [now left|]. split; reflexivity.
  - destruct (IH (e_term e) ltac:(discriminate)) as (x & X1 & X2 & X3). exists x.
    split; [now right|]. split; [exact X2|]. rewrite last_cons2. exact X3.
Qed.

Lemma restore_head : forall raw, raw <> [] -> exists e0 r r', raw = e0 :: r /\ restore_if_many raw = e0 :: r'.
Proof.
  intros [|e0 [|e1 r]] H; [contradiction | exists e0, [], []; auto |].
  cbn [restore_if_many]. unfold restore_batch. destruct (e_term _ =? 0); eauto.
Qed.

Lemma compact_nonempty : forall l, l <> [] -> compact_if_many l <> [].
Proof.
  intros [|e0 [|e1 r]] H; try contradiction; cbn [compact_if_many]; try discriminate.
  unfold compact_batch. destruct (_ && _); discriminate.
Qed.

Lemma KBatch_inj : forall n a b, KBatch n a = KBatch n b -> a = b.
Proof. intros n a b H. unfold KBatch in H. now inversion H. Qed.

Lemma wb_last_bputs_none : forall n gs k, (forall g, In g gs -> k <> KBatch n (gid g)) ->
  wb_last (map (bput n) gs) k = None.
Proof.
  intros n gs k H. apply wb_last_none. intros o HI <-. apply in_map_iff in HI.
  destruct HI as (g & <- & HI). now apply (H g HI).
Qed.

Lemma wb_last_bputs_in : forall n gs lo g, inc_groups lo gs -> In g gs ->
  wb_last (map (bput n) gs) (KBatch n (gid g)) = Some (Some (VBatch (compact_if_many g))).
Proof.
  induction gs as [|g0 gs IH]; intros lo g H HI; [contradiction|]. cbn [map wb_last].
  destruct H as (A & B & C & D). destruct HI as [<-|HI]; [|now rewrite (IH _ g D HI)].
  rewrite wb_last_bputs_none; [cbn [bput wkey]; now rewrite key_eqb_refl|].
  intros g HI X. apply KBatch_inj in X. pose proof (inc_groups_gid_gt _ _ _ D HI). lia.
Qed.

Lemma in_concat_group : forall (gs : list (list entry)) x, In x (concat gs) -> exists g, In g gs /\ In x g.
Proof.
  induction gs as [|g gs IH]; intros x H; [contradiction|]. cbn [concat] in H.
  apply in_app_or in H. destruct H as [H|H]; [exists g; split; [now left | auto]|].
  destruct (IH x H) as (g' & A & B). exists g'. split; [now right | auto].
Qed.

Definition merge_prefix_ok (nd : rnode) (i0 : N) (P : list entry) : Prop :=
  good_from 0 1 P /\
  (forall x, In x P -> batch_id (e_index x) = batch_id i0 /\ e_index x < i0 /\
                       e_term x <= hterm nd /\ e_index x < max_index) /\
  filter (fun x => n_marker nd <? e_index x) P = bfilter (batch_id i0) (below i0 (n_ents nd)).

Lemma stored_prefix_ok : forall g cb nd n raw i0, BC g cb nd n ->
  g (KBatch n (batch_id i0)) = Some (VBatch raw) -> i0 <= n_last nd + 1 ->
  merge_prefix_ok nd i0 (filter (fun x => e_index x <? i0) (restore_if_many raw)).
Proof.
  intros g cb nd n raw i0 HB HG Hi. destruct (bc_all _ _ _ _ HB _ _ HG) as (A & B & C & D).
  set (R := restore_if_many raw) in *. split; [now apply good_from_filter|]. split.
  - intros x HI. apply filter_In in HI. destruct HI as [HI HX]. apply N.ltb_lt in HX.
    destruct (C x HI) as (C1 & C2 & C3). auto.
  - rewrite (filter_ext_in (fun x => n_marker nd <? e_index x) (in_log nd)).
    + rewrite filter_comm, D. unfold bfilter, below. apply filter_comm.
    + intros x HI. apply filter_In in HI. destruct HI as [_ HX]. apply N.ltb_lt in HX.
      unfold in_log. assert (e_index x <=? n_last nd = true) as -> by (apply N.leb_le; lia).
      now rewrite andb_true_r.
Qed.

Lemma empty_prefix_ok : forall nd i0, bfilter (batch_id i0) (below i0 (n_ents nd)) = [] -> merge_prefix_ok nd i0 [].
Proof. intros nd i0 H. split; [exact I|]. split; [intros x []|]. now rewrite H. Qed.

Lemma merged_first_spec : forall m g cn nd n g1 e0,
  (forall b, g (KBatch n b) = kv_get m (KBatch n b)) -> BC g (c_batch cn) nd n ->
  g1 <> [] -> hd dummy_entry g1 = e0 -> n_marker nd < e_index e0 <= n_last nd + 1 ->
  exists P, b_merged_first m cn n g1 = Some (P ++ g1) /\ merge_prefix_ok nd (e_index e0) P.
Proof.
  intros m g cn nd n g1 e0 Hg HB Hn Hh Hi. set (i0 := e_index e0) in *. set (b0 := batch_id i0).
  destruct g1 as [|x g1']; [contradiction|]. cbn [hd] in Hh. subst x.
  assert (Hbelow : forall e, In e (below i0 (n_ents nd)) -> In e (n_ents nd) /\ e_index e < i0).
  { intros e HI. unfold below in HI. apply filter_In in HI. destruct HI as [A B]. apply N.ltb_lt in B. auto. }
  unfold b_merged_first. fold i0. fold b0.
  destruct (i0 mod bsz =? 0) eqn:EA.
  { apply N.eqb_eq in EA. exists []. split; [reflexivity|]. apply empty_prefix_ok.
    unfold bfilter. apply filter_nil. intros e HI. destruct (Hbelow e HI) as [_ HL].
    apply N.eqb_neq. pose proof (aligned_spec i0 EA _ HL). unfold b0 in *. lia. }
  assert (HDB : exists P, match get_batch_from_db m n b0 with
                          | None => None
                          | Some None => Some (e0 :: g1')
                          | Some (Some lb) => merge_first_batch (e0 :: g1') lb
                          end = Some (P ++ e0 :: g1') /\ merge_prefix_ok nd i0 P).
  { unfold get_batch_from_db. rewrite <- Hg. destruct (g (KBatch n b0)) as [v|] eqn:G.
    - destruct (bc_typed _ _ _ _ HB _ _ G) as (raw & ->).
      destruct (bc_all _ _ _ _ HB _ _ G) as (A & B & C & D).
      exists (filter (fun x => e_index x <? i0) (restore_if_many raw)). split.
      + apply (merge_first_batch_spec _ _ e0 0 1); auto; try discriminate.
        * intros X. destruct raw as [|r0 [|r1 rr]]; try contradiction; cbn in X; try discriminate.
          unfold restore_batch in X. destruct (e_term _ =? 0); discriminate.
        * intros x HI. destruct (C x HI) as (C1 & _). exact C1.
      + eapply stored_prefix_ok; eauto. lia.
    - exists []. split; [reflexivity|]. apply empty_prefix_ok. fold b0.
      destruct (bfilter b0 (below i0 (n_ents nd))) as [|e r] eqn:F; [reflexivity|]. exfalso.
      assert (In e (bfilter b0 (below i0 (n_ents nd)))) as HI by (rewrite F; now left).
      unfold bfilter in HI. apply filter_In in HI. destruct HI as [HI HX]. apply N.eqb_eq in HX.
      destruct (Hbelow e HI) as [HE _]. destruct (bc_exists _ _ _ _ HB e HE) as (raw & X).
      rewrite HX in X. rewrite G in X. discriminate. }
  destruct (c_batch cn) as [lb|] eqn:EC; [|exact HDB].
  destruct (bc_cache _ _ _ _ HB lb eq_refl) as (Ln & Lb & Le).
  destruct lb as [|l0 lr]; [contradiction|].
  change (batch_id (e_index l0)) with (gid (l0 :: lr)).
  destruct (b0 <? gid (l0 :: lr)) eqn:E1; [exact HDB|]. apply N.ltb_ge in E1.
  destruct (N.eq_dec (gid (l0 :: lr)) b0) as [E2|E2].
  - (* the cached batch is the stored batch of this id *)
    destruct Le as (raw & G & RR).
    { rewrite E2. unfold b0. apply batch_id_mono. lia. }
    rewrite E2 in G. unfold get_batch_from_db in HDB. rewrite <- Hg, G, RR in HDB. exact HDB.
  - (* an older cached batch: the new entries start a batch *)
    exists []. split.
    + unfold merge_first_batch. change (batch_id (e_index l0)) with (gid (l0 :: lr)). fold i0. fold b0.
      assert (b0 <? gid (l0 :: lr) = false) as -> by (apply N.ltb_ge; lia).
      assert (gid (l0 :: lr) <? b0 = true) as -> by (apply N.ltb_lt; lia). reflexivity.
    + apply empty_prefix_ok. unfold bfilter. apply filter_nil. intros e HI.
      destruct (Hbelow e HI) as [HE _]. apply N.eqb_neq. pose proof (Lb e HE). unfold b0 in *. lia.
Qed.

Lemma contig_last_index : forall l i d, contig i l -> l <> [] -> e_index (last l d) = i + nlen l - 1.
Proof.
  induction l as [|e l IH]; intros i d HC Hn; [contradiction|].
  destruct HC as [HC1 HC2]. rewrite nlen_cons. destruct l as [|e1 l'].
  - cbn [last]. unfold nlen; cbn [length]. lia.
  - rewrite last_cons2. rewrite (IH (i + 1) d HC2) by discriminate. rewrite nlen_cons. lia.
Qed.

Lemma contig_id_between : forall X i x b, contig i X -> In x X ->
  batch_id i <= b <= batch_id (e_index x) -> exists y, In y X /\ batch_id (e_index y) = b.
Proof.
  intros X i x b HC HI Hb. pose proof (contig_bounds _ _ _ HC HI) as Bx.
  destruct (N.eq_dec b (batch_id i)) as [->|Hne].
  - destruct (contig_nth _ _ i HC ltac:(lia)) as (y & Y1 & Y2). exists y. split; [auto | now rewrite Y2].
  - assert (i < b * bsz <= e_index x) as Hr.
    { pose proof (batch_id_spec i). pose proof (batch_id_spec (e_index x)). bid. lia. }
    destruct (contig_nth _ _ (b * bsz) HC ltac:(lia)) as (y & Y1 & Y2). exists y. split; [auto|].
    rewrite Y2. apply batch_id_mul.
Qed.

Lemma n_last_term_ge : forall nd e0 es,
  contig (n_marker nd + 1) (n_ents nd) ->
  upd_ents_wf nd (e0 :: es) = true -> n_last_term nd <= e_term e0.
Proof.
  intros nd e0 es HC Hwf. cbn [upd_ents_wf] in Hwf. rewrite !andb_true_iff in Hwf.
  destruct Hwf as (((W1 & W2) & W3) & W4). apply N.ltb_lt in W1. apply N.leb_le in W2.
  cbn [ents_okb] in W4. rewrite !andb_true_iff in W4. destruct W4 as ((((_ & P) & _) & _) & _).
  apply N.leb_le in P.
  destruct (e_index e0 <=? n_last nd) eqn:E; [lia|]. apply N.leb_gt in E.
  assert (e_index e0 = n_last nd + 1) as Hi by lia. unfold n_last_term.
  destruct (n_ents nd) as [|x l] eqn:EN.
  - cbn [last_term]. unfold n_last in Hi. rewrite EN in Hi. unfold nlen in Hi. cbn [length] in Hi.
    assert (e_index e0 =? n_marker nd + 1 = true) as X by (apply N.eqb_eq; lia). rewrite X in P. lia.
  - destruct (last_term_in (x :: l) (n_mterm nd) ltac:(discriminate)) as (y & Y1 & Y2 & Y3).
    rewrite Y2. rewrite <- EN in *.
    assert (e_index y = n_last nd) as Hy.
    { rewrite Y3. rewrite (contig_last_index _ _ y HC) by (rewrite EN; discriminate).
      unfold n_last. assert (0 < nlen (n_ents nd)) by (rewrite EN, nlen_cons; lia). lia. }
    assert (e_index e0 =? n_marker nd + 1 = false) as X.
    { apply N.eqb_neq. unfold n_last in Hi. assert (0 < nlen (n_ents nd)) by (rewrite EN, nlen_cons; lia). lia. }
    rewrite X in P. replace (e_index e0 - 1) with (e_index y) in P by lia.
    rewrite (term_at_in _ _ _ HC Y1) in P. lia.
Qed.

Lemma upd_ents_wf_good : forall nd e0 es0, contig (n_marker nd + 1) (n_ents nd) ->
  upd_ents_wf nd (e0 :: es0) = true -> good_from (e_index e0 - 1) (hterm nd) (e0 :: es0).
Proof.
  intros nd e0 es0 HC Hwf. pose proof (n_last_term_ge nd e0 es0 HC Hwf) as KF.
  cbn [upd_ents_wf] in Hwf. rewrite !andb_true_iff in Hwf. destruct Hwf as (((W1 & _) & _) & W4).
  apply N.ltb_lt in W1.
  destruct (ents_okb_good _ _ _ (e_index e0 - 1) W4 ltac:(lia)) as (A & _ & C). split; [exact A|]. split; [|exact C].
  cbn [ents_okb] in W4. rewrite !andb_true_iff in W4. destruct W4 as ((((_ & P) & _) & _) & _).
  apply N.leb_le in P. unfold hterm. lia.
Qed.

Lemma in_log_range : forall nd x, in_log nd x = true <-> n_marker nd < e_index x <= n_last nd.
Proof. intros. unfold in_log. rewrite andb_true_iff, N.ltb_lt, N.leb_le. tauto. Qed.

Lemma bfilter_in : forall b es x, In x (bfilter b es) <-> In x es /\ batch_id (e_index x) = b.
Proof. intros. unfold bfilter. rewrite filter_In, N.eqb_eq. tauto. Qed.

Lemma bfilter_nil_iff : forall b es, (forall x, In x es -> batch_id (e_index x) <> b) -> bfilter b es = [].
Proof. intros b es H. unfold bfilter. apply filter_nil. intros x HI. apply N.eqb_neq. auto. Qed.

Lemma bfilter_first_groups : forall g1 t b0, g1 <> [] -> uniform_id g1 b0 -> inc_groups b0 t ->
  bfilter b0 (concat (g1 :: t)) = g1 /\
  (forall gk, In gk t -> bfilter (gid gk) (concat (g1 :: t)) = gk /\ b0 < gid gk) /\
  (forall b, b <> b0 -> (forall gk, In gk t -> gid gk <> b) -> bfilter b (concat (g1 :: t)) = []).
Proof.
  intros g1 t b0 Hn HU HT. destruct (bfilter_groups t b0 HT) as [I1 I2]. cbn [concat].
  split; [|split].
  - rewrite bfilter_app, I2.
    + rewrite app_nil_r. unfold bfilter. apply filter_all. intros x HX. apply N.eqb_eq. now apply HU.
    + intros gk HI X. pose proof (inc_groups_gid_gt _ _ _ HT HI). lia.
  - intros gk HI. pose proof (inc_groups_gid_gt _ _ _ HT HI) as L. split; [|exact L].
    rewrite bfilter_app, (I1 gk HI). rewrite bfilter_nil_iff; [reflexivity|].
    intros x HX. rewrite (HU x HX). lia.
  - intros b Hb Ht. rewrite bfilter_app, I2 by auto. rewrite app_nil_r.
    apply bfilter_nil_iff. intros x HX. rewrite (HU x HX). auto.
Qed.

Lemma hterm_bounds : forall nd, good_from (n_marker nd) (N.max 1 (n_mterm nd)) (n_ents nd) ->
  N.max 1 (n_mterm nd) <= hterm nd /\ forall x, In x (n_ents nd) -> e_term x <= hterm nd.
Proof.
  intros nd H. destruct (good_le_last_term _ _ _ H) as [I1 I2]. unfold hterm, n_last_term.
  destruct (n_ents nd) as [|z l] eqn:EN.
  - cbn [last_term] in *. split; [lia | intros x []].
  - change (last_term (n_mterm nd) (z :: l)) with (last_term (N.max 1 (n_mterm nd)) (z :: l)).
    split; [lia|]. intros x HI. pose proof (I2 x HI). lia.
Qed.

Lemma merge_prefix_gid : forall nd i0 P g1, merge_prefix_ok nd i0 P -> g1 <> [] ->
  uniform_id g1 (batch_id i0) -> P ++ g1 <> [] /\ gid (P ++ g1) = batch_id i0.
Proof.
  intros nd i0 [|p P] g1 (_ & PX & _) Hn HU; cbn [app].
  - split; [exact Hn | now apply uniform_gid].
  - split; [discriminate|]. unfold gid. cbn [hd]. apply (PX p (or_introl eq_refl)).
Qed.

(* the batch stored under id b once the gap-free entries es, the first of them in batch b0, are saved:
   what the stored batch of b0 held below the first new index (P), then the new entries of that id *)
Definition saved_batch (P es : list entry) (b0 b : N) : list entry :=
  (if b =? b0 then P else []) ++ bfilter b es.
Definition stored_of (X : list entry) : option value :=
  match X with [] => None | _ :: _ => Some (VBatch (compact_if_many X)) end.

Lemma stored_of_nonempty : forall X, X <> [] -> stored_of X = Some (VBatch (compact_if_many X)).
Proof. intros [|x X] H; [contradiction | reflexivity]. Qed.

Lemma b_record_spec : forall m g c nd n e0 es0,
  (forall b, g (KBatch n b) = kv_get m (KBatch n b)) -> BC g (c_batch (c n)) nd n ->
  contig (e_index e0) (e0 :: es0) -> n_marker nd < e_index e0 <= n_last nd + 1 ->
  exists P cn' puts,
    b_record m c n (e0 :: es0) = Some (cupd c n cn', puts, e_index e0 + nlen (e0 :: es0) - 1) /\
    merge_prefix_ok nd (e_index e0) P /\ wb_in_node puts n /\ wb_wt puts /\
    (forall k, (forall b, k <> KBatch n b) -> wb_last puts k = None) /\
    (forall b, wb_last puts (KBatch n b) =
               option_map Some (stored_of (saved_batch P (e0 :: es0) (batch_id (e_index e0)) b))) /\
    c_state cn' = c_state (c n) /\ c_snap cn' = c_snap (c n) /\
    c_batch cn' = Some (saved_batch P (e0 :: es0) (batch_id (e_index e0))
                                    (batch_id (e_index e0 + nlen (e0 :: es0) - 1))).
Proof.
  intros m g c nd n e0 es0 Hg HB HCe Hi. set (es := e0 :: es0) in *. set (i0 := e_index e0) in *.
  destruct (split_contig e0 es0 HCe) as (g1 & t & ES & G1n & G1u & GT & GC). fold es in ES, GC. fold i0 in G1u, GT.
  set (b0 := batch_id i0) in *.
  assert (Hhd : hd dummy_entry g1 = e0) by (destruct g1; [contradiction | now inversion GC]).
  destruct (merged_first_spec m g (c n) nd n g1 e0 Hg HB G1n Hhd Hi) as (P & EM & PO). fold i0 in PO.
  destruct (merge_prefix_gid nd i0 P g1 PO G1n G1u) as [Mn Mg]. fold b0 in Mg.
  set (meb := P ++ g1) in *.
  set (lastid := batch_id (e_index (last es e0))).
  assert (Hlastid : lastid = batch_id (i0 + nlen es - 1)).
  { unfold lastid. now rewrite (contig_last_index _ _ e0 HCe) by discriminate. }
  set (cn1 := if lastid =? b0 then mkC (c_state (c n)) (c_max (c n)) (c_snap (c n)) (Some meb) else c n).
  destruct (record_tail m n b0 lastid t b0 cn1 GT (N.le_refl _)) as (cn' & ET & S1 & S3 & S4 & S5).
  destruct (bfilter_first_groups g1 t _ G1n G1u GT) as (BF1 & BFt & BFn). rewrite GC in BF1, BFt, BFn.
  assert (Sc : c_state cn' = c_state (c n) /\ c_snap cn' = c_snap (c n)).
  { unfold cn1 in S1, S3. now destruct (lastid =? b0). }
  exists P, cn', (map (bput n) (meb :: t)). split.
  { unfold b_record. unfold es at 1. fold es. fold i0. fold b0. fold lastid. rewrite ES.
    destruct g1 as [|x g1']; [contradiction|]. cbn [hd] in Hhd. subst x.
    cbn [record_groups]. fold i0 b0. rewrite N.eqb_refl, EM. fold meb cn1. rewrite ET.
    rewrite (max_entry_index_contig es i0 0 HCe) by (discriminate || lia).
    cbn [map]. unfold bput at 2. now rewrite Mg. }
  split; [exact PO|].
  split; [intros o HI; apply in_map_iff in HI; destruct HI as (x & <- & _); apply key_node_mk|].
  split; [intros k v HI; apply in_map_iff in HI; destruct HI as (x & X & _); inversion X; apply wt_untyped; now right|].
  split; [intros k Hk; apply wb_last_bputs_none; intros x _; apply Hk|].
  split; [|split; [exact (proj1 Sc) | split; [exact (proj2 Sc)|]]].
  - intros b. unfold saved_batch. cbn [map wb_last]. destruct (N.eqb_spec b b0) as [->|Hb].
    + rewrite BF1. fold meb. rewrite (stored_of_nonempty _ Mn), wb_last_bputs_none.
      * cbn [bput wkey option_map]. now rewrite Mg, key_eqb_refl.
      * intros gk HI X. apply KBatch_inj in X. destruct (BFt gk HI). lia.
    + cbn [app]. destruct (existsb (fun gk => gid gk =? b) t) eqn:EX.
      * apply existsb_exists in EX. destruct EX as (gk & GI & EB). apply N.eqb_eq in EB. subst b.
        destruct (BFt gk GI) as [-> _]. rewrite (wb_last_bputs_in n t _ gk GT GI).
        now rewrite (stored_of_nonempty _ (inc_groups_nonempty _ _ _ GT GI)).
      * assert (forall gk, In gk t -> gid gk <> b) as Hn.
        { intros gk GI X. apply not_true_iff_false in EX. apply EX, existsb_exists. exists gk. split; [exact GI | now apply N.eqb_eq]. }
        rewrite (BFn b Hb Hn), wb_last_bputs_none.
        -- cbn [bput wkey stored_of option_map]. rewrite key_eqb_neq; [reflexivity|].
           intros X. apply KBatch_inj in X. congruence.
        -- intros gk GI X. apply KBatch_inj in X. exact (Hn gk GI (eq_sym X)).
  - (* the group of the last entry is the cached one *)
    rewrite <- Hlastid. unfold saved_batch.
    assert (In (last es e0) (concat (g1 :: t))) as HL by (rewrite GC; apply good_last_in; discriminate).
    destruct (in_concat_group _ _ HL) as (gl & [<-|GI] & GX).
    + assert (lastid = b0) as E by (now apply G1u). rewrite E, N.eqb_refl, BF1.
      rewrite S4; [unfold cn1; now rewrite E, N.eqb_refl|].
      intros gk HI. pose proof (inc_groups_gid_gt _ _ _ GT HI). lia.
    + assert (gid gl = lastid) as E by (symmetry; now apply (inc_groups_uniform _ _ _ GT GI)).
      destruct (BFt gl GI) as [BE L]. rewrite <- E, BE.
      assert (gid gl =? b0 = false) as -> by (apply N.eqb_neq; lia). now apply S5.
Qed.

Lemma below_app_hterm : forall nd e0 es0, good_from (e_index e0 - 1) (hterm nd) (e0 :: es0) ->
  let nd' := mkNode (n_marker nd) (n_mterm nd) (below (e_index e0) (n_ents nd) ++ e0 :: es0) (n_st nd) (n_ss nd) in
  hterm nd <= hterm nd' /\ forall x, In x (e0 :: es0) -> e_term x <= hterm nd'.
Proof.
  intros nd e0 es0 (A & B & C) nd'. destruct (good_le_last_term _ _ _ C) as [I1 I2].
  assert (hterm nd' = last_term (e_term e0) es0) as ->.
  { unfold hterm, n_last_term, nd'. cbn [n_mterm n_ents]. rewrite last_term_app. cbn [last_term].
    unfold hterm in B. lia. }
  split; [lia|]. intros x [<-|HI]; [lia | auto].
Qed.

(* the stored batches after such a save, over any read function g' that shows the saved batches and
   leaves the other batches of the replica as g has them *)
Lemma BC_saved : forall g g' cb nd n e0 es0 P,
  let es := e0 :: es0 in let i0 := e_index e0 in let mi := i0 + nlen es - 1 in let b0 := batch_id i0 in
  let nd' := mkNode (n_marker nd) (n_mterm nd) (below i0 (n_ents nd) ++ es) (n_st nd) (n_ss nd) in
  BC g cb nd n -> contig (n_marker nd + 1) (n_ents nd) -> contig i0 es ->
  n_marker nd < i0 <= n_last nd + 1 -> mi < max_index -> good_from (i0 - 1) (hterm nd) es ->
  merge_prefix_ok nd i0 P ->
  (forall b, g' (KBatch n b) = match stored_of (saved_batch P es b0 b) with Some v => Some v | None => g (KBatch n b) end) ->
  BC g' (Some (saved_batch P es b0 (batch_id mi))) nd' n.
Proof.
  intros g g' cb nd n e0 es0 P es i0 mi b0 nd' HB HC HCe Hi Hmib HGe (PG & PX & PF) K. fold b0 in PX, PF.
  assert (Hes : forall x, In x es -> i0 <= e_index x <= mi).
  { intros x HI. pose proof (contig_bounds _ _ _ HCe HI). unfold mi. lia. }
  assert (Hbelow : forall e, In e (below i0 (n_ents nd)) -> In e (n_ents nd) /\ e_index e < i0).
  { intros e HI. unfold below in HI. apply filter_In in HI. now rewrite N.ltb_lt in HI. }
  destruct (hterm_bounds nd (bc_good _ _ _ _ HB)) as [HMT1 HMT2].
  destruct (below_app_hterm nd e0 es0 HGe) as [HT2 LT3]. pose proof (below_app_last nd i0 es HC Hi) as Hlast'.
  fold i0 es nd' mi in HT2, LT3, Hlast'.
  (* a batch id with no new entry lies on one side of the new ones *)
  assert (Hside : forall b, bfilter b es = [] -> b < b0 \/ batch_id mi < b).
  { intros b Hb. destruct (N.lt_ge_cases b b0) as [L|L]; [now left|]. right.
    destruct (N.lt_ge_cases (batch_id mi) b) as [U|U]; [exact U|]. exfalso.
    destruct (contig_nth _ _ mi HCe) as (x & X1 & X2); [unfold mi, es; rewrite nlen_cons; lia|].
    destruct (contig_id_between es i0 x b HCe X1) as (y & Y1 & Y2); [rewrite X2; fold b0; lia|].
    assert (In y (bfilter b es)) as Y by (apply bfilter_in; auto). rewrite Hb in Y. destruct Y. }
  (* a saved batch: well formed, of its id, and what of it lies in the log is the log's part of that id *)
  assert (HX : forall b, saved_batch P es b0 b <> [] ->
            good_from 0 1 (saved_batch P es b0 b) /\
            (forall x, In x (saved_batch P es b0 b) ->
               batch_id (e_index x) = b /\ e_term x <= hterm nd' /\ e_index x <= mi) /\
            filter (in_log nd') (saved_batch P es b0 b) = bfilter b (n_ents nd')).
  { intros b. unfold saved_batch. set (Pb := if b =? b0 then P else []). intros Hne.
    assert (Hb : b0 <= b).
    { unfold Pb in Hne. destruct (N.eqb_spec b b0) as [Eb|Hb]; [lia|]. cbn [app] in Hne.
      destruct (bfilter b es) as [|x r] eqn:F; [contradiction|].
      assert (In x (bfilter b es)) as X by (rewrite F; now left). apply bfilter_in in X. destruct X as [X1 <-].
      apply batch_id_mono. apply (Hes x X1). }
    assert (HPb : good_from 0 1 Pb /\
                  (forall x, In x Pb -> batch_id (e_index x) = b /\ e_index x < i0 /\ e_term x <= hterm nd) /\
                  filter (fun x => n_marker nd <? e_index x) Pb = bfilter b (below i0 (n_ents nd))).
    { unfold Pb. destruct (N.eqb_spec b b0) as [Eb|Hn].
      - rewrite Eb. split; [exact PG|]. split; [|exact PF]. intros x HI. destruct (PX x HI) as (A & B & C & _). auto.
      - split; [exact I|]. split; [intros x []|]. symmetry. apply bfilter_nil_iff. intros x HI.
        destruct (Hbelow x HI) as [_ HL]. pose proof (batch_id_mono (e_index x) i0 ltac:(lia)). fold b0 in H. lia. }
    destruct HPb as (G0 & X0 & F0). split; [|split].
    - eapply (good_from_app Pb _ 0 1 (i0 - 1) (hterm nd)); eauto; try (unfold hterm; lia).
      + intros x HI. destruct (X0 x HI) as (_ & B & C). lia.
      + now apply good_from_filter.
    - intros x HI. apply in_app_or in HI. destruct HI as [HI|HI].
      + destruct (X0 x HI) as (A & B & C). split; [exact A|]. split; lia.
      + apply bfilter_in in HI. destruct HI as [HI A]. pose proof (Hes x HI). split; [exact A|]. split; [now apply LT3 | lia].
    - cbn [n_ents nd']. rewrite filter_app, bfilter_app. f_equal.
      + rewrite <- F0. apply filter_ext_in. intros x HI. destruct (X0 x HI) as (_ & B & _).
        unfold in_log. rewrite Hlast'. cbn [n_marker nd'].
        assert (e_index x <=? mi = true) as -> by (apply N.leb_le; lia). now rewrite andb_true_r.
      + apply filter_all. intros x HI. apply bfilter_in in HI. destruct HI as [HI _].
        apply in_log_range. rewrite Hlast'. cbn [n_marker nd']. pose proof (Hes x HI). lia. }
  assert (HR : forall b, saved_batch P es b0 b <> [] ->
            g' (KBatch n b) = Some (VBatch (compact_if_many (saved_batch P es b0 b))) /\
            restore_if_many (compact_if_many (saved_batch P es b0 b)) = saved_batch P es b0 b).
  { intros b Hne. rewrite K, (stored_of_nonempty _ Hne). split; [reflexivity|].
    exact (batch_compact_restore_id_proved _ 0 (proj1 (HX b Hne))). }
  assert (HO : forall b, saved_batch P es b0 b = [] ->
            g' (KBatch n b) = g (KBatch n b) /\ bfilter b es = [] /\ (b < b0 \/ batch_id mi < b)).
  { intros b Hnil. rewrite K, Hnil. split; [reflexivity|]. unfold saved_batch in Hnil.
    apply app_eq_nil in Hnil. destruct Hnil as [_ Hnil]. split; [exact Hnil | exact (Hside b Hnil)]. }
  constructor; cbn [n_marker n_mterm n_ents nd'].
  - eapply (good_from_app _ es _ _ (i0 - 1) (hterm nd)); eauto; try lia.
    + apply good_from_filter. exact (bc_good _ _ _ _ HB).
    + intros x HI. destruct (Hbelow x HI) as [A B]. split; [lia | auto].
  - intros b v X. rewrite K in X. unfold stored_of in X.
    destruct (saved_batch P es b0 b); [exact (bc_typed _ _ _ _ HB b v X) | inversion X; eauto].
  - intros b raw X. destruct (saved_batch P es b0 b) as [|x r] eqn:EX.
    + destruct (HO b EX) as (E & Hnil & S). rewrite E in X.
      destruct (bc_all _ _ _ _ HB b raw X) as (R1 & R2 & R3 & R4).
      split; [exact R1|]. split; [exact R2|]. split.
      * intros y HI. destruct (R3 y HI) as (A1 & A2 & A3). split; [exact A1|]. split; [lia | exact A3].
      * rewrite bfilter_app, Hnil, app_nil_r. destruct S as [Lb|Lb].
        -- (* an older batch: nothing changes *)
           rewrite (filter_ext_in (in_log nd') (in_log nd)).
           ++ rewrite R4. unfold bfilter, below. rewrite filter_comm. symmetry. apply filter_all.
              intros y HI. apply filter_In in HI. destruct HI as [_ HI]. apply N.eqb_eq in HI.
              apply N.ltb_lt. apply batch_id_lt. fold b0. lia.
           ++ intros y HI. destruct (R3 y HI) as (A1 & _).
              assert (e_index y < i0) by (apply batch_id_lt; fold b0; lia).
              unfold in_log. rewrite Hlast'. cbn [n_marker nd'].
              assert (e_index y <=? mi = true) as -> by (apply N.leb_le; lia).
              assert (e_index y <=? n_last nd = true) as -> by (apply N.leb_le; lia). reflexivity.
        -- (* a stale batch past the new end of the log *)
           rewrite bfilter_nil_iff.
           ++ apply filter_nil. intros y HI. destruct (R3 y HI) as (A1 & _).
              apply not_true_iff_false. rewrite in_log_range, Hlast'. intros [_ IL].
              pose proof (batch_id_mono _ _ IL). lia.
           ++ intros y HI. destruct (Hbelow y HI) as [_ HL].
              pose proof (batch_id_mono (e_index y) mi ltac:(lia)). lia.
    + assert (Hne : saved_batch P es b0 b <> []) by (rewrite EX; discriminate).
      destruct (HR b Hne) as [E RR]. rewrite E in X. inversion X; subst raw. rewrite RR.
      destruct (HX b Hne) as (G & XX & FF).
      split; [now apply compact_nonempty|]. split; [exact G|]. split; [|exact FF].
      intros y HI. destruct (XX y HI) as (A & B & C). split; [exact A|]. split; [exact B | lia].
  - intros e HI. destruct (saved_batch P es b0 (batch_id (e_index e))) as [|x r] eqn:EX.
    + destruct (HO _ EX) as (E & Hnil & _). rewrite E. apply in_app_or in HI. destruct HI as [HI|HI].
      * exact (bc_exists _ _ _ _ HB e (proj1 (Hbelow e HI))).
      * exfalso. assert (In e (bfilter (batch_id (e_index e)) es)) as Y by (apply bfilter_in; auto).
        rewrite Hnil in Y. destruct Y.
    + rewrite (proj1 (HR _ ltac:(rewrite EX; discriminate))). eauto.
  - intros lb Hlb. inversion Hlb; subst lb. clear Hlb.
    destruct (contig_nth _ _ mi HCe) as (x & X1 & X2); [unfold mi, es; rewrite nlen_cons; lia|].
    assert (Hne : saved_batch P es b0 (batch_id mi) <> []).
    { unfold saved_batch. intros X. apply app_eq_nil in X. destruct X as [_ X].
      assert (In x (bfilter (batch_id mi) es)) as Y by (apply bfilter_in; split; [auto | now rewrite X2]).
      rewrite X in Y. destruct Y. }
    destruct (HX _ Hne) as (_ & XX & _). destruct (HR _ Hne) as [E RR].
    assert (Hgid : gid (saved_batch P es b0 (batch_id mi)) = batch_id mi).
    { destruct (saved_batch P es b0 (batch_id mi)) as [|y r]; [contradiction|].
      unfold gid. cbn [hd]. apply (XX y). now left. }
    split; [exact Hne|]. split.
    + intros e HI. rewrite Hgid. apply batch_id_mono. apply in_app_or in HI. destruct HI as [HI|HI].
      * destruct (Hbelow e HI). lia.
      * pose proof (Hes e HI). lia.
    + intros _. rewrite Hgid. eauto.
Qed.

Lemma RnG_strip_log : forall g g' cn cn' nd nd' n, RnG g cn (strip nd) n ->
  (forall k, k_tag k = c09_tag_state \/ k_tag k = c09_tag_snapshot -> g' k = g k) ->
  (g' (KMaxIndex n) = Some (VMax (n_last nd')) \/ (g' (KMaxIndex n) = None /\ n_last nd' = 0)) ->
  (forall v, c_max cn' = Some v -> v = n_last nd') -> c_state cn' = c_state cn -> c_snap cn' = c_snap cn ->
  n_st nd' = n_st nd -> n_ss nd' = n_ss nd -> n_last nd' < max_index -> RnG g' cn' (strip nd') n.
Proof.
  intros g g' cn cn' nd nd' n H HF HM HCm Hs1 Hs2 Hst Hss HL.
  eapply RnG_log; [exact H | intros k Hk _; now apply HF | exact Hs1 | exact Hs2 | exact Hst | exact Hss
                  | exact I | intros e [] | | |]; now rewrite n_last_strip.
Qed.

Lemma stage_ents_b : forall m g c nd n u,
  (forall b, g (KBatch n b) = kv_get m (KBatch n b)) ->
  RB1 g (c n) nd n -> u_node u = n -> upd_ents_wf nd (u_ents u) = true ->
  exists c' w, b_save_tail m c u = Some (c', w) /\
    RB1 (gapply w g) (c' n) (upd_ents_step nd (u_ents u)) n /\
    (forall n', n' <> n -> c' n' = c n') /\ wb_in_node w n /\ wb_wt w.
Proof.
  intros m g c nd n u Hg [H HB HC] Hn Hwf. unfold b_save_tail, upd_ents_step. rewrite Hn.
  destruct (u_ents u) as [|e0 es0].
  { exists c, []. split; [reflexivity|]. split; [now constructor|].
    split; [auto|]. split; [intros x HI; destruct HI | intros k v HI; destruct HI]. }
  pose proof (upd_ents_wf_good nd e0 es0 HC Hwf) as HGe.
  destruct (upd_ents_wf_cons nd e0 es0 Hwf) as (Hi & Hmib & HCe).
  destruct (b_record_spec m g c nd n e0 es0 Hg HB HCe Hi)
    as (P & cn' & puts & -> & PO & Pn & Pw & Pk & Pb & Sc1 & Sc2 & CB1).
  set (es := e0 :: es0) in *. set (i0 := e_index e0) in *. set (mi := i0 + nlen es - 1) in *.
  set (b0 := batch_id i0) in *.
  assert (Hmi : 0 < mi < max_index) by (unfold mi, es in *; rewrite nlen_cons in *; lia).
  assert (0 <? mi = true) as -> by (apply N.ltb_lt; lia).
  exists (cs_set_max_index (cupd c n cn') n mi), (puts ++ [WPut (KMaxIndex n) (VMax mi)]). split; [reflexivity|].
  set (g' := gapply (puts ++ [WPut (KMaxIndex n) (VMax mi)]) g).
  assert (LW : forall k, g' k = if key_eqb k (KMaxIndex n) then Some (VMax mi)
                               else match wb_last puts k with Some r => r | None => g k end).
  { intros k. apply gapply_snoc_put. }
  pose proof (below_app_last nd i0 es HC Hi) as Hlast'. fold mi in Hlast'.
  assert (Hcn : cs_set_max_index (cupd c n cn') n mi n = mkC (c_state cn') (Some mi) (c_snap cn') (c_batch cn')).
  { unfold cs_set_max_index. now rewrite !cupd_same. }
  split; [constructor|split; [|split]].
  - rewrite Hcn. eapply RnG_strip_log; [exact H | | | | exact Sc1 | exact Sc2 | reflexivity | reflexivity |];
      rewrite ?Hlast'; [| left | intros v X; now inversion X | lia].
    + intros k Hk. rewrite LW, key_eqb_neq by (intros ->; destruct Hk; discriminate).
      rewrite Pk; [reflexivity|]. intros b ->. destruct Hk; discriminate.
    + rewrite LW, key_eqb_refl. reflexivity.
  - rewrite Hcn. cbn [c_batch]. rewrite CB1.
    apply (BC_saved g g' (c_batch (c n)) nd n e0 es0 P HB HC HCe Hi (proj2 Hmi) HGe PO).
    intros b. rewrite LW, key_eqb_neq by discriminate. rewrite Pb.
    fold es i0 b0. now destruct (stored_of (saved_batch P es b0 b)).
  - cbn [n_marker n_ents]. now apply below_app_contig.
  - intros n' Hn'. unfold cs_set_max_index. now rewrite !cupd_other by auto.
  - apply wb_in_node_app; [exact Pn | apply wb_ok_max].
  - apply wb_wt_app; [exact Pw | apply wb_ok_max].
Qed.

Lemma strip_st : forall nd st, upd_st_step (strip nd) st = strip (upd_st_step nd st).
Proof. intros. unfold upd_st_step. destruct (st_emptyb st); reflexivity. Qed.

Lemma strip_ss : forall nd ss, upd_ss_step (strip nd) ss = strip (upd_ss_step nd ss).
Proof.
  intros. unfold upd_ss_step. destruct (ss_emptyb ss); [reflexivity|].
  unfold strip, n_last, n_last_term, n_ssidx, nlen. cbn [n_marker n_ents n_mterm n_st n_ss length last_term].
  f_equal. lia.
Qed.

Lemma upd_ss_wf_strip : forall nd ss, upd_ss_wf (strip nd) ss = upd_ss_wf nd ss.
Proof.
  intros. unfold upd_ss_wf. rewrite n_last_strip. reflexivity.
Qed.

Lemma BC_st : forall g cb nd n st, BC g cb nd n -> BC g cb (upd_st_step nd st) n.
Proof.
  intros g cb nd n st H. unfold upd_st_step. destruct (st_emptyb st); [exact H|].
  destruct H as [B1 B2 B3 B4 B5]. constructor; auto.
Qed.

Lemma BC_reset : forall g cb nd nd' n, BC g cb nd n -> n_ents nd' = [] -> n_last_term nd <= n_mterm nd' ->
  (cb <> None -> n_marker nd <= n_marker nd') -> BC g cb nd' n.
Proof.
  intros g cb nd nd' n [B1 B2 B3 B4 B5] He Ht Hm.
  assert (HL' : n_last nd' = n_marker nd') by (unfold n_last, nlen; rewrite He; cbn [length]; lia).
  assert (HT' : hterm nd <= hterm nd') by (unfold hterm, n_last_term at 2; rewrite He; cbn [last_term]; lia).
  constructor; rewrite ?He.
  - exact I.
  - exact B2.
  - intros b raw X. destruct (B3 b raw X) as (R1 & R2 & R3 & R4). split; [exact R1|]. split; [exact R2|]. split.
    + intros x HI. destruct (R3 x HI) as (A1 & A2 & A3). split; [exact A1|]. split; [lia | exact A3].
    + apply filter_nil. intros x HI. apply not_true_iff_false. rewrite in_log_range. lia.
  - intros e [].
  - intros lb Hlb. destruct (B5 lb Hlb) as (A & B & C). split; [exact A|]. split; [intros e []|].
    intros X. apply C. pose proof (batch_id_mono (n_marker nd + 1) (n_marker nd' + 1)). rewrite Hlb in Hm.
    assert (n_marker nd <= n_marker nd') by (apply Hm; discriminate). lia.
Qed.

Lemma BC_ss : forall g cb nd n ss, BC g cb nd n -> upd_ss_wf nd ss = true -> BC g cb (upd_ss_step nd ss) n.
Proof.
  intros g cb nd n ss H Hwf. unfold upd_ss_step. destruct (ss_emptyb ss) eqn:E; [exact H|].
  destruct (upd_ss_wf_spec nd ss E Hwf) as (_ & W2 & Hcase).
  assert (Hlast : n_last nd <= ss_index ss) by (destruct Hcase as [[_ A]|[_ A]]; lia).
  apply (BC_reset g cb nd); [exact H | reflexivity | exact W2 | intros _; unfold n_last in Hlast; cbn [n_marker]; lia].
Qed.

Lemma gapply_no_batch : forall w g n b, wb_no_batch w -> gapply w g (KBatch n b) = g (KBatch n b).
Proof.
  intros w g n b H. unfold gapply. rewrite wb_last_none; [reflexivity|].
  intros o HI X. apply (H o HI). rewrite X. reflexivity.
Qed.

Lemma contig_ss : forall nd ss, contig (n_marker nd + 1) (n_ents nd) ->
  contig (n_marker (upd_ss_step nd ss) + 1) (n_ents (upd_ss_step nd ss)).
Proof. intros nd ss H. unfold upd_ss_step. destruct (ss_emptyb ss); [exact H | exact I]. Qed.
Lemma contig_st : forall nd st, contig (n_marker nd + 1) (n_ents nd) ->
  contig (n_marker (upd_st_step nd st) + 1) (n_ents (upd_st_step nd st)).
Proof. intros nd st H. unfold upd_st_step. destruct (st_emptyb st); exact H. Qed.

Lemma save_node_b : forall m c nd n u, sorted m -> WT m ->
  RB1 (kv_get m) (c n) nd n -> u_node u = n -> update_wf nd u = true ->
  exists c1 wh, save_head m c u = Some (c1, wh) /\
    (forall n', n' <> n -> c1 n' = c n') /\ wb_in_node wh n /\ wb_wt wh /\
    forall ct, ct n = c1 n ->
      exists ct' wt_, b_save_tail m ct u = Some (ct', wt_) /\
      (forall n', n' <> n -> ct' n' = ct n') /\ wb_in_node wt_ n /\ wb_wt wt_ /\
      RB1 (gapply (wh ++ wt_) (kv_get m)) (ct' n) (update_step nd u) n.
Proof.
  intros m c nd n u HS HW [H HB HC] Hn Hwf. pose proof (proj1 (andb_true_iff _ _) Hwf) as [Wss Wes].
  destruct (save_head_node m c (strip nd) n u HS HW H Hn) as (c1 & wh & E & O & CB & (Kn & Kw & Knb) & R2);
    [now rewrite upd_ss_wf_strip | exact (update_wf_last_index _ _ Hwf) |].
  rewrite strip_ss, strip_st in R2.
  exists c1, wh. split; [exact E|]. split; [exact O|]. split; [exact Kn|]. split; [exact Kw|].
  intros ct Hct. rewrite <- Hct in R2.
  set (nd2 := upd_st_step (upd_ss_step nd (u_ss u)) (u_st u)) in *.
  assert (B2' : BC (gapply wh (kv_get m)) (c_batch (ct n)) nd2 n).
  { rewrite Hct, CB. unfold nd2. rewrite <- upd_steps_commute.
    eapply BC_ext; [|intros b; apply gapply_no_batch; exact Knb].
    apply BC_ss; [now apply BC_st | now rewrite upd_ss_wf_st]. }
  assert (C2' : contig (n_marker nd2 + 1) (n_ents nd2)) by (unfold nd2; apply contig_st, contig_ss; exact HC).
  destruct (stage_ents_b m (gapply wh (kv_get m)) ct nd2 n u) as (ct' & w3 & E3 & R3 & O3 & K3n & K3w); auto.
  - intros b. now apply gapply_no_batch.
  - now constructor.
  - unfold nd2. now rewrite upd_ents_wf_st.
  - exists ct', w3. split; [exact E3|]. split; [exact O3|]. split; [exact K3n|]. split; [exact K3w|].
    unfold update_step. fold nd2. eapply RB1_ext; [exact R3|]. intros k _. apply gapply_app.
Qed.

Definition RB : pdb -> sstate -> Prop := Rel RB1.

Lemma batched_tails : forall m us c, tails b_save_tail m c us = b_save_tails m c us.
Proof.
  induction us as [|u us IH]; intros c; [reflexivity|]. cbn [tails b_save_tails].
  destruct (b_save_tail m c u) as [[c1 w1]|]; [|reflexivity]. now rewrite IH.
Qed.

Lemma save_raft_state_RB : forall d s us, RB d s -> spec_wf_op s (OSave us) = true ->
  exists d', batched_step d (OSave us) = Some d' /\ RB d' (spec_step s (OSave us)).
Proof.
  intros d s us HR Hwf.
  destruct (save_Rel RB1 RB1_ext b_save_tail save_node_b d s us HR Hwf) as (c1 & Wh & c2 & Wt & EH & ET & HR').
  rewrite batched_tails in ET. cbn [batched_step]. unfold b_save_raft_state. rewrite EH, ET.
  eexists. split; [reflexivity | exact HR'].
Qed.

Definition sstrip (s : sstate) : sstate := fun n => strip (s n).

Lemma RB_R : forall d s, RB d s -> R d (sstrip s).
Proof.
  intros d s (HS & HW & H). split; [exact HS | split; [exact HW|]]. intros n. apply (H n).
Qed.

Lemma get_max_index_RB : forall d s n, RB d s ->
  get_max_index d n = Some (Some (n_last (s n))) \/ (get_max_index d n = Some None /\ n_last (s n) = 0).
Proof.
  intros d s n H. pose proof (get_max_index_R d (sstrip s) n (RB_R _ _ H)) as HM.
  unfold sstrip in HM. now rewrite n_last_strip in HM.
Qed.

Lemma BC_nocache : forall g cb nd n, BC g cb nd n -> BC g None nd n.
Proof. intros g cb nd n [B1 B2 B3 B4 B5]. constructor; auto. intros lb X. discriminate. Qed.

Lemma BC_same_log : forall g cb nd nd' n, BC g cb nd n ->
  n_marker nd' = n_marker nd -> n_mterm nd' = n_mterm nd -> n_ents nd' = n_ents nd -> BC g cb nd' n.
Proof.
  intros g cb nd nd' n [B1 B2 B3 B4 B5] E1 E2 E3.
  assert (n_last nd' = n_last nd) as EL by (unfold n_last; now rewrite E1, E3).
  assert (hterm nd' = hterm nd) as EH by (unfold hterm, n_last_term; now rewrite E2, E3).
  assert (forall x, in_log nd' x = in_log nd x) as EI by (intros; unfold in_log; now rewrite E1, EL).
  constructor; rewrite ?E1, ?E2, ?E3; auto.
  - intros b raw X. destruct (B3 b raw X) as (R1 & R2 & R3 & R4). rewrite EH.
    split; [exact R1|]. split; [exact R2|]. split; [exact R3|].
    rewrite (filter_ext _ _ EI). exact R4.
Qed.

Lemma RB_of_R : forall d s d' s', RB d s -> R d' (sstrip s') ->
  (forall n b, kv_get (p_kv d') (KBatch n b) = kv_get (p_kv d) (KBatch n b)) ->
  (forall n, (c_batch (p_cache d' n) = c_batch (p_cache d n) \/ c_batch (p_cache d' n) = None) /\
             ((n_marker (s' n) = n_marker (s n) /\ n_mterm (s' n) = n_mterm (s n) /\ n_ents (s' n) = n_ents (s n)) \/
              (c_batch (p_cache d' n) = None /\ n_ents (s' n) = [] /\ n_last_term (s n) <= n_mterm (s' n)))) ->
  RB d' s'.
Proof.
  intros d s d' s' (_ & _ & H) (HS' & HW' & HR') HK HL. split; [exact HS' | split; [exact HW'|]]. intros n.
  destruct (H n) as [A B C]. destruct (HL n) as [HC [(E1 & E2 & E3)|(E0 & E1 & E2)]].
  - constructor; [exact (HR' n) | | now rewrite E1, E3].
    eapply BC_ext; [|intros b; apply HK]. apply (BC_same_log _ _ (s n)); auto.
    destruct HC as [->| ->]; [exact B | eapply BC_nocache; eauto].
  - constructor; [exact (HR' n) | | rewrite E1; exact I].
    eapply BC_ext; [|intros b; apply HK]. rewrite E0. eapply BC_reset; [eapply BC_nocache; exact B | exact E1 | exact E2 | intros X; now destruct X].
Qed.

Lemma commit_no_batch : forall m w n b, sorted m -> wb_no_batch w ->
  kv_get (kv_commit m w) (KBatch n b) = kv_get m (KBatch n b).
Proof. intros m w n b HS H. rewrite get_commit_g by auto. now apply gapply_no_batch. Qed.

Lemma reopen_RB : forall d s, RB d s -> RB (p_reopen d) s.
Proof.
  intros d s H. apply (RB_of_R d s); [exact H | apply reopen_R, RB_R, H | reflexivity|].
  intros n. split; [now right | left; auto].
Qed.

Lemma try_save_snapshot_batch : forall c n idx n',
  c_batch (fst (cs_try_save_snapshot c n idx) n') = c_batch (c n').
Proof.
  intros c n idx n'. pose proof (try_save_snapshot_spec c n idx) as TS.
  destruct (cs_try_save_snapshot c n idx) as [c1 ok]. destruct TS as (O & E & _). cbn [fst].
  destruct (nid_dec n' n) as [->|Hn]; [now rewrite E | now rewrite O].
Qed.

Lemma spec_step_snap_strip : forall s n ss n',
  spec_step (sstrip s) (OSnap n ss) n' = sstrip (spec_step s (OSnap n ss)) n'.
Proof.
  intros. cbn [spec_step]. unfold sstrip at 1 2.
  change (n_ssidx (strip (s n))) with (n_ssidx (s n)).
  destruct (n_ssidx (s n) <? ss_index ss); [|reflexivity].
  unfold sstrip, supd. destruct (nid_eqb n' n); reflexivity.
Qed.

Lemma save_snapshots_RB : forall d s n ss, RB d s -> spec_wf_op s (OSnap n ss) = true ->
  exists d', batched_step d (OSnap n ss) = Some d' /\ RB d' (spec_step s (OSnap n ss)).
Proof.
  intros d s n ss HRB Hwf. pose proof (RB_R _ _ HRB) as HR. pose proof HRB as (HS & _).
  assert (Hwf' : spec_wf_op (sstrip s) (OSnap n ss) = true).
  { cbn [spec_wf_op] in *. unfold sstrip. rewrite n_last_strip. exact Hwf. }
  destruct (save_snapshots_R d (sstrip s) n ss HR Hwf') as (d' & E & HR').
  exists d'. split; [exact E|].
  (* SaveSnapshots writes snapshot records only and leaves the cached batches alone *)
  assert (HF : (forall n' b, kv_get (p_kv d') (KBatch n' b) = kv_get (p_kv d) (KBatch n' b)) /\
               forall n', c_batch (p_cache d' n') = c_batch (p_cache d n')).
  { cbn [plain_step] in E. unfold p_save_snapshots in E. cbn [save_snapshots_wb mk_snap_update u_ss u_node] in E.
    destruct (ss_emptyb ss); [inversion E; cbn; auto|].
    pose proof (try_save_snapshot_batch (p_cache d) n (ss_index ss)) as TB.
    destruct (cs_try_save_snapshot (p_cache d) n (ss_index ss)) as [c1 [|]]; cbn [fst] in TB; [|inversion E; cbn; auto].
    destruct (save_snapshot_wb (p_kv d) n ss) as [w|] eqn:EW; [|discriminate]. inversion E. cbn [p_kv p_cache].
    split; [|exact TB]. intros n' b. rewrite app_nil_r.
    apply commit_no_batch; [exact HS | apply (save_snapshot_wb_ok _ _ _ _ EW)]. }
  apply (RB_of_R d s); [exact HRB | | exact (proj1 HF) |].
  - destruct HR' as (A & B & C). split; [exact A | split; [exact B|]]. intros n'. rewrite <- spec_step_snap_strip. apply C.
  - intros n'. split; [left; apply HF|].
    + left. cbn [spec_step]. destruct (n_ssidx (s n) <? ss_index ss); [|auto].
      unfold supd. destruct (nid_eqb n' n) eqn:EN; [|auto]. apply nid_eqb_eq in EN. now subst.
Qed.

Lemma import_snapshot_RB : forall d s n ss, RB d s -> spec_wf_op s (OImport n ss) = true ->
  exists d', batched_step d (OImport n ss) = Some d' /\ RB d' (spec_step s (OImport n ss)).
Proof.
  intros d s n ss HRB Hwf. pose proof (RB_R _ _ HRB) as HR. pose proof HRB as (HS & _).
  destruct (import_snapshot_R d (sstrip s) n ss HR Hwf) as (d' & E & HR').
  exists d'. split; [exact E|].
  cbn [spec_wf_op] in Hwf. rewrite !andb_true_iff in Hwf. destruct Hwf as (_ & W3). apply N.leb_le in W3.
  cbn [plain_step] in E. unfold p_import_snapshot in E. cbn [p_reopen p_kv p_cache] in E.
  destruct (list_snapshots (p_kv d) n) as [l|]; [|discriminate].
  destruct (save_snapshot_wb (p_kv d) n ss) as [w2|] eqn:E2; [|discriminate].
  inversion E; subst d'. clear E. cbn [p_reopen p_kv p_cache] in *.
  apply (RB_of_R d s); [exact HRB | | |].
  - destruct HR' as (A & B & C). split; [exact A | split; [exact B|]]. intros n'. specialize (C n').
    cbn [spec_step] in *. unfold sstrip, supd in *. destruct (nid_eqb n' n); [|exact C].
    replace (strip _) with (mkNode (ss_index ss) (ss_term ss) [] (Some (mkSt (ss_term ss) 0 (ss_index ss))) (Some ss)); [exact C|].
    unfold strip, n_last, n_last_term, nlen. cbn [n_marker n_ents n_mterm n_st n_ss length last_term]. f_equal. lia.
  - intros n' b. cbn [p_kv].
    destruct (import_wb_ok n ss (filter (fun cur => ss_index ss <=? ss_index cur) l) w2
                (save_snapshot_wb_ok _ _ _ _ E2)) as (_ & _ & NB).
    exact (commit_no_batch _ _ n' b HS NB).
  - intros n'. split; [now right|]. cbn [spec_step]. unfold supd. destruct (nid_eqb n' n) eqn:EN; [|left; auto].
    apply nid_eqb_eq in EN. subst n'. right. cbn [n_ents n_mterm]. auto.
Qed.

Lemma b_remove_get : forall d n idx k, sorted (p_kv d) ->
  kv_get (p_kv (b_remove_entries_to d n idx)) k =
  if (2 <=? batch_id idx) && in_rangeb (KBatch n 0) (KBatch n (batch_id idx - 1)) false k
  then None else kv_get (p_kv d) k.
Proof.
  intros d n idx k HS. unfold b_remove_entries_to.
  destruct ((batch_id idx =? 0) || (batch_id idx =? 1)) eqn:E.
  - assert (2 <=? batch_id idx = false) as ->; [|reflexivity].
    apply N.leb_gt. apply orb_true_iff in E. destruct E as [E|E]; apply N.eqb_eq in E; lia.
  - apply orb_false_iff in E. destruct E as [E1 E2]. apply N.eqb_neq in E1, E2.
    assert (2 <=? batch_id idx = true) as -> by (apply N.leb_le; lia).
    cbn [p_kv andb]. now apply get_del_range.
Qed.

Lemma b_remove_spec : forall d n idx, sorted (p_kv d) -> WT (p_kv d) ->
  let d' := b_remove_entries_to d n idx in
  p_cache d' = p_cache d /\ sorted (p_kv d') /\ WT (p_kv d') /\
  (forall k, (forall b, k <> KBatch n b) -> kv_get (p_kv d') k = kv_get (p_kv d) k) /\
  (forall b, kv_get (p_kv d') (KBatch n b) =
             if b + 1 <? batch_id idx then None else kv_get (p_kv d) (KBatch n b)).
Proof.
  intros d n idx HS HW d'. pose proof (fun k => b_remove_get d n idx k HS) as HG. fold d' in HG.
  assert (p_cache d' = p_cache d /\ sorted (p_kv d') /\ WT (p_kv d')) as (A & B & C).
  { unfold d', b_remove_entries_to. destruct ((batch_id idx =? 0) || (batch_id idx =? 1)); [auto|]. cbn [p_kv p_cache].
    split; [reflexivity|]. split; [now apply sorted_del_range | now apply WT_del_range]. }
  split; [exact A|]. split; [exact B|]. split; [exact C|]. split.
  - intros k Hk. rewrite HG. destruct (2 <=? batch_id idx); [|reflexivity]. cbn [andb].
    destruct (in_rangeb _ _ false k) eqn:E; [|reflexivity].
    apply in_range_prefix in E. destruct E as (b & -> & _). now destruct (Hk b).
  - intros b. rewrite HG. destruct (N.ltb_spec (b + 1) (batch_id idx)) as [L|L].
    + assert (2 <=? batch_id idx = true) as -> by (apply N.leb_le; lia). cbn [andb].
      assert (in_rangeb (KBatch n 0) (KBatch n (batch_id idx - 1)) false (KBatch n b) = true) as ->; [|reflexivity].
      apply in_range_prefix. exists b. split; [reflexivity | lia].
    + destruct (2 <=? batch_id idx) eqn:E2; [|reflexivity]. cbn [andb]. apply N.leb_le in E2.
      destruct (in_rangeb _ _ false (KBatch n b)) eqn:E; [|reflexivity].
      apply in_range_prefix in E. destruct E as (b' & X & L'). apply KBatch_inj in X. subst b'. lia.
Qed.

Lemma good_above : forall l pi pt idx x d, good_from pi pt l -> In x l -> e_index x = idx ->
  good_from idx (e_term x) (above idx l) /\ last_term (e_term x) (above idx l) = last_term d l.
Proof.
  induction l as [|e l IH]; intros pi pt idx x d H HI Hx; [contradiction|].
  destruct H as (A & B & C). unfold above in *. cbn [filter last_term].
  destruct HI as [<-|HI].
  - assert (idx <? e_index e = false) as -> by (apply N.ltb_ge; lia).
    rewrite filter_all; [rewrite <- Hx; now split|].
    intros y HY. apply N.ltb_lt. destruct (good_from_in _ _ _ _ C HY). lia.
  - destruct (good_from_in _ _ _ _ C HI) as [Lx _].
    assert (idx <? e_index e = false) as -> by (apply N.ltb_ge; lia).
    eapply IH; eauto.
Qed.

Lemma BC_cut : forall g g' cb nd nd' n idx, BC g cb nd n ->
  (forall b, batch_id idx <= b + 1 -> g' (KBatch n b) = g (KBatch n b)) ->
  (forall b v, g' (KBatch n b) = Some v -> g (KBatch n b) = Some v) ->
  n_ents nd' = above idx (n_ents nd) -> n_last_term nd' = n_last_term nd ->
  n_marker nd <= n_marker nd' -> idx <= n_marker nd' ->
  (forall y, in_log nd' y = (idx <? e_index y) && in_log nd y) ->
  good_from (n_marker nd') (N.max 1 (n_mterm nd')) (n_ents nd') ->
  BC g' cb nd' n.
Proof.
  intros g g' cb nd nd' n idx [B1 B2 B3 B4 B5] HK HD He HT Hm Hi HIn Hg.
  assert (Hin : forall e, In e (n_ents nd') -> In e (n_ents nd) /\ idx < e_index e).
  { intros e HI. rewrite He in HI. unfold above in HI. apply filter_In in HI. now rewrite N.ltb_lt in HI. }
  constructor.
  - exact Hg.
  - intros b v X. exact (B2 b v (HD b v X)).
  - intros b raw X. destruct (B3 b raw (HD _ _ X)) as (R1 & R2 & R3 & R4).
    split; [exact R1|]. split; [exact R2|]. split; [unfold hterm; rewrite HT; exact R3|].
    rewrite (filter_ext _ _ HIn), filter_and, R4, He. unfold bfilter, above. apply filter_comm.
  - intros e HI. destruct (Hin e HI) as [HI' HX]. destruct (B4 e HI') as (raw & X).
    exists raw. rewrite HK; auto. pose proof (batch_id_mono idx (e_index e) ltac:(lia)). lia.
  - intros lb Hlb. destruct (B5 lb Hlb) as (L1 & L2 & L3). split; [exact L1|]. split.
    + intros e HI. apply L2, Hin, HI.
    + intros X. pose proof (batch_id_mono (n_marker nd + 1) (n_marker nd' + 1) ltac:(lia)).
      pose proof (batch_id_mono idx (n_marker nd' + 1) ltac:(lia)).
      destruct L3 as (raw & G & RR); [lia|]. exists raw. split; [|exact RR]. rewrite HK; auto. lia.
Qed.

Lemma remove_entries_to_RB : forall d s n idx, RB d s -> spec_wf_op s (ORemTo n idx) = true ->
  RB (b_remove_entries_to d n idx) (spec_step s (ORemTo n idx)).
Proof.
  intros d s n idx HRB Hwf. pose proof HRB as (HS & HW & H). apply wf_rem_to in Hwf.
  destruct (b_remove_spec d n idx HS HW) as (Hcache & HS' & HW' & HO & HB').
  destruct (b_remove_entries_to d n idx) as [m' c']. cbn [p_kv p_cache] in *. subst c'.
  apply (Rel_node RB1 RB1_ext d s n); [exact HRB | exact HS' | exact HW' | | |].
  - intros k Hk. apply HO. intros b ->. apply Hk, key_node_mk.
  - intros n' Hn'. split; [reflexivity | now apply rem_to_other].
  - destruct (H n) as [A B C]. cbn [p_cache].
    destruct (rem_to_node s n idx C Hwf) as (E1 & E2 & E3 & E5 & E6 & C').
    set (nd := s n) in *. set (nd' := spec_step s (ORemTo n idx) n) in *.
    assert (Hnd : n_last_term nd' = n_last_term nd /\
                  good_from (n_marker nd') (N.max 1 (n_mterm nd')) (n_ents nd')).
    { unfold nd'. cbn [spec_step]. fold nd. destruct (n_marker nd <? idx) eqn:EM.
      - apply N.ltb_lt in EM. rewrite supd_same. unfold n_last_term. cbn [n_marker n_mterm n_ents].
        destruct (contig_nth _ _ idx C) as (x & X1 & X2); [unfold n_last in *; lia|].
        assert (Tx : term_at (n_ents nd) idx = e_term x) by (rewrite <- X2; eapply term_at_in; eauto).
        pose proof (proj2 (good_from_in _ _ _ x (bc_good _ _ _ _ B) X1)) as Tx1.
        destruct (good_above _ _ _ _ _ (n_mterm nd) (bc_good _ _ _ _ B) X1 X2) as [GA LA].
        rewrite Tx. replace (N.max 1 (e_term x)) with (e_term x) by lia. now split.
      - split; [reflexivity | exact (bc_good _ _ _ _ B)]. }
    destruct Hnd as (E4 & G').
    constructor; [| |exact C'].
    + replace (strip nd') with (strip nd) by (unfold strip; now rewrite E1, E2, E3, E4).
      eapply RnG_ext; [exact A|]. intros k _ Hk. apply HO. intros b ->. now apply Hk.
    + eapply BC_cut; [exact B | | | exact E5 | exact E4 | lia | lia | | exact G'].
      * intros b Hb. rewrite HB'. now rewrite (proj2 (N.ltb_ge _ _) Hb).
      * intros b v X. rewrite HB' in X. destruct (b + 1 <? batch_id idx); [discriminate | exact X].
      * intros y. unfold in_log. rewrite E3, E6.
        destruct (idx <? e_index y) eqn:Y1; destruct (n_marker nd <? e_index y) eqn:Y2;
          destruct (N.max (n_marker nd) idx <? e_index y) eqn:Y3; try reflexivity; exfalso;
          rewrite ?N.ltb_lt, ?N.ltb_ge in *; lia.
Qed.

Lemma remove_node_RB : forall d s n l idx, RB d s ->
  (forall ss, In ss l <-> kv_get (p_kv d) (KSnapshot n (ss_index ss)) = Some (VSnap ss) /\ ss_index ss <= u64max) ->
  (forall x, x < max_index -> batch_id x + 1 < batch_id idx) ->
  RB (b_remove_entries_to (mkDB (kv_commit (p_kv d) (remove_node_wb n l))
                                (cs_remove_node_data (cs_set_max_index (p_cache d) n 0) n)) n idx)
     (supd s n empty_node).
Proof.
  intros d s n l idx HRB Hl Hidx. pose proof HRB as (HS & HW & H). destruct (H n) as [Hn HBn _].
  destruct (remove_node_commit (p_kv d) n l HS HW Hl (snap_above_u64 _ _ _ _ Hn)) as (HS1 & HW1 & GM & GS & GSn & GO).
  set (m1 := kv_commit (p_kv d) (remove_node_wb n l)) in *.
  set (c1 := cs_remove_node_data (cs_set_max_index (p_cache d) n 0) n).
  destruct (b_remove_spec (mkDB m1 c1) n idx HS1 HW1) as (Hcache & HS2 & HW2 & HO & HB').
  destruct (b_remove_entries_to (mkDB m1 c1) n idx) as [m2 c2]. cbn [p_kv p_cache] in *. subst c2.
  apply (Rel_node RB1 RB1_ext d s n); [exact HRB | exact HS2 | exact HW2 | | |].
  - intros k Hk. rewrite HO; [apply GO; now left|]. intros b ->. apply Hk, key_node_mk.
  - intros n' Hn'. unfold c1. rewrite remove_node_cache, (nid_eqb_neq _ _ Hn'). split; [reflexivity | now apply supd_other].
  - rewrite supd_same. unfold c1. rewrite remove_node_cache, nid_eqb_refl.
    (* a stored batch holds an index below max_index: its id is in the deleted range *)
    assert (HNB : forall b, kv_get m2 (KBatch n b) = None).
    { intros b. rewrite HB'. destruct (b + 1 <? batch_id idx) eqn:E; [reflexivity|]. apply N.ltb_ge in E.
      rewrite GO by (right; reflexivity).
      destruct (kv_get (p_kv d) (KBatch n b)) as [v|] eqn:G; [|reflexivity]. exfalso.
      destruct (bc_typed _ _ _ _ HBn _ _ G) as (raw & ->).
      destruct (bc_all _ _ _ _ HBn _ _ G) as (R1 & _ & R3 & _).
      destruct (restore_head raw R1) as (e0 & r & r' & -> & RR).
      destruct (R3 e0) as (A1 & _ & A3); [rewrite RR; now left|].
      pose proof (Hidx _ A3). lia. }
    constructor.
    + change (strip empty_node) with empty_node.
      apply RnG_removed; intros; rewrite HO by (intros ?; discriminate); auto.
    + constructor; cbn [empty_node n_marker n_ents n_mterm].
      * exact I.
      * intros b v X. rewrite HNB in X. discriminate.
      * intros b raw X. rewrite HNB in X. discriminate.
      * intros e [].
      * intros lb X. discriminate.
    + exact I.
Qed.

Lemma remove_node_data_RB : forall d s n, RB d s ->
  exists d', batched_step d (ORemNode n) = Some d' /\ RB d' (spec_step s (ORemNode n)).
Proof.
  intros d s n HRB. pose proof HRB as (HS & HW & _).
  destruct (list_snapshots_spec (p_kv d) n HS HW) as (l & HL & Hl).
  cbn [batched_step]. unfold b_remove_node_data. rewrite HL. eexists. split; [reflexivity|].
  apply (remove_node_RB d s n l u64max HRB Hl). intros x H.
  pose proof (batch_id_spec x). pose proof (batch_id_spec u64max). unfold max_index, u64max in *. bid. lia.
Qed.

Lemma batched_step_RB : forall d s o, RB d s -> spec_wf_op s o = true ->
  exists d', batched_step d o = Some d' /\ RB d' (spec_step s o).
Proof.
  intros d s o HR Hwf. destruct o.
  - now apply save_raft_state_RB.
  - now apply save_snapshots_RB.
  - eexists. split; [reflexivity|]. now apply remove_entries_to_RB.
  - now apply remove_node_data_RB.
  - now apply import_snapshot_RB.
  - eexists. split; [reflexivity|]. now apply reopen_RB.
Qed.

Lemma RB_init : RB pdb_init spec_init.
Proof.
  split; [exact I | split].
  - intros k v H. discriminate.
  - intros n. constructor.
    + apply (proj2 (proj2 R_init) n).
    + constructor; cbn; try (intros; discriminate); try contradiction; exact I.
    + exact I.
Qed.

Lemma get_snapshot_RB : forall d s n, RB d s ->
  canon (QSnap n) (fst (p_get_snapshot d n)) = spec_answer s (QSnap n) /\ RB (snd (p_get_snapshot d n)) s.
Proof.
  intros d s n HRB. destruct (get_snapshot_refines d (sstrip s) n (RB_R _ _ HRB)) as [A HR']. split; [exact A|].
  assert (Hkv : p_kv (snd (p_get_snapshot d n)) = p_kv d /\
                forall n', c_batch (p_cache (snd (p_get_snapshot d n)) n') = c_batch (p_cache d n')).
  { unfold p_get_snapshot. destruct (list_snapshots (p_kv d) n) as [l|]; [|auto].
    destruct (last_opt l); [|auto]. cbn [snd p_kv p_cache]. split; [reflexivity|]. intros n'.
    unfold cs_set_snapshot_index, cupd. destruct (nid_eqb n' n) eqn:E; [|reflexivity].
    apply nid_eqb_eq in E. now subst. }
  destruct Hkv as [K1 K2]. apply (RB_of_R d s); [exact HRB | exact HR' | now rewrite K1|].
  intros n'. split; [left; apply K2 | left; auto].
Qed.

Fixpoint bprefix (g : gfun) (n : nid) (lo : N) (cnt : nat) : list (list entry) :=
  match cnt with
  | O => []
  | S c => match g (KBatch n lo) with
           | Some (VBatch raw) => raw :: bprefix g n (lo + 1) c
           | _ => []
           end
  end.

Lemma sparse_head_id : forall cnt m n lo cb nd, BC (kv_get m) cb nd n ->
  match sparse m c09_tag_entry_batch (fst n) (snd n) lo cnt with
  | [] => True
  | (_, v) :: _ => exists e0 r, v = VBatch (e0 :: r) /\ lo <= batch_id (e_index e0)
  end.
Proof.
  induction cnt as [|c IH]; intros m n lo cb nd HB; [exact I|]. cbn [sparse].
  destruct (kv_get m (mkKey c09_tag_entry_batch (fst n) (snd n) lo)) as [v|] eqn:G.
  - cbn [app]. change (mkKey c09_tag_entry_batch (fst n) (snd n) lo) with (KBatch n lo) in G.
    destruct (bc_typed _ _ _ _ HB _ _ G) as (raw & ->). destruct (bc_all _ _ _ _ HB _ _ G) as (R1 & R2 & R3 & R4).
    destruct (restore_head raw R1) as (e0 & r & r' & -> & RR). exists e0, r. split; [reflexivity|].
    destruct (R3 e0) as (A & _); [rewrite RR; now left|]. lia.
  - cbn [app]. specialize (IH m n (lo + 1) cb nd HB).
    destruct (sparse m c09_tag_entry_batch (fst n) (snd n) (lo + 1) c) as [|[k v] t]; [exact I|].
    destruct IH as (e0 & r & -> & L). exists e0, r. split; [reflexivity | lia].
Qed.

Lemma batches_scan_sparse : forall cnt m n lo cb nd, BC (kv_get m) cb nd n ->
  batches_scan (sparse m c09_tag_entry_batch (fst n) (snd n) lo cnt) lo = Some (bprefix (kv_get m) n lo cnt).
Proof.
  induction cnt as [|c IH]; intros m n lo cb nd HB; [reflexivity|]. cbn [sparse bprefix].
  change (mkKey c09_tag_entry_batch (fst n) (snd n) lo) with (KBatch n lo).
  destruct (kv_get m (KBatch n lo)) as [v|] eqn:G.
  - destruct (bc_typed _ _ _ _ HB _ _ G) as (raw & ->). destruct (bc_all _ _ _ _ HB _ _ G) as (R1 & R2 & R3 & R4).
    destruct (restore_head raw R1) as (e0 & r & r' & -> & RR). cbn [app batches_scan].
    destruct (R3 e0) as (A & _); [rewrite RR; now left|]. rewrite A, N.eqb_refl.
    now rewrite (IH m n (lo + 1) cb nd HB).
  - cbn [app]. pose proof (sparse_head_id c m n (lo + 1) cb nd HB) as HH.
    destruct (sparse m c09_tag_entry_batch (fst n) (snd n) (lo + 1) c) as [|[k v] t]; [reflexivity|].
    destruct HH as (e0 & r & -> & L). cbn [batches_scan].
    assert (batch_id (e_index e0) =? lo = false) as -> by (apply N.eqb_neq; lia). reflexivity.
Qed.

Fixpoint ts (maxsz size : N) (l : list entry) : list entry * N * bool :=
  match l with
  | [] => ([], size, false)
  | e :: t =>
    let size' := size + esize e in
    if maxsz <? size' then ([e], size', true)
    else let '(r, s, b) := ts maxsz size' t in (e :: r, s, b)
  end.

Lemma ts_take_size : forall l maxsz size, take_size maxsz size l = (fst (fst (ts maxsz size l)), snd (fst (ts maxsz size l))).
Proof.
  induction l as [|e l IH]; intros maxsz size; [reflexivity|]. cbn [ts take_size].
  destruct (maxsz <? size + esize e); [reflexivity|]. rewrite IH.
  destruct (ts maxsz (size + esize e) l) as [[r s] b]. reflexivity.
Qed.

Definition sumsz (l : list entry) : N := fold_left (fun s e => s + esize e) l 0.
Lemma fold_sumsz : forall l a, fold_left (fun s e => s + esize e) l a = a + sumsz l.
Proof.
  unfold sumsz. induction l as [|e l IH]; intros a; cbn [fold_left]; [lia|].
  rewrite IH. rewrite (IH (0 + esize e)). lia.
Qed.
Lemma sumsz_app : forall a b, sumsz (a ++ b) = sumsz a + sumsz b.
Proof. intros. unfold sumsz at 1. rewrite fold_left_app, fold_sumsz. reflexivity. Qed.

Lemma ts_size : forall l maxsz size r s b, ts maxsz size l = (r, s, b) -> s = size + sumsz r.
Proof.
  induction l as [|e l IH]; intros maxsz size r s b H; cbn [ts] in H.
  - inversion H. unfold sumsz. cbn [fold_left]. lia.
  - destruct (maxsz <? size + esize e).
    + inversion H. unfold sumsz. cbn [fold_left]. lia.
    + destruct (ts maxsz (size + esize e) l) as [[r' s'] b'] eqn:T. inversion H; subst.
      rewrite (IH _ _ _ _ _ T). change (e :: r') with ([e] ++ r'). rewrite sumsz_app.
      unfold sumsz at 2. cbn [fold_left]. lia.
Qed.

Lemma ts_app : forall a c maxsz size, ts maxsz size (a ++ c) =
  let '(r, s, b) := ts maxsz size a in
  if b then (r, s, true) else let '(r2, s2, b2) := ts maxsz s c in (r ++ r2, s2, b2).
Proof.
  induction a as [|e a IH]; intros c maxsz size; cbn [app ts].
  - destruct (ts maxsz size c) as [[r2 s2] b2]. reflexivity.
  - destruct (maxsz <? size + esize e); [reflexivity|]. rewrite IH.
    destruct (ts maxsz (size + esize e) a) as [[r s] b]. destruct b; [reflexivity|].
    destruct (ts maxsz s c) as [[r2 s2] b2]. reflexivity.
Qed.

Lemma ts_false : forall l maxsz size r s, ts maxsz size l = (r, s, false) -> r = l.
Proof.
  induction l as [|e l IH]; intros maxsz size r s H; cbn [ts] in H.
  - now inversion H.
  - destruct (maxsz <? size + esize e); [discriminate|].
    destruct (ts maxsz (size + esize e) l) as [[r' s'] b'] eqn:T. inversion H; subst.
    f_equal. eapply IH; eauto.
Qed.

Lemma iter_entries_spec : forall es low high maxsz exp size acc,
  contig exp (filter (in_range low high) es) ->
  iter_entries es low high maxsz exp size acc =
  let '(r, s, b) := ts maxsz size (filter (in_range low high) es) in (rev r ++ acc, exp + nlen r, s, b).
Proof.
  induction es as [|e es IH]; intros low high maxsz exp size acc HC; cbn [iter_entries filter].
  - cbn [ts rev app]. replace (exp + nlen []) with exp by (unfold nlen; cbn; lia). reflexivity.
  - change ((low <=? e_index e) && (e_index e <? high)) with (in_range low high e).
    destruct (in_range low high e) eqn:E.
    + cbn [filter] in HC. rewrite E in HC. destruct HC as [HC1 HC2].
      rewrite HC1, N.eqb_refl. cbn [negb ts].
      destruct (maxsz <? size + esize e).
      * cbn [rev app]. replace (exp + nlen [e]) with (exp + 1) by (unfold nlen; cbn; lia). reflexivity.
      * rewrite (IH low high maxsz (exp + 1) (size + esize e) (e :: acc) HC2).
        destruct (ts maxsz (size + esize e) (filter (in_range low high) es)) as [[r s] b].
        cbn [rev]. rewrite <- app_assoc. cbn [app]. rewrite nlen_cons.
        replace (exp + 1 + nlen r) with (exp + (nlen r + 1)) by lia. reflexivity.
    + cbn [filter] in HC. rewrite E in HC. now apply IH.
Qed.

Lemma iter_batches_spec : forall bs low high maxsz exp size acc,
  contig exp (concat (map (fun b => filter (in_range low high) (restore_if_many b)) bs)) ->
  size = sumsz (rev acc) ->
  iter_batches bs low high maxsz exp size acc =
  let '(r, s, b) := ts maxsz size (concat (map (fun b => filter (in_range low high) (restore_if_many b)) bs)) in
  (rev acc ++ r, s).
Proof.
  induction bs as [|b0 bs IH]; intros low high maxsz exp size acc HC Hs; cbn [iter_batches map concat].
  - cbn [ts]. rewrite app_nil_r. fold (sumsz (rev acc)). now rewrite Hs.
  - destruct (contig_app_inv _ _ _ HC) as [C1 C2].
    rewrite (iter_entries_spec _ _ _ _ _ _ _ C1). rewrite ts_app.
    destruct (ts maxsz size (filter (in_range low high) (restore_if_many b0))) as [[r s] b] eqn:T.
    destruct b.
    + rewrite rev_app_distr, rev_involutive. reflexivity.
    + pose proof (ts_false _ _ _ _ _ T) as Er. rewrite <- Er in C2.
      rewrite (IH low high maxsz (exp + nlen r) s (rev r ++ acc) C2).
      * destruct (ts maxsz s _) as [[r2 s2] b2]. rewrite rev_app_distr, rev_involutive, <- app_assoc. reflexivity.
      * rewrite rev_app_distr, rev_involutive, sumsz_app, <- Hs. rewrite (ts_size _ _ _ _ _ _ T). lia.
Qed.

Definition above_id (lo : N) (X : list entry) : list entry := filter (fun e => lo <? batch_id (e_index e)) X.

Lemma ids_sorted_ge : forall X c x, ids_sorted c X -> In x X -> c <= batch_id (e_index x).
Proof.
  induction X as [|e X IH]; intros c x H HI; [contradiction|].
  destruct H as [A B]. destruct HI as [<-|HI]; [exact A|]. pose proof (IH _ _ B HI). lia.
Qed.

Lemma ids_split : forall X lo, ids_sorted lo X -> X = bfilter lo X ++ above_id lo X.
Proof.
  induction X as [|e X IH]; intros lo H; [reflexivity|].
  destruct H as [A B]. unfold bfilter, above_id in *. cbn [filter].
  destruct (batch_id (e_index e) =? lo) eqn:E.
  - apply N.eqb_eq in E. assert (lo <? batch_id (e_index e) = false) as -> by (apply N.ltb_ge; lia).
    cbn [app]. f_equal. apply IH. now rewrite <- E.
  - apply N.eqb_neq in E. assert (lo <? batch_id (e_index e) = true) as -> by (apply N.ltb_lt; lia).
    rewrite (filter_nil (fun e0 => batch_id (e_index e0) =? lo) X).
    + cbn [app]. f_equal. symmetry. apply filter_all. intros x HI. apply N.ltb_lt.
      pose proof (ids_sorted_ge _ _ _ B HI). lia.
    + intros x HI. apply N.eqb_neq. pose proof (ids_sorted_ge _ _ _ B HI). lia.
Qed.

Lemma ids_sorted_above : forall X lo, ids_sorted lo X -> ids_sorted (lo + 1) (above_id lo X).
Proof.
  induction X as [|e X IH]; intros lo H; [exact I|].
  destruct H as [A B]. unfold above_id in *. cbn [filter].
  destruct (lo <? batch_id (e_index e)) eqn:E.
  - apply N.ltb_lt in E. cbn [ids_sorted]. split; [lia|].
    rewrite filter_all; [exact B|]. intros x HI. apply N.ltb_lt. pose proof (ids_sorted_ge _ _ _ B HI). lia.
  - apply N.ltb_ge in E. apply IH. assert (batch_id (e_index e) = lo) as <- by lia. exact B.
Qed.

Lemma bfilter_above : forall X lo b, lo < b -> bfilter b (above_id lo X) = bfilter b X.
Proof.
  intros X lo b H. unfold bfilter, above_id. rewrite filter_comm. apply filter_all.
  intros x HI. apply filter_In in HI. destruct HI as [_ HI]. apply N.eqb_eq in HI. apply N.ltb_lt. lia.
Qed.

Lemma flat_prefix : forall (T : list entry -> list entry) g n cnt lo X,
  ids_sorted lo X ->
  (forall x, In x X -> batch_id (e_index x) < lo + N.of_nat cnt) ->
  (forall x b, In x X -> lo <= b <= batch_id (e_index x) -> exists raw, g (KBatch n b) = Some (VBatch raw)) ->
  (forall b raw, lo <= b -> g (KBatch n b) = Some (VBatch raw) -> T raw = bfilter b X) ->
  concat (map T (bprefix g n lo cnt)) = X.
Proof.
  intros T g n. induction cnt as [|c IH]; intros lo X HS HB HE HT.
  - destruct X as [|x X]; [reflexivity|]. exfalso.
    pose proof (HB x (or_introl eq_refl)). destruct HS as [A _]. lia.
  - cbn [bprefix]. destruct (g (KBatch n lo)) as [v|] eqn:G.
    + destruct v as [| | | | |raw];
        try (destruct X as [|x X]; [reflexivity|]; exfalso; destruct HS as [A _];
             destruct (HE x lo (or_introl eq_refl) ltac:(lia)) as (raw & Y); congruence).
      cbn [map concat]. rewrite (HT lo raw ltac:(lia) G). rewrite (ids_split X lo HS) at 2. f_equal.
      apply IH.
      * now apply ids_sorted_above.
      * intros x HI. unfold above_id in HI. apply filter_In in HI. destruct HI as [HI _]. pose proof (HB x HI). lia.
      * intros x b HI Hb. unfold above_id in HI. apply filter_In in HI. destruct HI as [HI _].
        apply (HE x b HI). lia.
      * intros b raw' Hb G'. rewrite (HT b raw' ltac:(lia) G'). symmetry. apply bfilter_above. lia.
    + destruct X as [|x X]; [reflexivity|]. exfalso. destruct HS as [A _].
      destruct (HE x lo (or_introl eq_refl) ltac:(lia)) as (raw & Y). congruence.
Qed.

Lemma iterate_batches_spec : forall m n lo hi cb nd, sorted m -> BC (kv_get m) cb nd n ->
  exists bs, iterate_batches m n lo hi = Some bs /\
    map restore_if_many bs = map restore_if_many (bprefix (kv_get m) n lo (N.to_nat (hi - lo))).
Proof.
  intros m n lo hi cb nd HS HB. unfold iterate_batches. destruct (lo + 1 =? hi) eqn:E1.
  - apply N.eqb_eq in E1. replace (N.to_nat (hi - lo)) with 1%nat by lia. cbn [bprefix]. unfold get_batch_from_db.
    destruct (kv_get m (KBatch n lo)) as [v|] eqn:G; [|now exists []].
    destruct (bc_typed _ _ _ _ HB _ _ G) as (raw & ->). destruct (bc_all _ _ _ _ HB _ _ G) as (_ & R2 & _).
    exists [restore_if_many raw]. split; [reflexivity|]. cbn [map]. now rewrite (restore_idem _ 0 R2).
  - destruct (N.le_gt_cases hi lo) as [X|X].
    + unfold KBatch. rewrite range_none by (auto; intros; lia). replace (N.to_nat (hi - lo)) with 0%nat by lia. now exists [].
    + set (cnt := N.to_nat (hi - lo)). assert (hi = lo + N.of_nat cnt) as Hc by (unfold cnt; lia).
      unfold KBatch. rewrite Hc, range_sparse by auto. rewrite (batches_scan_sparse _ m n lo _ _ HB). eauto.
Qed.

Lemma iterate_refines_b : forall d s n low high maxsz, RB d s ->
  spec_wf_query s (QIter n low high maxsz) = true ->
  canon (QIter n low high maxsz) (b_iterate d n low high maxsz) = spec_answer s (QIter n low high maxsz).
Proof.
  intros d s n low high maxsz HRB Hwf. pose proof (get_max_index_RB d s n HRB) as HM. destruct HRB as (HS & HW & H).
  destruct (H n) as [_ HB HC].
  apply iterate_with_refines; [exact HC | exact HM | exact Hwf |].
  intros F (W1 & W2) FC FL. unfold batched_iterate.
  set (last := n_last (s n)) in *.
  set (high' := if last + 1 <? high then last + 1 else high).
  assert (Hh : high' = N.min high (last + 1)).
  { unfold high'. destruct (last + 1 <? high) eqn:X; [apply N.ltb_lt in X | apply N.ltb_ge in X]; lia. }
  destruct (batch_id_range_spec low high') as (highid & -> & Hhi). set (lowid := batch_id low).
  set (Tf := fun b => filter (in_range low high') (restore_if_many b)).
  assert (HF' : filter (in_range low high') (n_ents (s n)) = F).
  { unfold F. apply filter_ext_in. intros e HI. pose proof (contig_bounds _ _ _ HC HI) as Be.
    unfold in_range. f_equal. unfold last, n_last in Hh.
    destruct (e_index e <? high') eqn:X1; destruct (e_index e <? high) eqn:X2; auto;
      [apply N.ltb_lt in X1; apply N.ltb_ge in X2 | apply N.ltb_ge in X1; apply N.ltb_lt in X2]; lia. }
  assert (HFhi : forall x, In x F -> batch_id (e_index x) < highid).
  { intros x HI. rewrite <- HF' in HI. apply filter_In in HI. destruct HI as [_ HI].
    unfold in_range in HI. apply andb_true_iff in HI. destruct HI as [_ B]. apply N.ltb_lt in B. now apply Hhi. }
  assert (HT : forall b raw, lowid <= b -> kv_get (p_kv d) (KBatch n b) = Some (VBatch raw) -> Tf raw = bfilter b F).
  { intros b raw _ G. destruct (bc_all _ _ _ _ HB _ _ G) as (R1 & R2 & R3 & R4). unfold Tf.
    rewrite (filter_ext_in (in_range low high') (fun x => in_range low high' x && in_log (s n) x)).
    - rewrite filter_and, R4. rewrite <- HF'. unfold bfilter. apply filter_comm.
    - intros x _. destruct (in_range low high' x) eqn:X; [|reflexivity]. cbn [andb]. symmetry.
      unfold in_range in X. apply andb_true_iff in X. destruct X as [A B]. apply N.leb_le in A. apply N.ltb_lt in B.
      apply in_log_range. fold last. lia. }
  assert (HE : forall x b, In x F -> lowid <= b <= batch_id (e_index x) ->
            exists raw, kv_get (p_kv d) (KBatch n b) = Some (VBatch raw)).
  { intros x b HI Hb. destruct (contig_id_between F low x b FC HI Hb) as (y & Y1 & <-).
    apply (bc_exists _ _ _ _ HB). unfold F in Y1. apply filter_In in Y1. tauto. }
  assert (HIS : ids_sorted lowid F) by now apply contig_ids_sorted.
  (* what iterateBatches returns, flattened, is the in-range part of the log *)
  destruct (iterate_batches_spec (p_kv d) n lowid highid _ _ HS HB) as (bs & -> & Ebs).
  assert (HFl : concat (map Tf bs) = F).
  { unfold Tf. rewrite <- (map_map restore_if_many (filter (in_range low high'))), Ebs, map_map.
    apply (flat_prefix Tf); auto.
    intros x HI. pose proof (HFhi x HI). pose proof (ids_sorted_ge _ _ _ HIS HI). lia. }
  assert (Hres : iter_batches bs low high' maxsz low 0 [] = take_size maxsz 0 F).
  { rewrite (iter_batches_spec bs low high' maxsz low 0 []).
    - fold Tf. rewrite HFl. rewrite ts_take_size. destruct (ts maxsz 0 F) as [[r s0] b]. reflexivity.
    - fold Tf. rewrite HFl. exact FC.
    - reflexivity. }
  destruct bs as [|b0 bs'].
  - cbn [map concat] in HFl. rewrite <- HFl. reflexivity.
  - rewrite Hres. destruct (take_size maxsz 0 F). reflexivity.
Qed.

Lemma first_in_range_none : forall R lo hi, first_in_range R lo hi = None ->
  forall x, In x R -> ~ (lo <= e_index x <= hi).
Proof.
  induction R as [|e R IH]; intros lo hi H x HI; [contradiction|]. cbn [first_in_range] in H.
  destruct ((lo <=? e_index e) && (e_index e <=? hi)) eqn:E; [discriminate|].
  destruct HI as [<-|HI]; [|eauto].
  intros [A B]. apply andb_false_iff in E. destruct E as [E|E]; [apply N.leb_gt in E | apply N.leb_gt in E]; lia.
Qed.

Lemma first_in_range_min : forall R pi pt lo hi x, good_from pi pt R -> In x R -> lo <= e_index x <= hi ->
  exists i, first_in_range R lo hi = Some i /\ lo <= i <= e_index x.
Proof.
  induction R as [|e R IH]; intros pi pt lo hi x H HI Hx; [contradiction|].
  destruct H as (A & B & C). cbn [first_in_range].
  destruct ((lo <=? e_index e) && (e_index e <=? hi)) eqn:E.
  - apply andb_true_iff in E. destruct E as [E1 E2]. apply N.leb_le in E1, E2.
    exists (e_index e). split; [reflexivity|]. destruct HI as [<-|HI]; [lia|].
    destruct (good_from_in _ _ _ _ C HI). lia.
  - destruct HI as [<-|HI].
    + exfalso. apply andb_false_iff in E. destruct E as [E|E]; apply N.leb_gt in E; lia.
    + eapply IH; eauto.
Qed.

Lemma first_in_range_some : forall R lo hi i, first_in_range R lo hi = Some i ->
  exists x, In x R /\ e_index x = i /\ lo <= i <= hi.
Proof.
  induction R as [|e R IH]; intros lo hi i H; [discriminate|]. cbn [first_in_range] in H.
  destruct ((lo <=? e_index e) && (e_index e <=? hi)) eqn:E.
  - inversion H; subst. apply andb_true_iff in E. destruct E as [E1 E2]. apply N.leb_le in E1, E2.
    exists e. split; [now left|]. auto.
  - destruct (IH _ _ _ H) as (x & A & B). exists x. split; [now right | auto].
Qed.

Lemma batched_get_range_RB : forall d s n arg, RB d s ->
  n_marker (s n) <= arg -> arg < n_last (s n) ->
  exists first, batched_get_range (p_kv d) n arg (n_last (s n)) = Some (first, n_last (s n) - first + 1)
                /\ arg <= first <= arg + 1 /\ 0 < first.
Proof.
  intros d s n arg (HS & HW & H) H1 H2. destruct (H n) as [_ HB HC].
  set (last := n_last (s n)) in *. unfold batched_get_range.
  destruct (batch_id_range_spec arg (last + 1)) as (highid & -> & Hhi). set (lowid := batch_id arg).
  pose proof (batch_id_spec arg) as Sa. pose proof (batch_id_spec (arg + 1)) as Sa1. fold lowid in Sa.
  destruct (contig_nth _ _ (arg + 1) HC) as (y & Y1 & Y2); [unfold last, n_last in *; lia|].
  destruct (bc_exists _ _ _ _ HB y Y1) as (rawy & Gy). rewrite Y2 in Gy.
  destruct (bc_all _ _ _ _ HB _ _ Gy) as (Ry1 & Ry2 & Ry3 & Ry4).
  assert (Yin : In y (restore_if_many rawy)).
  { assert (In y (bfilter (batch_id (arg + 1)) (n_ents (s n)))) as X by (apply bfilter_in; split; [auto | now rewrite Y2]).
    rewrite <- Ry4 in X. apply filter_In in X. tauto. }
  assert (Hhigh : batch_id (arg + 1) < highid) by (apply Hhi; lia).
  remember (N.to_nat (highid - lowid)) as cnt eqn:Ecnt.
  assert (Hc : highid = lowid + N.of_nat cnt).
  { pose proof (batch_id_mono arg (arg + 1) ltac:(lia)). lia. }
  clear Ecnt.
  unfold KBatch. rewrite Hc, range_sparse by auto.
  assert (HSCAN : exists first, range_scan (sparse (p_kv d) c09_tag_entry_batch (fst n) (snd n) lowid cnt) arg last = Some first
                  /\ arg <= first <= arg + 1 /\ 0 < first).
  { (* the batch of arg + 1 answers arg + 1 unless an entry at arg is stored before it *)
    destruct (first_in_range_min _ _ _ arg last y Ry2 Yin ltac:(lia)) as (iy & Hiy & HY). rewrite Y2 in HY.
    destruct (first_in_range_some _ _ _ _ Hiy) as (x & X1 & X2 & _).
    destruct (restore_head rawy Ry1) as (ey & ry & ry' & -> & RRy).
    destruct (N.eq_dec (batch_id (arg + 1)) lowid) as [Eq|Ne].
    - (* arg + 1 lives in the first scanned batch *)
      destruct cnt as [|c]; [lia|]. cbn [sparse].
      change (mkKey c09_tag_entry_batch (fst n) (snd n) lowid) with (KBatch n lowid).
      rewrite <- Eq, Gy. cbn [app range_scan]. rewrite Hiy.
      exists iy. split; [reflexivity|]. split; [lia|]. destruct (good_from_in _ _ _ _ Ry2 X1). lia.
    - (* arg + 1 starts the next batch *)
      assert (batch_id (arg + 1) = lowid + 1) as Eq1 by (destruct (batch_id_succ arg); [contradiction | assumption]).
      destruct cnt as [|[|c]]; [lia | lia |]. cbn [sparse].
      change (mkKey c09_tag_entry_batch (fst n) (snd n) lowid) with (KBatch n lowid).
      change (mkKey c09_tag_entry_batch (fst n) (snd n) (lowid + 1)) with (KBatch n (lowid + 1)).
      rewrite <- Eq1, Gy.
      assert (HNext : forall tl, range_scan ([(KBatch n (batch_id (arg + 1)), VBatch (ey :: ry))] ++ tl) arg last = Some (arg + 1)).
      { intros tl. cbn [app range_scan]. rewrite Hiy. f_equal.
        destruct (Ry3 x X1) as (A1 & _). rewrite Eq1, X2 in A1.
        destruct (N.eq_dec iy arg) as [->|]; [unfold lowid in A1; lia | lia]. }
      destruct (kv_get (p_kv d) (KBatch n lowid)) as [v0|] eqn:G0.
      + destruct (bc_typed _ _ _ _ HB _ _ G0) as (raw0 & ->).
        destruct (bc_all _ _ _ _ HB _ _ G0) as (R01 & R02 & R03 & R04).
        destruct (restore_head raw0 R01) as (e0 & r0 & r0' & -> & RR0).
        cbn [app range_scan].
        destruct (first_in_range (restore_if_many (e0 :: r0)) arg last) as [i|] eqn:F0.
        * exists i. split; [reflexivity|].
          destruct (first_in_range_some _ _ _ _ F0) as (x0 & X01 & X02 & X03).
          destruct (R03 x0 X01) as (A1 & _). destruct (good_from_in _ _ _ _ R02 X01).
          assert (e_index x0 < arg + 1) by (apply batch_id_lt; lia). lia.
        * exists (arg + 1). split; [apply HNext | lia].
      + cbn [app]. exists (arg + 1). split; [apply HNext | lia]. }
  destruct HSCAN as (first & -> & Hf & Hp). exists first.
  assert (first =? 0 = false) as -> by (apply N.eqb_neq; lia). cbn [andb].
  assert (0 <? first = true) as -> by (apply N.ltb_lt; lia). auto.
Qed.

Lemma read_state_refines_b : forall d s n arg, RB d s ->
  spec_wf_query s (QState n arg) = true ->
  canon (QState n arg) (b_read_raft_state d n arg) = spec_answer s (QState n arg).
Proof.
  intros d s n arg HRB Hwf. pose proof (RB_R _ _ HRB) as HR.
  apply read_state_with_refines; [| | |exact Hwf].
  - exact (get_state_R d (sstrip s) n HR).
  - now apply get_max_index_RB.
  - intros H. apply batched_get_range_RB; auto. now apply wf_q_state in Hwf.
Qed.

Lemma batched_query_RB : forall d s q, RB d s ->
  RB (snd (batched_query d q)) s /\
  (spec_wf_query s q = true -> batched_observe d q = spec_answer s q).
Proof.
  intros d s q HR. unfold batched_observe. destruct q; cbn [batched_query fst snd].
  - split; auto. intros. now apply iterate_refines_b.
  - split; auto. intros. now apply read_state_refines_b.
  - destruct (get_snapshot_RB d s n HR). split; auto.
Qed.

Lemma batched_run_RB : forall l d s, RB d s -> wf_ops s (muts l) = true ->
  exists d', fold_left batched_pstep l (Some d) = Some d' /\ RB d' (spec_run s (muts l)).
Proof. exact (run_Rel RB1 batched_step batched_query batched_step_RB (fun d s q H => proj1 (batched_query_RB d s q H))). Qed.
