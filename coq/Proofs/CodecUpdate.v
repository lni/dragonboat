From DB Require Import Base.Bytes Model.CodecEntry Model.CodecProto Model.CodecUpdate
  Proofs.Bytes Proofs.CodecEntry Proofs.CodecProto.
From Coq Require Import ZifyN ZifyNat ZifyBool.
Open Scope N_scope.

(* binary.ReadUvarint reads back binary.PutUvarint: at most i+1 bytes, and the last of
   i+1 bytes may only be 0 or 1 *)
Lemma read_uvarint_varint x l : varint_of x l -> forall i shift acc r,
  x < 2 * 128 ^ N.of_nat i ->
  read_uvarint i shift acc (l ++ r) = Some (acc + x * 2 ^ shift, r).
Proof.
  induction 1 as [x Hx|x l Hx _ IH]; intros [|i] shift acc r Hb; cbn [app read_uvarint].
  - apply N.ltb_lt in Hx. rewrite Hx. cbn [Nat.eqb andb].
    replace (1 <? x) with false by (symmetry; apply N.ltb_ge; cbn in Hb; lia). reflexivity.
  - apply N.ltb_lt in Hx. rewrite Hx. reflexivity.
  - cbn in Hb. lia.
  - rewrite cont_byte_ge, cont_byte_mod, IH; [rewrite varint_acc; reflexivity|].
    rewrite Nat2N.inj_succ, N.pow_succ_r' in Hb. lia.
Qed.

Lemma std_uvarint_enc x r : x < 2 ^ 64 -> std_uvarint (uvarint x ++ r) = Some (x, r).
Proof.
  intros H. unfold std_uvarint. rewrite (read_uvarint_varint x) by (trivial; apply uvarint_varint, H).
  change (2 ^ 0) with 1. rewrite N.mul_1_r. reflexivity.
Qed.

Lemma le32_length x : length (le32 x) = 4%nat.
Proof. unfold le32. apply le_length. Qed.

Lemma rd_le32_enc x r : x < 2 ^ 32 -> rd_le32 (le32 x ++ r) = Some (x, r).
Proof.
  intros H. unfold rd_le32. rewrite app_length, le32_length.
  cbn [Nat.ltb Nat.leb plus].
  rewrite firstn_app_exact, skipn_app_exact by (rewrite le32_length; reflexivity).
  unfold le32. rewrite N.mod_small by exact H. rewrite le_dec_le; [reflexivity|].
  change (256 ^ N.of_nat 4) with (2 ^ 32). exact H.
Qed.

Lemma rd_framed_enc b r : nlen b < 2 ^ 32 -> rd_framed (framed b ++ r) = Some (b, r).
Proof.
  intros H. unfold rd_framed, framed. rewrite <- app_assoc. rewrite rd_le32_enc by exact H.
  destruct (N.ltb_spec (nlen (b ++ r)) (nlen b)) as [F|_]; [rewrite nlen_app in F; lia|].
  assert (E : N.to_nat (nlen b) = length b) by (unfold nlen; lia).
  rewrite E, firstn_app_exact, skipn_app_exact by reflexivity. reflexivity.
Qed.

Lemma rd_entries_enc : forall es acc fuel rest,
  Forall wf_entry es -> Forall (fun e => size e < 2 ^ 32) es -> (length es <= fuel)%nat ->
  rd_entries fuel (nlen es) (flat_map (fun e => framed (encode e)) es ++ rest) acc =
  Some (Some (acc ++ es, rest)).
Proof.
  induction es as [|e es IH]; intros acc fuel rest Hw Hs Hf.
  - destruct fuel; cbn; rewrite app_nil_r; reflexivity.
  - inversion Hw as [|? ? Hw1 Hw2]; inversion Hs as [|? ? Hs1 Hs2]; subst.
    destruct fuel as [|fuel]; [simpl in Hf; lia|].
    cbn [rd_entries flat_map]. rewrite nlen_cons.
    destruct (N.eqb_spec (1 + nlen es) 0) as [F|_]; [lia|].
    rewrite <- app_assoc. rewrite rd_framed_enc by (rewrite entry_size_exact_proved; exact Hs1).
    rewrite entry_decode_exact_enc by exact Hw1.
    replace (1 + nlen es - 1) with (nlen es) by lia.
    rewrite IH by (try assumption; simpl in Hf; lia).
    rewrite <- app_assoc. reflexivity.
Qed.

Lemma is_empty_state_true s : is_empty_state s = true -> s = state_zero.
Proof.
  unfold is_empty_state. destruct s as [a b c]. cbn. intros H.
  apply andb_true_iff in H as [H H3]. apply andb_true_iff in H as [H1 H2].
  apply N.eqb_eq in H1, H2, H3. subst. reflexivity.
Qed.

Lemma framed_entries_length es : (length es <= length (flat_map (fun e => framed (encode e)) es))%nat.
Proof.
  induction es as [|e es IH]; [simpl; lia|].
  cbn [flat_map]. rewrite app_length. unfold framed at 1. rewrite app_length, le32_length. simpl. lia.
Qed.

(* the optional State block, whatever follows it (K) *)
Lemma state_block_dec s rest (K : state -> bytes -> ures) : wf_state s ->
  match (if is_empty_state s then [0] else 1 :: framed (state_encode s)) ++ rest with
  | [] => UPanic
  | flag :: r3 =>
    match (if flag =? 0 then Some (Some (state_zero, r3))
           else match rd_framed r3 with
                | None => None
                | Some (b, r) => match state_decode b with None => Some None | Some s' => Some (Some (s', r)) end
                end) with
    | None => UPanic | Some None => UErr | Some (Some (st, r4)) => K st r4
    end
  end = K s rest.
Proof.
  intros Hs. destruct (is_empty_state s) eqn:E; cbn [app N.eqb Pos.eqb].
  - apply is_empty_state_true in E. rewrite E. reflexivity.
  - rewrite rd_framed_enc, state_roundtrip_proved
      by (trivial; rewrite state_size_exact_proved; pose proof (state_size_le_33 s); lia).
    reflexivity.
Qed.

(* the optional Snapshot block at the end of the record *)
Lemma snapshot_block_dec sn (K : snapshot -> ures) :
  wf_sn sn -> sn_size sn < 2 ^ 32 -> (sn_index sn = 0 -> sn = sn_zero) ->
  match (if is_empty_snapshot sn then [0] else 1 :: framed (sn_encode sn)) with
  | [] => UPanic
  | sflag :: r7 =>
    if sflag =? 1 then
      match rd_framed r7 with
      | None => UPanic
      | Some (b, _) => match sn_decode b with None => UErr | Some sn' => K sn' end
      end
    else K sn_zero
  end = K sn.
Proof.
  intros Hw Hsz Hidx. destruct (is_empty_snapshot sn) eqn:E; cbn [N.eqb Pos.eqb].
  - apply N.eqb_eq, Hidx in E. rewrite E. reflexivity.
  - rewrite <- (app_nil_r (framed _)), rd_framed_enc, sn_roundtrip_proved
      by (trivial; rewrite sn_size_exact_proved; exact Hsz).
    reflexivity.
Qed.

Lemma update_roundtrip_proved u : wf_update u -> update_decode (update_encode u) = UOk u.
Proof.
  intros (Hs & Hr & Hst & Hes & Hn & Hsz & Hsn & Hsnsz & Hidx).
  unfold update_decode, update_encode. rewrite !std_uvarint_enc by assumption.
  rewrite (state_block_dec (u_state u) _ _ Hst).
  rewrite rd_le32_enc, rd_entries_enc
    by (trivial; rewrite app_length; pose proof (framed_entries_length (u_entries u)); lia).
  cbn [app].
  rewrite (snapshot_block_dec (u_snapshot u) (fun sn => UOk (mkUpdate (u_shard u) (u_replica u) (u_state u) (u_entries u) sn))
             Hsn Hsnsz Hidx).
  destruct u; reflexivity.
Qed.

Lemma nlen_le32 x : nlen (le32 x) = 4.
Proof. unfold nlen. rewrite le32_length. reflexivity. Qed.

Lemma nlen_framed b : nlen (framed b) = 4 + nlen b.
Proof. unfold framed. rewrite nlen_app, nlen_le32. reflexivity. Qed.

Lemma framed_entries_nlen es : Forall wf_entry es ->
  nlen (flat_map (fun e => framed (encode e)) es) + 53 * nlen es <= entry_slice_size es.
Proof.
  induction 1 as [|e es He _ IH]; [cbn; lia|].
  cbn [flat_map]. rewrite nlen_app, nlen_framed, nlen_cons, entry_size_exact_proved.
  unfold entry_slice_size in *. cbn [sum_map fold_right]. fold (sum_map size_upper_limit es).
  pose proof (size_le_71 e (proj1 He)). unfold size_upper_limit at 1.
  change entry_non_cmd_fields_size with 128. lia.
Qed.

(* the 22 byte head of SizeUpperLimit is smaller than the worst-case head
   (2 x 10 byte uvarint + 3 flags/counters of 1+4+4+1+4 bytes = 34); the bound holds
   because State.SizeUpperLimit (56) over-estimates the State block (at most 33) and
   every entry is over-estimated by at least 53 bytes *)
Lemma update_size_le_upper_proved u : wf_update u ->
  nlen (update_encode u) <= update_size_upper u.
Proof.
  intros (Hs & Hr & Hst & Hes & Hn & Hsz & Hsn & Hsnsz & Hidx).
  unfold update_encode, update_size_upper.
  rewrite !nlen_app, !nlen_uvarint_sov, nlen_le32.
  pose proof (sov_le_10 (u_shard u)). pose proof (sov_le_10 (u_replica u)).
  pose proof (framed_entries_nlen (u_entries u) Hes).
  pose proof (state_size_le_33 (u_state u)).
  change update_upper_head with 22. change state_size_upper with 56.
  change update_upper_nosnapshot with 48.
  assert (A : nlen (if is_empty_state (u_state u) then [0] else 1 :: framed (state_encode (u_state u))) <= 38).
  { destruct (is_empty_state (u_state u)); [cbn; lia|].
    rewrite nlen_cons, nlen_framed, state_size_exact_proved. lia. }
  destruct (is_empty_snapshot (u_snapshot u)).
  - change (nlen [0]) with 1. lia.
  - rewrite nlen_cons, nlen_framed, sn_size_exact_proved. lia.
Qed.
