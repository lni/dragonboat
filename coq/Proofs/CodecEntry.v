From DB Require Import Base.Bytes Model.CodecEntry Proofs.Bytes.
From Coq Require Import ZifyN ZifyNat ZifyBool.
Open Scope N_scope.

(* facts about the regenerated constants *)
Lemma threshold_marshal_le : colfer_fixed_threshold_marshal <= 2 ^ 56.
Proof. discriminate. Qed.
Lemma size_max_lt : colfer_size_max < 2 ^ 63.
Proof. reflexivity. Qed.
Lemma threshold_size_eq : colfer_fixed_threshold_size = colfer_fixed_threshold_marshal.
Proof. reflexivity. Qed.
Lemma non_cmd_fields_enough : 71 <= entry_non_cmd_fields_size.
Proof. discriminate. Qed.

Lemma next1_app b r1 r : r <> [] -> next1 ((b :: r1) ++ r) = Some (b, r1 ++ r).
Proof. intros Hr. cbn. destruct (r1 ++ r) eqn:E; [|reflexivity].
  apply app_eq_nil in E; destruct E; contradiction. Qed.

(* The three varint loops of unmarshal read back a varint whose value, moved to the
   loop's current shift, stays inside the loop's word; [n] is the loop's fuel. *)
Lemma dec64_varint x l : varint_of x l -> forall n shift acc r,
  (length l <= n)%nat -> x * 2 ^ shift < 2 ^ 56 -> r <> [] ->
  dec64 n shift acc (l ++ r) = Some (acc + x * 2 ^ shift, r).
Proof.
  induction 1 as [x Hx|x l Hx _ IH]; intros [|n] shift acc r Hn Hs Hr; try solve [inversion Hn];
    cbn [dec64]; rewrite next1_app by exact Hr.
  - apply N.ltb_lt in Hx. rewrite Hx. reflexivity.
  - assert (E : shift =? 56 = false) by (apply N.eqb_neq; intros ->; lia).
    rewrite cont_byte_ge, cont_byte_mod, E. cbn [orb].
    rewrite IH; [rewrite varint_acc; reflexivity|apply le_S_n, Hn|apply varint_rest_bound, Hs|exact Hr].
Qed.

Lemma dec32_varint x l : varint_of x l -> forall n shift acc r,
  (length l <= n)%nat -> x * 2 ^ shift < 2 ^ 32 -> r <> [] ->
  dec32 n shift acc (l ++ r) = Some (acc + x * 2 ^ shift, r).
Proof.
  induction 1 as [x Hx|x l Hx _ IH]; intros [|n] shift acc r Hn Hs Hr; try solve [inversion Hn];
    cbn [dec32]; rewrite next1_app by exact Hr.
  - apply N.ltb_lt in Hx. rewrite Hx, N.mod_small by exact Hs. reflexivity.
  - rewrite cont_byte_ge, cont_byte_mod, N.mod_small by apply varint_low_bound, Hs.
    rewrite IH; [rewrite varint_acc; reflexivity|apply le_S_n, Hn|apply varint_rest_bound, Hs|exact Hr].
Qed.

Lemma declen_varint x l : varint_of x l -> forall n shift acc r,
  (length l <= n)%nat -> x * 2 ^ shift < 2 ^ 64 ->
  declen n shift acc (l ++ r) = Some (acc + x * 2 ^ shift, r).
Proof.
  induction 1 as [x Hx|x l Hx _ IH]; intros [|n] shift acc r Hn Hs; try solve [inversion Hn];
    cbn [declen app].
  - apply N.ltb_lt in Hx. rewrite Hx, N.mod_small by exact Hs. reflexivity.
  - rewrite cont_byte_ge, cont_byte_mod, N.mod_small by apply varint_low_bound, Hs.
    rewrite IH; [rewrite varint_acc; reflexivity|apply le_S_n, Hn|apply varint_rest_bound, Hs].
Qed.

Lemma dec64_uvarint x r n : (10 <= n)%nat -> x < 2 ^ 56 -> r <> [] ->
  dec64 n 0 0 (uvarint x ++ r) = Some (x, r).
Proof.
  intros Hn Hx Hr. rewrite (dec64_varint x); [change (2 ^ 0) with 1; rewrite N.mul_1_r; reflexivity
    |apply uvarint_varint; lia|eapply Nat.le_trans, Hn; apply uvarint_fuel_length_le|lia|exact Hr].
Qed.

Lemma dec32_uvarint x r n : (10 <= n)%nat -> x < 2 ^ 32 -> r <> [] ->
  dec32 n 0 0 (uvarint x ++ r) = Some (x, r).
Proof.
  intros Hn Hx Hr. rewrite (dec32_varint x); [change (2 ^ 0) with 1; rewrite N.mul_1_r; reflexivity
    |apply uvarint_varint; lia|eapply Nat.le_trans, Hn; apply uvarint_fuel_length_le|lia|exact Hr].
Qed.

Lemma declen_uvarint x r n : (10 <= n)%nat -> x < 2 ^ 64 ->
  declen n 0 0 (uvarint x ++ r) = Some (x, r).
Proof.
  intros Hn Hx. rewrite (declen_varint x); [change (2 ^ 0) with 1; rewrite N.mul_1_r; reflexivity
    |apply uvarint_varint; lia|eapply Nat.le_trans, Hn; apply uvarint_fuel_length_le|lia].
Qed.

(* The decoder looks at one header byte at a time: [pst_of s] is its state in front of
   the bytes s.  A field is skipped when the next header is that of a later field:
   [starts_ok t s]. *)
Definition pst_of (s : bytes) : pst := (hd0 s, tl s).

Definition ok_after (t h : N) : Prop := (t < h /\ h < 128) \/ t + 128 < h.
Definition starts_ok (t : N) (s : bytes) : Prop := exists h d, s = h :: d /\ ok_after t h.

Lemma starts_ok_mono t t' s : t' <= t -> starts_ok t s -> starts_ok t' s.
Proof. intros Hle (h & d & E & O). exists h, d. split; [exact E|]. unfold ok_after in *. lia. Qed.

Lemma starts_ok_nonempty t s : starts_ok t s -> s <> [].
Proof. intros (h & d & E & _). subst. discriminate. Qed.

Lemma starts_ok_neq t s : starts_ok t s -> (hd0 s =? t = false) /\ (hd0 s =? t + 128 = false).
Proof. intros (h & d & -> & O). unfold ok_after in O. cbn. split; apply N.eqb_neq; lia. Qed.

Lemma dec_field64_enc tag x s :
  u64 x -> starts_ok tag s ->
  dec_field64 tag (pst_of (field64 tag x ++ s)) =
  Some (if x =? 0 then None else Some x, pst_of s).
Proof.
  intros Hx Hs. pose proof (starts_ok_nonempty _ _ Hs) as Hne.
  unfold field64, dec_field64, pst_of.
  destruct (N.leb_spec colfer_fixed_threshold_marshal x) as [Hfix|Hvar].
  - cbn [app hd0 hd tl].
    replace (tag + 128 =? tag) with false by (symmetry; apply N.eqb_neq; lia).
    rewrite N.eqb_refl, app_length, be_length.
    destruct s as [|h d]; [contradiction|]. cbn [length Nat.add Nat.leb].
    rewrite skipn_app_exact, firstn_app_exact, be_dec_be by (rewrite ?be_length; trivial).
    replace (x =? 0) with false by (symmetry; apply N.eqb_neq; intros ->; exact (Hfix eq_refl)).
    reflexivity.
  - destruct (N.eqb_spec x 0) as [Hz|Hnz]; cbn [app hd0 hd tl].
    + destruct (starts_ok_neq _ _ Hs) as [-> ->]. reflexivity.
    + pose proof threshold_marshal_le.
      rewrite N.eqb_refl, dec64_uvarint by (trivial; lia). reflexivity.
Qed.

Lemma to_int32_pos v : (0 <= v < 2 ^ 31)%Z -> to_int32 (Z.to_N v) = v.
Proof.
  intros Hv. unfold to_int32. rewrite N.mod_small, Z2N.id by lia.
  destruct (Z.ltb_spec v (2 ^ 31)); lia.
Qed.

Lemma to_int32_neg v : (- 2 ^ 31 <= v < 0)%Z ->
  to_int32 (2 ^ 32 - Z.to_N (- v) mod 2 ^ 32) = v.
Proof.
  intros Hv. unfold to_int32. rewrite (N.mod_small (Z.to_N (- v))), N.mod_small by lia.
  destruct (Z.ltb_spec (Z.of_N (2 ^ 32 - Z.to_N (- v))) (2 ^ 31)); lia.
Qed.

Lemma to_int32_mod z : int32 z -> to_int32 (Z.to_N (z mod 2 ^ 32)) = z.
Proof.
  unfold int32, to_int32. intros H.
  pose proof (Z.mod_pos_bound z (2 ^ 32) eq_refl) as B.
  rewrite N.mod_small, Z2N.id by lia.
  destruct (Z.ltb_spec (z mod 2 ^ 32) (2 ^ 31)); lia.
Qed.

Lemma dec_field_type_enc v s :
  int32 v -> starts_ok 2 s ->
  dec_field_type (pst_of (field_type v ++ s)) =
  Some (if (v =? 0)%Z then None else Some v, pst_of s).
Proof.
  intros Hv Hs. pose proof (starts_ok_nonempty _ _ Hs) as Hne.
  unfold field_type, dec_field_type, pst_of, int32 in *.
  destruct (Z.eqb_spec v 0) as [Hz|Hnz]; cbn [app hd0 hd tl].
  - destruct (starts_ok_neq _ _ Hs) as [-> ->]. reflexivity.
  - destruct (Z.leb_spec 0 v) as [Hpos|Hneg]; cbn [app hd0 hd tl N.eqb Pos.eqb N.add Pos.add];
      rewrite dec32_uvarint by (trivial; lia).
    + rewrite to_int32_pos by lia. reflexivity.
    + rewrite to_int32_neg by lia. reflexivity.
Qed.

Lemma field_cmd_nonempty c : c <> [] -> field_cmd c = 7 :: uvarint (nlen c) ++ c.
Proof. destruct c; [contradiction|reflexivity]. Qed.

Lemma dec_field_cmd_enc c : c <> [] -> nlen c <= colfer_size_max ->
  dec_field_cmd (pst_of (field_cmd c ++ [127])) = CmdOk c (127, []).
Proof.
  intros Hne Hc. rewrite field_cmd_nonempty by exact Hne.
  unfold pst_of, dec_field_cmd. cbn [app hd0 hd tl]. rewrite N.eqb_refl, <- app_assoc.
  pose proof size_max_lt.
  rewrite declen_uvarint by lia.
  replace (colfer_size_max <? nlen c) with false by (symmetry; apply N.ltb_ge, Hc).
  replace (nlen (c ++ [127]) <=? nlen c) with false
    by (symmetry; apply N.leb_gt; rewrite nlen_app; apply N.lt_add_pos_r; reflexivity).
  rewrite to_nat_nlen, firstn_app_exact, skipn_app_exact by reflexivity. reflexivity.
Qed.

Lemma starts_ok_field64 t k x s : t < k -> k < 127 -> starts_ok k s ->
  starts_ok t (field64 k x ++ s).
Proof.
  intros Htk Hk Hs. unfold field64.
  destruct (colfer_fixed_threshold_marshal <=? x).
  - eexists _, _. split; [reflexivity|]. right. lia.
  - destruct (x =? 0).
    + apply (starts_ok_mono k); [lia|exact Hs].
    + eexists _, _. split; [reflexivity|]. left. lia.
Qed.

Lemma starts_ok_type t v s : t < 2 -> starts_ok 2 s -> starts_ok t (field_type v ++ s).
Proof.
  intros Ht Hs. unfold field_type.
  destruct (v =? 0)%Z; [apply (starts_ok_mono 2); [lia|exact Hs]|].
  destruct (0 <=? v)%Z; eexists _, _; (split; [reflexivity|]); [left|right]; lia.
Qed.

Lemma starts_ok_cmd t c : t < 7 -> starts_ok t (field_cmd c ++ [127]).
Proof.
  intros Ht. destruct c; eexists _, _; (split; [reflexivity|]); left; lia.
Qed.

Lemma opt_or_nz x : opt_or (if x =? 0 then None else Some x) 0 = x.
Proof. destruct (N.eqb_spec x 0) as [->|]; reflexivity. Qed.

Lemma opt_or_nzZ v : opt_or (if (v =? 0)%Z then None else Some v) 0%Z = v.
Proof. destruct (Z.eqb_spec v 0) as [->|]; reflexivity. Qed.

Lemma entry_decode_encode e :
  wf_entry0 e ->
  decode (encode e) =
  if nlen (encode e) <? colfer_size_max then DecOk e (nlen (encode e)) else DecMax.
Proof.
  intros (Ht & Hi & Hty & Hk & Hc & Hs & Hr & Hcb & Hcl).
  destruct e as [term index ty key client series resp cmd]; cbn [e_term e_index e_type e_key
    e_client e_series e_responded e_cmd] in *.
  unfold encode; cbn [e_term e_index e_type e_key e_client e_series e_responded e_cmd].
  set (S7 := field_cmd cmd ++ [127]).
  set (S6 := field64 6 resp ++ S7).
  set (S5 := field64 5 series ++ S6).
  set (S4 := field64 4 client ++ S5).
  set (S3 := field64 3 key ++ S4).
  set (S2 := field_type ty ++ S3).
  set (S1 := field64 1 index ++ S2).
  set (S0 := field64 0 term ++ S1).
  assert (O7 : starts_ok 6 S7) by (apply starts_ok_cmd; reflexivity).
  assert (O6 : starts_ok 5 S6) by (apply starts_ok_field64; trivial; reflexivity).
  assert (O5 : starts_ok 4 S5) by (apply starts_ok_field64; trivial; reflexivity).
  assert (O4 : starts_ok 3 S4) by (apply starts_ok_field64; trivial; reflexivity).
  assert (O3 : starts_ok 2 S3) by (apply starts_ok_field64; trivial; reflexivity).
  assert (O2 : starts_ok 1 S2) by (apply starts_ok_type; trivial; reflexivity).
  assert (O1 : starts_ok 0 S1) by (apply starts_ok_field64; trivial; reflexivity).
  assert (E : decode S0 = decode_from (nlen S0) (pst_of S0)).
  { destruct S0 eqn:E0; [|reflexivity]. apply app_eq_nil in E0 as [_ E0].
    destruct (starts_ok_nonempty _ _ O1 E0). }
  rewrite E. unfold S0 at 2, S1, S2, S3, S4, S5, S6, decode_from.
  rewrite !dec_field64_enc, dec_field_type_enc, !dec_field64_enc, !opt_or_nz, opt_or_nzZ
    by (trivial; reflexivity).
  destruct cmd as [|b cmd'].
  - cbn. rewrite N.sub_0_r. reflexivity.
  - unfold S7 at 1. rewrite dec_field_cmd_enc by (trivial; discriminate).
    rewrite N.eqb_refl. cbn [nlen length N.of_nat]. rewrite N.sub_0_r. reflexivity.
Qed.

Lemma nlen_uvarint_fuel f : forall x, nlen (uvarint_fuel f x) = 1 + varint_extra f x.
Proof.
  induction f as [|f IH]; intros x; cbn [uvarint_fuel varint_extra]; [reflexivity|].
  destruct (x <? 128); [reflexivity|]. rewrite nlen_cons, IH. reflexivity.
Qed.

Lemma nlen_uvarint x : nlen (uvarint x) = 1 + varint_extra 9 x.
Proof. apply nlen_uvarint_fuel. Qed.

Lemma varint_extra_le f : forall x k, x < 128 ^ N.of_nat (S k) -> varint_extra f x <= N.of_nat k.
Proof.
  induction f as [|f IH]; intros x k Hx; cbn [varint_extra]; [lia|].
  destruct (N.ltb_spec x 128); [lia|]. rewrite Nat2N.inj_succ, N.pow_succ_r' in Hx.
  destruct k as [|k]; [cbn in Hx; lia|]. specialize (IH (x / 128) k). lia.
Qed.

Lemma varint_extra_le_fuel f : forall x, varint_extra f x <= N.of_nat f.
Proof.
  induction f as [|f IH]; intros x; cbn [varint_extra]; [reflexivity|].
  destruct (x <? 128); [lia|]. specialize (IH (x / 128)). lia.
Qed.

Lemma size64_exact tag x : nlen (field64 tag x) = size64 x.
Proof.
  unfold field64, size64. rewrite threshold_size_eq.
  destruct (colfer_fixed_threshold_marshal <=? x).
  - rewrite nlen_cons. unfold nlen. rewrite be_length. reflexivity.
  - destruct (x =? 0); [reflexivity|]. rewrite nlen_cons, nlen_uvarint. lia.
Qed.

Lemma size_type_exact v : nlen (field_type v) = size_type v.
Proof.
  unfold field_type, size_type. destruct (Z.eqb_spec v 0); [reflexivity|].
  destruct (Z.leb_spec 0 v); rewrite nlen_cons, nlen_uvarint.
  - rewrite Z.abs_eq by lia. lia.
  - rewrite Z.abs_neq by lia. lia.
Qed.

Lemma size_cmd_exact c : nlen (field_cmd c) = size_cmd c.
Proof.
  destruct c as [|b c]; [reflexivity|]. unfold field_cmd, size_cmd.
  rewrite nlen_cons, nlen_app, nlen_uvarint. lia.
Qed.

Theorem entry_size_exact_proved e : nlen (encode e) = size e.
Proof.
  unfold encode, size. rewrite !nlen_app, !size64_exact, size_type_exact, size_cmd_exact.
  change (nlen [127]) with 1. lia.
Qed.

Theorem entry_roundtrip_proved e :
  wf_entry e -> decode (encode e) = DecOk e (nlen (encode e)).
Proof.
  intros [H0 Hsz]. rewrite entry_decode_encode by exact H0.
  rewrite entry_size_exact_proved. apply N.ltb_lt in Hsz. rewrite Hsz. reflexivity.
Qed.

Lemma size_cmd_len_eq c : size_cmd c = size_cmd_len (nlen c).
Proof. unfold size_cmd, size_cmd_len. destruct c; [reflexivity|]. rewrite nlen_cons.
  destruct (N.eqb_spec (1 + nlen c) 0); [lia|reflexivity]. Qed.

Lemma size_len_eq e : size e = size_len e (nlen (e_cmd e)).
Proof. unfold size, size_len. rewrite size_cmd_len_eq. reflexivity. Qed.

Lemma size64_le x : size64 x <= 9.
Proof.
  unfold size64. rewrite threshold_size_eq.
  destruct (N.leb_spec colfer_fixed_threshold_marshal x); [lia|].
  destruct (x =? 0); [lia|].
  pose proof threshold_marshal_le.
  pose proof (varint_extra_le 9 x 7) as Hb.
  change (128 ^ N.of_nat 8) with (2 ^ 56) in Hb. lia.
Qed.

Lemma size_type_le v : int32 v -> size_type v <= 6.
Proof.
  intros Hv. unfold size_type. destruct (v =? 0)%Z; [lia|].
  pose proof (varint_extra_le 9 (Z.to_N (Z.abs v)) 4) as Hb.
  unfold int32 in Hv. change (128 ^ N.of_nat 5) with (2 ^ 35) in Hb. lia.
Qed.

Lemma size_cmd_le c : nlen c <= colfer_size_max -> size_cmd c <= nlen c + 10.
Proof.
  intros Hc. unfold size_cmd. destruct c; [lia|].
  pose proof size_max_lt.
  pose proof (varint_extra_le 9 (nlen (n :: c)) 8) as Hb.
  change (128 ^ N.of_nat 9) with (2 ^ 63) in Hb. lia.
Qed.

Lemma size_le_71 e : wf_entry0 e -> size e <= 71 + nlen (e_cmd e).
Proof.
  intros (_ & _ & Hty & _ & _ & _ & _ & _ & Hcl). unfold size.
  pose proof (size64_le (e_term e)). pose proof (size64_le (e_index e)).
  pose proof (size64_le (e_key e)). pose proof (size64_le (e_client e)).
  pose proof (size64_le (e_series e)). pose proof (size64_le (e_responded e)).
  pose proof (size_type_le _ Hty). pose proof (size_cmd_le _ Hcl). lia.
Qed.

Theorem entry_size_le_upper_limit_proved e :
  wf_entry e -> nlen (encode e) <= size_upper_limit e.
Proof.
  intros [H0 _]. rewrite entry_size_exact_proved. unfold size_upper_limit.
  pose proof non_cmd_fields_enough. pose proof (size_le_71 e H0). lia.
Qed.

Theorem encode_wf_bytes_proved e : wf_entry e -> wf_bytes (encode e).
Proof.
  intros [(Ht & Hi & Hty & Hk & Hc & Hs & Hr & Hcb & Hcl) _].
  assert (F64 : forall tag x, tag < 127 -> wf_bytes (field64 tag x)).
  { intros tag x Htag. unfold field64.
    destruct (colfer_fixed_threshold_marshal <=? x).
    - constructor; [lia|apply be_wf].
    - destruct (x =? 0); [constructor|]. constructor; [lia|apply uvarint_fuel_wf]. }
  unfold encode. repeat (apply Forall_app; split); try (apply F64; lia).
  - unfold field_type. destruct (e_type e =? 0)%Z; [constructor|].
    destruct (0 <=? e_type e)%Z; (constructor; [lia|apply uvarint_fuel_wf]).
  - unfold field_cmd. destruct (e_cmd e) eqn:E; [constructor|].
    rewrite <- E. constructor; [lia|]. apply Forall_app; split; [apply uvarint_fuel_wf|rewrite E; exact Hcb].
  - constructor; [lia|constructor].
Qed.
