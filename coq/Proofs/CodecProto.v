(* Every schema of Model/CodecProto.v is a list of fields; round trip and Size() are facts
   about field lists, instantiated type by type. *)
From DB Require Import Base.Bytes Model.CodecEntry Model.CodecProto Proofs.Bytes Proofs.CodecEntry.
From Coq Require Import ZifyN ZifyNat ZifyBool.
Open Scope N_scope.

(* rd_varint is declen 10 0 0 and sov x is 1 + varint_extra 9 x: the next three are facts of
   Proofs/CodecEntry.v under the names of this model *)
Lemma rd_varint_uvarint x r : x < 2 ^ 64 -> rd_varint (uvarint x ++ r) = Some (x, r).
Proof. apply declen_uvarint. reflexivity. Qed.

Lemma uvarint_nonempty x : uvarint x <> [].
Proof. apply uvarint_fuel_nonempty. Qed.

Lemma nlen_uvarint_sov x : nlen (uvarint x) = sov x.
Proof. apply nlen_uvarint. Qed.

Lemma sov_le_10 x : sov x <= 10.
Proof. unfold sov. pose proof (varint_extra_le_fuel 9 x). lia. Qed.

Lemma sov_ge_1 x : 1 <= sov x.
Proof. unfold sov. lia. Qed.

Definition wf_num (n : N) : Prop := 1 <= n < 2 ^ 28.

Lemma key_lt n wt : wf_num n -> wt < 8 -> key n wt < 2 ^ 64.
Proof. unfold wf_num, key. lia. Qed.

Lemma key_mod n wt : wt < 8 -> key n wt mod 8 = wt.
Proof. intros H. unfold key. rewrite N.add_comm, N.mod_add by discriminate. apply N.mod_small, H. Qed.

Lemma field_num_key n wt : wf_num n -> wt < 8 -> field_num (key n wt) = Z.of_N n.
Proof.
  unfold wf_num, key, field_num, to_int32. intros Hn Hw.
  rewrite N.div_add_l, (N.div_small wt), N.add_0_r, !N.mod_small by (trivial; lia).
  destruct (Z.ltb_spec (Z.of_N n) (2 ^ 31)); lia.
Qed.

Lemma wf_num_pos n : wf_num n -> (Z.of_N n <=? 0)%Z = false.
Proof. intros [H _]. apply Z.leb_gt. lia. Qed.

Definition wf_field (f : field) : Prop :=
  match f with
  | (n, FV x) => wf_num n /\ x < 2 ^ 64
  | (n, FB b) => wf_num n /\ nlen b < 2 ^ 64
  | (_, FSkip) => False
  end.

Lemma enc_field_nonempty f rest : wf_field f -> enc_field f ++ rest <> [].
Proof.
  destruct f as [n [x|b|]]; cbn [enc_field wf_field]; intros H; try contradiction.
  - pose proof (uvarint_nonempty (key n 0)). destruct (uvarint (key n 0)); [contradiction|discriminate].
  - pose proof (uvarint_nonempty (key n 2)). destruct (uvarint (key n 2)); [contradiction|discriminate].
Qed.

Lemma parse_enc_field fuel f rest : wf_field f ->
  parse (S fuel) (enc_field f ++ rest) =
  match parse fuel rest with None => None | Some fs => Some (f :: fs) end.
Proof.
  intros Hw. destruct (enc_field f ++ rest) as [|b0 d] eqn:E; [destruct (enc_field_nonempty f rest Hw E)|].
  cbn [parse]. rewrite <- E. clear E b0 d.
  destruct f as [n [x|b|]]; [| |contradiction]; destruct Hw as [Hn Hx]; cbn [enc_field];
    rewrite <- ?app_assoc, rd_varint_uvarint by (apply key_lt; [exact Hn|reflexivity]);
    cbv zeta; rewrite key_mod, field_num_key, (wf_num_pos n Hn) by (trivial; reflexivity);
    rewrite N2Z.id; cbn [N.eqb Pos.eqb]; rewrite rd_varint_uvarint by exact Hx.
  - reflexivity.
  - replace (nlen (b ++ rest) <? nlen b) with false by (symmetry; apply N.ltb_ge; rewrite nlen_app; lia).
    rewrite to_nat_nlen, firstn_app_exact, skipn_app_exact by reflexivity. reflexivity.
Qed.

Lemma parse_enc fs : forall fuel, Forall wf_field fs -> (length fs <= fuel)%nat ->
  parse fuel (enc_fields fs) = Some fs.
Proof.
  induction fs as [|f fs IH]; intros fuel Hw Hf.
  - destruct fuel; reflexivity.
  - inversion Hw as [|? ? Hf1 Hfs]; subst.
    destruct fuel as [|fuel]; [inversion Hf|].
    change (enc_fields (f :: fs)) with (enc_field f ++ enc_fields fs).
    rewrite parse_enc_field, IH by (trivial; apply le_S_n, Hf). reflexivity.
Qed.

Lemma enc_fields_length fs : Forall wf_field fs -> (length fs <= length (enc_fields fs))%nat.
Proof.
  induction 1 as [|f fs Hf _ IH]; [reflexivity|].
  change (enc_fields (f :: fs)) with (enc_field f ++ enc_fields fs). rewrite app_length.
  pose proof (enc_field_nonempty f [] Hf) as N. rewrite app_nil_r in N.
  destruct (enc_field f); [contradiction|cbn [length]; lia].
Qed.

Lemma parse_all_enc fs : Forall wf_field fs -> parse_all (enc_fields fs) = Some fs.
Proof. intros H. apply parse_enc; [exact H|apply enc_fields_length; exact H]. Qed.

Lemma enc_fields_nil : enc_fields [] = []. Proof. reflexivity. Qed.

Lemma fold_fields_app {T} (step : T -> field -> option T) a b t :
  fold_fields step (a ++ b) t =
  match fold_fields step a t with None => None | Some t' => fold_fields step b t' end.
Proof.
  revert t; induction a as [|f a IH]; intros t; [reflexivity|].
  cbn [app fold_fields]. destruct (step t f); [apply IH|reflexivity].
Qed.

Lemma decode_with_enc {T} (step : T -> field -> option T) zero fs :
  Forall wf_field fs -> decode_with step zero (enc_fields fs) = fold_fields step fs zero.
Proof. intros H. unfold decode_with. rewrite parse_all_enc by exact H. reflexivity. Qed.

(* A repeated field (a slice or a map): every occurrence appends to the collection
   [get t] of the record.  [Q acc a] is what decoding [a] asks of the elements
   collected before it (nothing for slices, a fresh key for maps). *)
Section Repeated.
  Context {T A : Type} (step : T -> field -> option T) (g : A -> field)
          (get : T -> list A) (put : T -> list A -> T) (Q : list A -> A -> Prop).
  Hypothesis Hstep : forall t a, Q (get t) a -> step t (g a) = Some (put t (get t ++ [a])).
  Hypothesis Hget : forall t x, get (put t x) = x.
  Hypothesis Hput : forall t x y, put (put t x) y = put t y.
  Hypothesis Hid : forall t, put t (get t) = t.

  Fixpoint addable (acc l : list A) : Prop :=
    match l with [] => True | a :: r => Q acc a /\ addable (acc ++ [a]) r end.

  Lemma fold_fields_repeated l : forall t, addable (get t) l ->
    fold_fields step (map g l) t = Some (put t (get t ++ l)).
  Proof.
    induction l as [|a l IH]; intros t H.
    - cbn. rewrite app_nil_r, Hid. reflexivity.
    - destruct H as [Ha Hl]. cbn [map fold_fields].
      rewrite Hstep, IH by (rewrite ?Hget; assumption).
      rewrite Hget, Hput, <- app_assoc. reflexivity.
  Qed.
End Repeated.

Lemma addable_Forall {A} (P : A -> Prop) l : Forall P l -> forall acc, addable (fun _ => P) acc l.
Proof. induction 1; intros acc; cbn; auto. Qed.

(* a map field read into a record whose map is still empty: every entry is appended,
   since its key is not among those before it *)
Definition fresh_and {V} (R : N * V -> Prop) (acc : list (N * V)) (kv : N * V) : Prop :=
  ~ In (fst kv) (keys acc) /\ R kv.

Lemma addable_fresh {V} (R : N * V -> Prop) m : forall acc,
  NoDup (keys (acc ++ m)) -> Forall R m -> addable (fresh_and R) acc m.
Proof.
  induction m as [|kv m IH]; intros acc Hnd HR; [exact I|].
  inversion HR as [|? ? Hkv Hm]; subst. split; [split; [|exact Hkv]|].
  - unfold keys in *. rewrite map_app in Hnd. cbn [map] in Hnd.
    apply NoDup_remove_2 in Hnd. intros F. apply Hnd, in_or_app. left. exact F.
  - apply IH; [rewrite <- app_assoc; exact Hnd|exact Hm].
Qed.

Lemma enc_i32_lt z : enc_i32 z < 2 ^ 64.
Proof. unfold enc_i32. pose proof (Z.mod_pos_bound z (2 ^ 64) eq_refl). lia. Qed.

Lemma dec_enc_i32 z : int32 z -> dec_i32 (enc_i32 z) = z.
Proof.
  intros H. unfold dec_i32, enc_i32. transitivity (to_int32 (Z.to_N (z mod 2 ^ 32))); [|apply to_int32_mod, H].
  f_equal. apply N2Z.inj.
  rewrite N2Z.inj_mod, !Z2N.id by (try apply Z.mod_pos_bound; reflexivity).
  symmetry. apply Znumtheory.Zmod_div_mod; try reflexivity. exists (2 ^ 32)%Z. reflexivity.
Qed.

Lemma enc_bool_lt b : enc_bool b < 2 ^ 64.
Proof. destruct b; reflexivity. Qed.
Lemma dec_enc_bool b : dec_bool (enc_bool b) = b.
Proof. destruct b; reflexivity. Qed.
Lemma dec_u32_small x : x < 2 ^ 32 -> dec_u32 x = x.
Proof. apply N.mod_small. Qed.
Lemma sov_enc_bool b : sov (enc_bool b) = 1.
Proof. destruct b; reflexivity. Qed.

(* Size() adds, per field, the length of the key (1 byte for field numbers below 16,
   2 below 2048) and of the value.  [fsize] is that sum with the key length as a
   function that computes on the literal field numbers of the schemas. *)
Definition klen (n : N) : N := if n <? 16 then 1 else if n <? 2048 then 2 else sov (key n 0).

Lemma varint_extra_key f n wt : wt < 8 ->
  varint_extra (S f) (key n wt) = if n <? 16 then 0 else 1 + varint_extra f (n / 16).
Proof.
  intros H. unfold key. cbn [varint_extra]. replace ((n * 8 + wt) / 128) with (n / 16) by lia.
  destruct (N.ltb_spec (n * 8 + wt) 128), (N.ltb_spec n 16); try lia; reflexivity.
Qed.

Lemma nlen_key n wt : wt < 8 -> nlen (uvarint (key n wt)) = klen n.
Proof.
  intros H. rewrite nlen_uvarint_sov. unfold klen, sov. rewrite !varint_extra_key by (trivial; reflexivity).
  destruct (N.ltb_spec n 16); [reflexivity|]. destruct (N.ltb_spec n 2048); [|reflexivity].
  cbn [varint_extra]. replace (n / 16 <? 128) with true by (symmetry; apply N.ltb_lt; lia). reflexivity.
Qed.

Definition fsize (f : field) : N :=
  match f with
  | (n, FV x) => klen n + sov x
  | (n, FB b) => klen n + nlen b + sov (nlen b)
  | (_, FSkip) => 0
  end.

Lemma sum_map_cons {A} (f : A -> N) a l : sum_map f (a :: l) = f a + sum_map f l.
Proof. reflexivity. Qed.

Lemma sum_map_app {A} (f : A -> N) a b : sum_map f (a ++ b) = sum_map f a + sum_map f b.
Proof. induction a as [|x a IH]; [reflexivity|]. cbn [app]. rewrite !sum_map_cons, IH. apply N.add_assoc. Qed.

Lemma nlen_enc_fields fs : nlen (enc_fields fs) = sum_map fsize fs.
Proof.
  induction fs as [|[n [x|b|]] fs IH]; [reflexivity|..];
    change (enc_fields (?f :: fs)) with (enc_field f ++ enc_fields fs);
    rewrite sum_map_cons, nlen_app, IH; f_equal; cbn [enc_field fsize];
    rewrite ?nlen_app, ?nlen_key, ?nlen_uvarint_sov by reflexivity; lia.
Qed.

Lemma sum_map_fsize_map {A} (g : A -> field) (sz : A -> N) l :
  (forall a, fsize (g a) = sz a) -> sum_map fsize (map g l) = sum_map sz l.
Proof.
  intros H. induction l as [|a l IH]; [reflexivity|]. cbn [map]. rewrite !sum_map_cons, H, IH. reflexivity.
Qed.

Lemma fsize_fb1 n b : n < 16 -> fsize (n, FB b) = szb (nlen b).
Proof. intros H. cbn [fsize]. unfold klen, szb. apply N.ltb_lt in H. rewrite H. reflexivity. Qed.

Lemma fsize_opt_field n o : n < 16 -> sum_map fsize (opt_field n o) = opt_size o.
Proof.
  intros H. destruct o as [b|]; [|reflexivity]. cbn [opt_field opt_size sum_map fold_right].
  rewrite fsize_fb1 by exact H. apply N.add_0_r.
Qed.

Ltac fields_size :=
  rewrite nlen_enc_fields, ?sum_map_app;
  cbn [sum_map fold_right fsize klen N.ltb N.compare Pos.compare Pos.compare_cont].

Lemma wf_num_lit n : (1 <=? n) && (n <? 2 ^ 28) = true -> wf_num n.
Proof. intros H. apply andb_true_iff in H as [A B]. apply N.leb_le in A. apply N.ltb_lt in B. split; assumption. Qed.

Lemma wf_fv n x : (1 <=? n) && (n <? 2 ^ 28) = true -> x < 2 ^ 64 -> wf_field (n, FV x).
Proof. intros Hn Hx. split; [apply wf_num_lit, Hn|exact Hx]. Qed.

Lemma wf_fb n b : (1 <=? n) && (n <? 2 ^ 28) = true -> nlen b < 2 ^ 64 -> wf_field (n, FB b).
Proof. apply wf_fv. Qed.

Ltac fields_wf :=
  unfold u64 in *;
  repeat (apply Forall_cons; [first [apply wf_fv | apply wf_fb];
            [reflexivity | first [assumption | apply enc_i32_lt | apply enc_bool_lt]]|]);
  apply Forall_nil.

Lemma lt63_lt64 x : x < 2 ^ 63 -> x < 2 ^ 64.
Proof. lia. Qed.
Lemma lt32_lt64 x : x < 2 ^ 32 -> x < 2 ^ 64.
Proof. lia. Qed.

(* the regenerated guards: every optional byte field is written, and counted by
   Size(), exactly when it is non-nil.  After a source change of one of these guards the
   lemmas that use this tactic no longer go through. *)
Ltac guards :=
  cbn [opt_present sf_metadata_guard_nil_marshal sf_metadata_guard_nil_size
       sn_checksum_guard_nil_marshal sn_checksum_guard_nil_size
       sh_header_checksum_guard_nil_marshal sh_header_checksum_guard_nil_size
       sh_payload_checksum_guard_nil_marshal sh_payload_checksum_guard_nil_size
       ck_data_guard_nil_marshal ck_data_guard_nil_size].

Lemma opt_field_wf n o : wf_num n -> olen o < 2 ^ 64 -> Forall wf_field (opt_field n o).
Proof. intros Hn Ho. destruct o as [b|]; constructor; [split; assumption|constructor]. Qed.

Lemma Forall_map_wf {A} (g : A -> field) (P : A -> Prop) l :
  (forall a, P a -> wf_field (g a)) -> Forall P l -> Forall wf_field (map g l).
Proof. intros H HP. apply Forall_map. eapply Forall_impl; [exact H|exact HP]. Qed.

Lemma state_fields_wf s : wf_state s -> Forall wf_field (state_to_fields s).
Proof. intros (A & B & C). unfold state_to_fields. fields_wf. Qed.

Lemma state_roundtrip_proved s : wf_state s -> state_decode (state_encode s) = Some s.
Proof.
  intros H. unfold state_decode, state_encode. rewrite decode_with_enc by apply state_fields_wf, H.
  destruct s; reflexivity.
Qed.

Lemma state_size_exact_proved s : nlen (state_encode s) = state_size s.
Proof. unfold state_encode, state_to_fields, state_size, szv. fields_size. lia. Qed.

Lemma state_size_le_33 s : state_size s <= 33.
Proof.
  unfold state_size, szv. pose proof (sov_le_10 (st_term s)). pose proof (sov_le_10 (st_vote s)).
  pose proof (sov_le_10 (st_commit s)). lia.
Qed.

Lemma session_fields_wf s : wf_session s -> Forall wf_field (session_to_fields s).
Proof. intros (A & B & C & D). unfold session_to_fields. fields_wf. Qed.

Lemma session_roundtrip_proved s : wf_session s -> session_decode (session_encode s) = Some s.
Proof.
  intros H. unfold session_decode, session_encode. rewrite decode_with_enc by apply session_fields_wf, H.
  destruct s; reflexivity.
Qed.

Lemma session_size_exact_proved s : nlen (session_encode s) = session_size s.
Proof. unfold session_encode, session_to_fields, session_size, szv. fields_size. lia. Qed.

Lemma sf_fields_wf s : wf_sf s -> Forall wf_field (sf_to_fields s).
Proof.
  intros (A & B & C & D). unfold sf_to_fields. guards. apply Forall_app. split.
  - apply lt32_lt64 in A. fields_wf.
  - apply opt_field_wf; [apply wf_num_lit; reflexivity|apply lt32_lt64, D].
Qed.

(* decoding into a record that already holds a SnapshotFile (Chunk.FileInfo) *)
Lemma sf_fold s t : fold_fields sf_step (sf_to_fields s) t = Some
  (mkSF (sf_filepath s) (sf_filesize s) (sf_fileid s)
        (match sf_metadata s with Some b => Some b | None => sf_metadata t end)).
Proof. unfold sf_to_fields. guards. destruct s as [a b c [d|]]; destruct t; reflexivity. Qed.

Lemma sf_roundtrip_proved s : wf_sf s -> sf_decode (sf_encode s) = Some s.
Proof.
  intros H. unfold sf_decode, sf_encode. rewrite decode_with_enc by apply sf_fields_wf, H.
  rewrite sf_fold. destruct s as [a b c [d|]]; reflexivity.
Qed.

Lemma sf_size_exact_proved s : nlen (sf_encode s) = sf_size s.
Proof.
  unfold sf_encode, sf_to_fields, sf_size, szv, szb. guards. fields_size.
  rewrite fsize_opt_field by reflexivity. lia.
Qed.

Lemma opt_size_le o : opt_size o <= 11 + olen o.
Proof. destruct o as [b|]; cbn [opt_size olen]; [unfold szb; pose proof (sov_le_10 (nlen b))|]; lia. Qed.

Lemma sf_size_lt s : wf_sf s -> nlen (sf_encode s) < 2 ^ 64.
Proof.
  intros (A & B & C & D). rewrite sf_size_exact_proved. unfold sf_size, szb, szv. guards.
  pose proof (sov_le_10 (nlen (sf_filepath s))). pose proof (sov_le_10 (sf_filesize s)).
  pose proof (sov_le_10 (sf_fileid s)). pose proof (opt_size_le (sf_metadata s)). lia.
Qed.

Lemma map_set_fresh {V} k (v : V) m : ~ In k (keys m) -> map_set k v m = m ++ [(k, v)].
Proof.
  induction m as [|[k' v'] m IH]; intros H; [reflexivity|].
  cbn [map_set]. cbn [keys map fst In] in H.
  destruct (N.eqb_spec k k') as [E|_]; [destruct H; left; congruence|].
  cbn [app]. f_equal. apply IH. intros F. apply H. right. exact F.
Qed.

(* map[uint64]string and map[uint64]bool have separate generated entry decoders in the Go
   code, hence two loops in the model and every lemma below in two copies *)
Lemma smap_loop_key f x rest k v : x < 2 ^ 64 ->
  smap_entry_loop (S f) (uvarint (key 1 0) ++ uvarint x ++ rest) k v = smap_entry_loop f rest (N.lor k x) v.
Proof.
  intros Hx. change (uvarint (key 1 0)) with [8]. cbn [app smap_entry_loop].
  change (8 :: uvarint x ++ rest) with (uvarint 8 ++ uvarint x ++ rest).
  rewrite rd_varint_uvarint by reflexivity. cbv beta iota zeta. change (field_num 8) with 1%Z.
  cbn [Z.eqb Pos.eqb]. rewrite rd_varint_uvarint by exact Hx. reflexivity.
Qed.

Lemma smap_loop_val f b rest k v : nlen b < 2 ^ 64 ->
  smap_entry_loop (S f) (uvarint (key 2 2) ++ uvarint (nlen b) ++ b ++ rest) k v = smap_entry_loop f rest k b.
Proof.
  intros Hb. change (uvarint (key 2 2)) with [18]. cbn [app smap_entry_loop].
  change (18 :: uvarint (nlen b) ++ b ++ rest) with (uvarint 18 ++ uvarint (nlen b) ++ b ++ rest).
  rewrite rd_varint_uvarint by reflexivity. cbv beta iota zeta. change (field_num 18) with 2%Z.
  cbn [Z.eqb Pos.eqb]. rewrite rd_varint_uvarint by exact Hb.
  replace (nlen (b ++ rest) <? nlen b) with false by (symmetry; apply N.ltb_ge; rewrite nlen_app; lia).
  rewrite to_nat_nlen, firstn_app_exact, skipn_app_exact by reflexivity. reflexivity.
Qed.

Lemma bmap_loop_key f x rest k v : x < 2 ^ 64 ->
  bmap_entry_loop (S f) (uvarint (key 1 0) ++ uvarint x ++ rest) k v = bmap_entry_loop f rest (N.lor k x) v.
Proof.
  intros Hx. change (uvarint (key 1 0)) with [8]. cbn [app bmap_entry_loop].
  change (8 :: uvarint x ++ rest) with (uvarint 8 ++ uvarint x ++ rest).
  rewrite rd_varint_uvarint by reflexivity. cbv beta iota zeta. change (field_num 8) with 1%Z.
  cbn [Z.eqb Pos.eqb]. rewrite rd_varint_uvarint by exact Hx. reflexivity.
Qed.

Lemma bmap_loop_val f x rest k v : x < 2 ^ 64 ->
  bmap_entry_loop (S f) (uvarint (key 2 0) ++ uvarint x ++ rest) k v = bmap_entry_loop f rest k (dec_bool x).
Proof.
  intros Hx. change (uvarint (key 2 0)) with [16]. cbn [app bmap_entry_loop].
  change (16 :: uvarint x ++ rest) with (uvarint 16 ++ uvarint x ++ rest).
  rewrite rd_varint_uvarint by reflexivity. cbv beta iota zeta. change (field_num 16) with 2%Z.
  cbn [Z.eqb Pos.eqb]. rewrite rd_varint_uvarint by exact Hx. reflexivity.
Qed.

Lemma smap_entry_shape kv :
  smap_entry kv = uvarint (key 1 0) ++ uvarint (fst kv) ++ uvarint (key 2 2) ++ uvarint (nlen (snd kv)) ++ snd kv ++ [].
Proof. unfold smap_entry, enc_fields. cbn [flat_map enc_field]. rewrite <- !app_assoc. reflexivity. Qed.

Lemma bmap_entry_shape kv :
  bmap_entry kv = uvarint (key 1 0) ++ uvarint (fst kv) ++ uvarint (key 2 0) ++ uvarint (enc_bool (snd kv)) ++ [].
Proof. unfold bmap_entry, enc_fields. cbn [flat_map enc_field]. rewrite <- !app_assoc. reflexivity. Qed.

Lemma smap_entry_decode_enc kv : fst kv < 2 ^ 64 -> nlen (snd kv) < 2 ^ 64 ->
  smap_entry_decode (smap_entry kv) = Some kv.
Proof.
  intros Hk Hv. unfold smap_entry_decode.
  assert (L : (2 <= length (smap_entry kv))%nat) by (apply (enc_fields_length [_; _]); fields_wf).
  destruct (length (smap_entry kv)) as [|[|f]]; [lia..|].
  rewrite smap_entry_shape, smap_loop_key, smap_loop_val, N.lor_0_l by assumption.
  destruct f, kv; reflexivity.
Qed.

Lemma bmap_entry_decode_enc kv : fst kv < 2 ^ 64 -> bmap_entry_decode (bmap_entry kv) = Some kv.
Proof.
  intros Hk. unfold bmap_entry_decode.
  assert (L : (2 <= length (bmap_entry kv))%nat) by (apply (enc_fields_length [_; _]); fields_wf).
  destruct (length (bmap_entry kv)) as [|[|f]]; [lia..|].
  rewrite bmap_entry_shape, bmap_loop_key, bmap_loop_val, N.lor_0_l, dec_enc_bool
    by (trivial; apply enc_bool_lt).
  destruct f, kv; reflexivity.
Qed.

Lemma fold_map_field {T V} (step : T -> field -> option T) n (enc : N * V -> bytes)
      (putf : bytes -> list (N * V) -> option (list (N * V))) (R : N * V -> Prop)
      (get : T -> list (N * V)) (put : T -> list (N * V) -> T) :
  (forall kv m, R kv -> ~ In (fst kv) (keys m) -> putf (enc kv) m = Some (m ++ [kv])) ->
  (forall t y, step t (n, FB y) = match putf y (get t) with Some b' => Some (put t b') | None => None end) ->
  (forall t x, get (put t x) = x) -> (forall t x y, put (put t x) y = put t y) ->
  (forall t, put t (get t) = t) ->
  forall m t, get t = [] -> NoDup (keys m) /\ Forall R m ->
  fold_fields step (map (fun kv => (n, FB (enc kv))) m) t = Some (put t m).
Proof.
  intros Hput Hs Hg Hp Hi m t Ht [Hnd Hall].
  rewrite (fold_fields_repeated step _ get put (fresh_and R));
    rewrite ?Ht; trivial; [|apply addable_fresh; assumption].
  intros t0 kv [Hf HR]. rewrite Hs, Hput by assumption. reflexivity.
Qed.

Lemma smap_put_enc kv m : u64 (fst kv) /\ nlen (snd kv) < 2 ^ 32 -> ~ In (fst kv) (keys m) ->
  smap_put (smap_entry kv) m = Some (m ++ [kv]).
Proof.
  intros [Hk Hv] Hf. unfold smap_put. rewrite smap_entry_decode_enc by (trivial; apply lt32_lt64, Hv).
  destruct kv. rewrite map_set_fresh by exact Hf. reflexivity.
Qed.

Lemma bmap_put_enc kv m : u64 (fst kv) -> ~ In (fst kv) (keys m) ->
  bmap_put (bmap_entry kv) m = Some (m ++ [kv]).
Proof.
  intros Hk Hf. unfold bmap_put. rewrite bmap_entry_decode_enc by exact Hk.
  destruct kv. rewrite map_set_fresh by exact Hf. reflexivity.
Qed.

Lemma smap_entry_nlen kv : nlen (smap_entry kv) = smap_entry_size kv.
Proof.
  rewrite smap_entry_shape, !nlen_app, !nlen_key, !nlen_uvarint_sov by reflexivity.
  unfold smap_entry_size. change (nlen []) with 0. change (klen 1) with 1. change (klen 2) with 1. lia.
Qed.

Lemma bmap_entry_nlen kv : nlen (bmap_entry kv) = bmap_entry_size kv.
Proof.
  rewrite bmap_entry_shape, !nlen_app, !nlen_key, !nlen_uvarint_sov, sov_enc_bool by reflexivity.
  unfold bmap_entry_size. change (nlen []) with 0. change (klen 1) with 1. change (klen 2) with 1. lia.
Qed.

Lemma smap_fields_size n m : n < 16 -> sum_map fsize (smap_fields n m) = smap_size m.
Proof.
  intros H. apply sum_map_fsize_map. intros kv. rewrite fsize_fb1, smap_entry_nlen by exact H.
  unfold szb. cbv zeta. lia.
Qed.

Lemma bmap_fields_size n m : n < 16 -> sum_map fsize (bmap_fields n m) = bmap_size m.
Proof.
  intros H. apply sum_map_fsize_map. intros kv. rewrite fsize_fb1, bmap_entry_nlen by exact H.
  unfold szb. cbv zeta. lia.
Qed.

Lemma smap_fields_wf n m : wf_num n -> wf_smap m -> Forall wf_field (smap_fields n m).
Proof.
  intros Hn [_ Hall]. refine (Forall_map_wf _ _ _ _ Hall). intros kv [A B]. split; [exact Hn|].
  rewrite smap_entry_nlen. unfold smap_entry_size.
  pose proof (sov_le_10 (fst kv)). pose proof (sov_le_10 (nlen (snd kv))). unfold bytes in *. lia.
Qed.

Lemma bmap_fields_wf n m : wf_num n -> wf_bmap m -> Forall wf_field (bmap_fields n m).
Proof.
  intros Hn [_ Hall]. refine (Forall_map_wf _ _ _ _ Hall). intros kv A. split; [exact Hn|].
  rewrite bmap_entry_nlen. unfold bmap_entry_size. pose proof (sov_le_10 (fst kv)). lia.
Qed.

Lemma mb_fields_wf m : wf_mb m -> Forall wf_field (mb_to_fields m).
Proof.
  intros (A & B & C & D & E). unfold mb_to_fields. repeat (apply Forall_app; split).
  - fields_wf.
  - apply smap_fields_wf; [apply wf_num_lit; reflexivity|exact B].
  - apply bmap_fields_wf; [apply wf_num_lit; reflexivity|exact C].
  - apply smap_fields_wf; [apply wf_num_lit; reflexivity|exact D].
  - apply smap_fields_wf; [apply wf_num_lit; reflexivity|exact E].
Qed.

Lemma mb_fold m : wf_mb m -> fold_fields mb_step (mb_to_fields m) mb_zero = Some m.
Proof.
  intros (A & B & C & D & E). unfold mb_to_fields, smap_fields, bmap_fields. rewrite fold_fields_app.
  cbn [fold_fields mb_step mb_zero]. rewrite fold_fields_app.
  rewrite (fold_map_field mb_step 2 _ _ _ mb_addresses (fun t x => mkMB (mb_ccid t) x (mb_removed t) (mb_nonvotings t) (mb_witnesses t)) smap_put_enc)
    by (trivial; intros []; reflexivity).
  cbn [mb_ccid mb_addresses mb_removed mb_nonvotings mb_witnesses]. rewrite fold_fields_app.
  rewrite (fold_map_field mb_step 3 _ _ _ mb_removed (fun t x => mkMB (mb_ccid t) (mb_addresses t) x (mb_nonvotings t) (mb_witnesses t)) bmap_put_enc)
    by (trivial; intros []; reflexivity).
  cbn [mb_ccid mb_addresses mb_removed mb_nonvotings mb_witnesses]. rewrite fold_fields_app.
  rewrite (fold_map_field mb_step 4 _ _ _ mb_nonvotings (fun t x => mkMB (mb_ccid t) (mb_addresses t) (mb_removed t) x (mb_witnesses t)) smap_put_enc)
    by (trivial; intros []; reflexivity).
  cbn [mb_ccid mb_addresses mb_removed mb_nonvotings mb_witnesses].
  rewrite (fold_map_field mb_step 5 _ _ _ mb_witnesses (fun t x => mkMB (mb_ccid t) (mb_addresses t) (mb_removed t) (mb_nonvotings t) x) smap_put_enc)
    by (trivial; intros []; reflexivity).
  destruct m; reflexivity.
Qed.

Lemma mb_roundtrip_proved m : wf_mb m -> mb_decode (mb_encode m) = Some m.
Proof.
  intros H. unfold mb_decode, mb_encode. rewrite decode_with_enc by apply mb_fields_wf, H.
  apply mb_fold, H.
Qed.

Lemma mb_size_exact_proved m : nlen (mb_encode m) = mb_size m.
Proof.
  unfold mb_encode, mb_to_fields, mb_size, szv. fields_size.
  rewrite !smap_fields_size, bmap_fields_size by reflexivity. lia.
Qed.

Lemma olen_le o : olen o <= opt_size o.
Proof. destruct o as [b|]; cbn [olen opt_size]; [unfold szb; lia|reflexivity]. Qed.

Lemma sn_size_parts s : sn_size s < 2 ^ 63 ->
  mb_size (sn_membership s) < 2 ^ 63 /\ nlen (sn_filepath s) < 2 ^ 63 /\ olen (sn_checksum s) < 2 ^ 63.
Proof.
  unfold sn_size, szb, szv. guards. pose proof (olen_le (sn_checksum s)). lia.
Qed.

Lemma sn_fields_wf s : wf_sn s -> Forall wf_field (sn_to_fields s).
Proof.
  intros (A & B & C & D & E & F & G & H & I & J & K).
  destruct (sn_size_parts s K) as (K1 & K2 & K3).
  unfold sn_to_fields. guards. repeat (apply Forall_app; split).
  - apply lt32_lt64 in A. rewrite <- mb_size_exact_proved in K1. apply lt63_lt64 in K1. fields_wf.
  - refine (Forall_map_wf _ _ _ _ F). intros f Hf.
    split; [apply wf_num_lit; reflexivity|apply sf_size_lt, Hf].
  - apply opt_field_wf; [apply wf_num_lit; reflexivity|apply lt32_lt64, G].
  - fields_wf.
Qed.

Definition sn_put_files (t : snapshot) (x : list snapshotfile) : snapshot :=
  mkSN (sn_filepath t) (sn_filesize t) (sn_index t) (sn_term t) (sn_membership t) x (sn_checksum t)
       (sn_dummy t) (sn_shard t) (sn_type t) (sn_imported t) (sn_ondisk t) (sn_witness t).

Lemma sn_fold s : wf_sn s -> fold_fields sn_step (sn_to_fields s) sn_zero = Some s.
Proof.
  intros (A & B & C & D & E & F & G & H & I & J & K).
  unfold sn_to_fields. guards. rewrite fold_fields_app. cbn [fold_fields sn_step sn_zero].
  fold (mb_decode (mb_encode (sn_membership s))). rewrite mb_roundtrip_proved by exact E.
  rewrite fold_fields_app.
  rewrite (fold_fields_repeated sn_step _ sn_files sn_put_files (fun _ => wf_sf));
    [|intros [] a Ha; cbn [sn_step]; rewrite sf_roundtrip_proved by exact Ha; reflexivity
     |intros []; reflexivity..|apply addable_Forall, F].
  rewrite fold_fields_app.
  destruct s as [a b c d e f g h i j k l m]. cbn [sn_checksum sn_type] in *.
  destruct g as [g|];
    cbn [opt_field app fold_fields sn_step sn_put_files sn_filepath sn_filesize sn_index sn_term
         sn_membership sn_files sn_checksum sn_dummy sn_shard sn_type sn_imported sn_ondisk sn_witness];
    rewrite !dec_enc_bool, dec_enc_i32 by exact I; reflexivity.
Qed.

Lemma sn_roundtrip_proved s : wf_sn s -> sn_decode (sn_encode s) = Some s.
Proof.
  intros H. unfold sn_decode, sn_encode. rewrite decode_with_enc by apply sn_fields_wf, H.
  apply sn_fold, H.
Qed.

Lemma sn_size_exact_proved s : nlen (sn_encode s) = sn_size s.
Proof.
  unfold sn_encode, sn_to_fields, sn_size. guards. fields_size.
  rewrite (sum_map_fsize_map _ (fun f => szb (sf_size f)))
    by (intros f; rewrite fsize_fb1, sf_size_exact_proved by reflexivity; reflexivity).
  rewrite fsize_opt_field, mb_size_exact_proved by reflexivity.
  unfold szv, szb. rewrite !sov_enc_bool. lia.
Qed.

Lemma entry_enc_lt e : wf_entry e -> nlen (encode e) < 2 ^ 64.
Proof.
  intros H. pose proof (entry_size_le_upper_limit_proved e H) as L.
  destruct H as [(_ & _ & _ & _ & _ & _ & _ & _ & Hc) _].
  unfold size_upper_limit in L. change entry_non_cmd_fields_size with 128 in L.
  change colfer_size_max with (2 ^ 43) in Hc. lia.
Qed.

Lemma entry_decode_exact_enc e : wf_entry e -> entry_decode_exact (encode e) = Some e.
Proof. intros H. unfold entry_decode_exact. rewrite entry_roundtrip_proved by exact H. reflexivity. Qed.

Lemma entries_fields_wf n es : wf_num n -> Forall wf_entry es ->
  Forall wf_field (map (fun e => (n, FB (encode e))) es).
Proof.
  intros Hn H. refine (Forall_map_wf _ _ _ _ H).
  intros e He. split; [exact Hn|apply entry_enc_lt, He].
Qed.

Lemma eb_roundtrip_proved es : Forall wf_entry es -> eb_decode (eb_encode es) = Some es.
Proof.
  intros H. unfold eb_decode, eb_encode, eb_to_fields.
  rewrite decode_with_enc by (apply entries_fields_wf; [apply wf_num_lit; reflexivity|exact H]).
  rewrite (fold_fields_repeated eb_step _ (fun t => t) (fun _ x => x) (fun _ => wf_entry));
    [reflexivity| |reflexivity..|apply addable_Forall, H].
  intros t a Ha. cbn [eb_step]. rewrite entry_decode_exact_enc by exact Ha. reflexivity.
Qed.

Lemma entries_size n es : n < 16 ->
  sum_map fsize (map (fun e => (n, FB (encode e))) es) = sum_map (fun e => szb (size e)) es.
Proof.
  intros H. apply sum_map_fsize_map. intros e. rewrite fsize_fb1, entry_size_exact_proved by exact H. reflexivity.
Qed.

Lemma eb_size_exact_proved es : nlen (eb_encode es) = eb_size es.
Proof. unfold eb_encode, eb_to_fields, eb_size. rewrite nlen_enc_fields. apply entries_size. reflexivity. Qed.

Lemma szb_le l : szb l <= l + 11.
Proof. unfold szb. pose proof (sov_le_10 l). lia. Qed.

Lemma szv_le x : szv x <= 11.
Proof. unfold szv. pose proof (sov_le_10 x). lia. Qed.

Lemma sum_map_le {A} (P : A -> Prop) (f g : A -> N) l :
  (forall a, P a -> f a <= g a) -> Forall P l -> sum_map f l <= sum_map g l.
Proof.
  intros H. induction 1 as [|a l Ha _ IH]; [reflexivity|].
  rewrite !sum_map_cons. specialize (H a Ha). lia.
Qed.

Lemma entry_szb_le e : wf_entry e -> szb (size e) <= size_upper_limit e + 11.
Proof.
  intros He. pose proof (entry_size_le_upper_limit_proved e He) as L.
  rewrite entry_size_exact_proved in L. pose proof (szb_le (size e)). lia.
Qed.

Lemma eb_size_le_upper_proved es : Forall wf_entry es -> eb_size es <= eb_size_upper es.
Proof.
  intros H. unfold eb_size, eb_size_upper. apply N.le_trans with (0 + sum_map (fun e => size_upper_limit e + eb_upper_per_entry) es);
    [|apply N.add_le_mono_r; discriminate].
  apply (sum_map_le wf_entry); [|exact H]. intros e He. pose proof (entry_szb_le e He).
  change eb_upper_per_entry with 16. lia.
Qed.

Lemma msg_size_parts m : msg_size m < 2 ^ 63 -> sn_size (m_snapshot m) < 2 ^ 63.
Proof. unfold msg_size, szb, szv. lia. Qed.

Lemma msg_fields_wf m : wf_msg m -> Forall wf_field (msg_to_fields m).
Proof.
  intros (A & B & C & D & E & F & G & H & I & J & K & L & M).
  unfold msg_to_fields. repeat (apply Forall_app; split).
  - fields_wf.
  - apply entries_fields_wf; [apply wf_num_lit; reflexivity|exact J].
  - pose proof (msg_size_parts m M) as S. rewrite <- sn_size_exact_proved in S. apply lt63_lt64 in S.
    fields_wf.
Qed.

Definition msg_put_entries (t : message) (x : list entry) : message :=
  mkMsg (m_type t) (m_to t) (m_from t) (m_shard t) (m_term t) (m_logterm t) (m_logindex t)
        (m_commit t) (m_reject t) (m_hint t) x (m_snapshot t) (m_hinthigh t).

Lemma msg_fold m : wf_msg m -> fold_fields msg_step (msg_to_fields m) msg_zero = Some m.
Proof.
  intros (A & B & C & D & E & F & G & H & I & J & K & L & M).
  unfold msg_to_fields. rewrite fold_fields_app.
  cbn [fold_fields msg_step msg_zero]. rewrite dec_enc_i32, dec_enc_bool by exact A.
  rewrite fold_fields_app.
  rewrite (fold_fields_repeated msg_step _ m_entries msg_put_entries (fun _ => wf_entry));
    [|intros [] a Ha; cbn [msg_step]; rewrite entry_decode_exact_enc by exact Ha; reflexivity
     |intros []; reflexivity..|apply addable_Forall, J].
  cbn [fold_fields msg_step msg_put_entries m_entries app m_type m_to m_from m_shard m_term m_logterm
       m_logindex m_commit m_reject m_hint m_snapshot m_hinthigh].
  fold (sn_decode (sn_encode (m_snapshot m))). rewrite sn_roundtrip_proved by exact K.
  destruct m; reflexivity.
Qed.

Lemma msg_roundtrip_proved m : wf_msg m -> msg_decode (msg_encode m) = Some m.
Proof.
  intros H. unfold msg_decode, msg_encode. rewrite decode_with_enc by apply msg_fields_wf, H.
  apply msg_fold, H.
Qed.

Lemma msg_size_exact_proved m : nlen (msg_encode m) = msg_size m.
Proof.
  unfold msg_encode, msg_to_fields, msg_size. fields_size.
  rewrite entries_size, sn_size_exact_proved by reflexivity. unfold szv, szb. rewrite sov_enc_bool. lia.
Qed.

Lemma msg_size_le_upper_proved m : wf_msg m -> msg_size m <= msg_size_upper m.
Proof.
  intros (A & B & C & D & E & F & G & H & I & J & K & L & M).
  unfold msg_size, msg_size_upper.
  pose proof (szv_le (enc_i32 (m_type m))). pose proof (szv_le (m_to m)). pose proof (szv_le (m_from m)).
  pose proof (szv_le (m_shard m)). pose proof (szv_le (m_term m)). pose proof (szv_le (m_logterm m)).
  pose proof (szv_le (m_logindex m)). pose proof (szv_le (m_commit m)). pose proof (szv_le (m_hint m)).
  pose proof (szv_le (m_hinthigh m)). pose proof (szb_le (sn_size (m_snapshot m))).
  assert (P : sum_map (fun e => szb (size e)) (m_entries m) <=
              sum_map (fun e => msg_upper_per_entry + size_upper_limit e) (m_entries m)).
  { apply (sum_map_le wf_entry); [|exact J]. intros e He. pose proof (entry_szb_le e He).
    change msg_upper_per_entry with 16. lia. }
  change msg_upper_base with 192. lia.
Qed.

Lemma bt_fields_wf b : wf_bt b -> Forall wf_field (bt_to_fields b).
Proof.
  intros (A & B & C & D). unfold bt_to_fields. apply Forall_app; split.
  - refine (Forall_map_wf _ _ _ _ A). intros m Hm.
    split; [apply wf_num_lit; reflexivity|]. rewrite msg_size_exact_proved. apply lt63_lt64, Hm.
  - apply lt63_lt64 in C. apply lt32_lt64 in D. fields_wf.
Qed.

Definition bt_put_requests (t : messagebatch) (x : list message) : messagebatch :=
  mkMBatch x (bt_deployment t) (bt_source t) (bt_binver t).

Lemma bt_roundtrip_proved b : wf_bt b -> bt_decode (bt_encode b) = Some b.
Proof.
  intros Hw. pose proof Hw as (A & B & C & D).
  unfold bt_decode, bt_encode. rewrite decode_with_enc by apply bt_fields_wf, Hw.
  unfold bt_to_fields. rewrite fold_fields_app.
  rewrite (fold_fields_repeated bt_step _ bt_requests bt_put_requests (fun _ => wf_msg));
    [|intros [] a Ha; cbn [bt_step]; rewrite msg_roundtrip_proved by exact Ha; reflexivity
     |intros []; reflexivity..|apply addable_Forall, A].
  destruct b as [r d s v]. cbn. rewrite dec_u32_small by exact D. reflexivity.
Qed.

Lemma bt_size_exact_proved b : nlen (bt_encode b) = bt_size b.
Proof.
  unfold bt_encode, bt_to_fields, bt_size. fields_size.
  rewrite (sum_map_fsize_map _ (fun m => szb (msg_size m)))
    by (intros m; rewrite fsize_fb1, msg_size_exact_proved by reflexivity; reflexivity).
  unfold szv, szb. lia.
Qed.

Lemma bt_size_le_upper_proved b : wf_bt b -> bt_size b <= bt_size_upper b.
Proof.
  intros (A & B & C & D). unfold bt_size, bt_size_upper.
  pose proof (szv_le (bt_deployment b)). pose proof (szb_le (nlen (bt_source b))).
  pose proof (szv_le (bt_binver b)).
  assert (P : sum_map (fun m => szb (msg_size m)) (bt_requests b) <=
              sum_map (fun m => bt_upper_per_msg + msg_size_upper m) (bt_requests b)).
  { apply (sum_map_le wf_msg); [|exact A]. intros m Hm.
    pose proof (msg_size_le_upper_proved m Hm). pose proof (szb_le (msg_size m)).
    change bt_upper_per_msg with 16. lia. }
  change bt_upper_base with 48. lia.
Qed.

Lemma cc_fields_wf c : wf_cc c -> Forall wf_field (cc_to_fields c).
Proof. intros (A & B & C & D). unfold cc_to_fields. apply lt63_lt64 in D. fields_wf. Qed.

Lemma cc_roundtrip_proved c : wf_cc c -> cc_decode (cc_encode c) = Some c.
Proof.
  intros H. pose proof H as (A & B & C & D).
  unfold cc_decode, cc_encode. rewrite decode_with_enc by apply cc_fields_wf, H.
  destruct c as [a b c0 d e]. cbn [cc_type] in B. cbn. rewrite dec_enc_i32, dec_enc_bool by exact B. reflexivity.
Qed.

Lemma cc_size_exact_proved c : nlen (cc_encode c) = cc_size c.
Proof.
  unfold cc_encode, cc_to_fields, cc_size, szv, szb. fields_size. rewrite sov_enc_bool. lia.
Qed.

Lemma rds_fields_wf s : wf_rds s -> Forall wf_field (rds_to_fields s).
Proof.
  intros (A & B & C & D & E & F & G & H & I & J). unfold rds_to_fields.
  apply lt63_lt64 in A, D, E. apply lt32_lt64 in B. fields_wf.
Qed.

Lemma rds_roundtrip_proved s : wf_rds s -> rds_decode (rds_encode s) = Some s.
Proof.
  intros H. pose proof H as (A & B & C & D & E & F & G & H1 & I & J).
  unfold rds_decode, rds_encode. rewrite decode_with_enc by apply rds_fields_wf, H.
  destruct s as [a b c d e f g h i j k]. cbn [rds_binver] in B. cbn.
  rewrite dec_u32_small, dec_enc_bool by exact B. reflexivity.
Qed.

Lemma rds_size_exact_proved s : nlen (rds_encode s) = rds_size s.
Proof.
  unfold rds_encode, rds_to_fields, rds_size, szv, szb. fields_size. rewrite sov_enc_bool. lia.
Qed.

Lemma sh_fields_wf s : wf_sh s -> Forall wf_field (sh_to_fields s).
Proof.
  intros (A & B & C & D & E & F & G & H & I). unfold sh_to_fields. guards.
  repeat (apply Forall_app; split).
  - apply lt63_lt64 in D. fields_wf.
  - apply opt_field_wf; [apply wf_num_lit; reflexivity|apply lt63_lt64, E].
  - apply opt_field_wf; [apply wf_num_lit; reflexivity|apply lt63_lt64, F].
  - fields_wf.
Qed.

Lemma sh_roundtrip_proved s : wf_sh s -> sh_decode (sh_encode s) = Some s.
Proof.
  intros H. pose proof H as (A & B & C & D & E & F & G & H1 & I).
  unfold sh_decode, sh_encode. rewrite decode_with_enc by apply sh_fields_wf, H.
  unfold sh_to_fields. guards.
  destruct s as [a b c d e f g h i]. cbn [sh_checksum_type sh_compression_type] in G, I.
  destruct e as [e|]; destruct f as [f|]; cbn; rewrite !dec_enc_i32 by assumption; reflexivity.
Qed.

Lemma sh_size_exact_proved s : nlen (sh_encode s) = sh_size s.
Proof.
  unfold sh_encode, sh_to_fields, sh_size, szv, szb. guards. fields_size.
  rewrite !fsize_opt_field by reflexivity. lia.
Qed.

Lemma bs_fields_wf b : wf_bs b -> Forall wf_field (bs_to_fields b).
Proof.
  intros (A & B). unfold bs_to_fields. apply Forall_app; split.
  - apply smap_fields_wf; [apply wf_num_lit; reflexivity|exact A].
  - fields_wf.
Qed.

Lemma bs_roundtrip_proved b : wf_bs b -> bs_decode (bs_encode b) = Some b.
Proof.
  intros H. pose proof H as (A & B).
  unfold bs_decode, bs_encode. rewrite decode_with_enc by apply bs_fields_wf, H.
  unfold bs_to_fields, smap_fields. rewrite fold_fields_app.
  rewrite (fold_map_field bs_step 1 _ _ _ bs_addresses (fun t x => mkBS x (bs_join t) (bs_type t)) smap_put_enc)
    by (trivial; intros []; reflexivity).
  destruct b as [a j t]. cbn [bs_type] in B. cbn. rewrite dec_enc_bool, dec_enc_i32 by exact B. reflexivity.
Qed.

Lemma bs_size_exact_proved b : nlen (bs_encode b) = bs_size b.
Proof.
  unfold bs_encode, bs_to_fields, bs_size, szv. fields_size.
  rewrite smap_fields_size, sov_enc_bool by reflexivity. lia.
Qed.

Lemma ck_fields_wf c : wf_ck c -> Forall wf_field (ck_to_fields c).
Proof.
  intros (A1 & A2 & A3 & A4 & A5 & A6 & A7 & A8 & A9 & A10 & A11 & A12 & A13 & A14 & A15 & A16 & A17 & A18 & A19).
  unfold ck_to_fields. guards. repeat (apply Forall_app; split).
  - fields_wf.
  - apply opt_field_wf; [apply wf_num_lit; reflexivity|apply lt63_lt64, A7].
  - apply lt63_lt64 in A11. apply lt32_lt64 in A17.
    rewrite <- mb_size_exact_proved in A19. apply lt63_lt64 in A19.
    pose proof (sf_size_lt _ A16) as S.
    fields_wf.
Qed.

Lemma ck_roundtrip_proved c : wf_ck c -> ck_decode (ck_encode c) = Some c.
Proof.
  intros H.
  pose proof H as (A1 & A2 & A3 & A4 & A5 & A6 & A7 & A8 & A9 & A10 & A11 & A12 & A13 & A14 & A15 & A16 & A17 & A18 & A19).
  unfold ck_decode, ck_encode. rewrite decode_with_enc by apply ck_fields_wf, H.
  unfold ck_to_fields. guards.
  destruct c as [a b c0 d e g h i j k l m n o p q r t u v].
  cbn [ck_shard ck_replica ck_from ck_id ck_size ck_count ck_data ck_index ck_term ck_membership
       ck_filepath ck_filesize ck_deployment ck_filechunkid ck_filechunkcount ck_hasfileinfo
       ck_fileinfo ck_binver ck_ondisk ck_witness] in *. clear - A10 A16 A17.
  rewrite fold_fields_app. cbn [fold_fields ck_step ck_zero]. rewrite fold_fields_app.
  (* Data is the only optional field: written or not, the record holds h afterwards *)
  replace (fold_fields ck_step (opt_field 7 h) _)
    with (Some (mkCK a b c0 d e g h 0 0 mb_zero [] 0 0 0 0 false sf_zero 0 0 false))
    by (destruct h; reflexivity).
  cbn [fold_fields ck_step].
  fold (mb_decode (mb_encode k)). rewrite mb_roundtrip_proved by exact A10. cbn [fold_fields ck_step].
  fold (sf_decode (sf_encode r)). rewrite sf_roundtrip_proved by exact A16. cbn [fold_fields ck_step].
  rewrite !dec_enc_bool, dec_u32_small by exact A17. reflexivity.
Qed.

Lemma ck_size_exact_proved c : nlen (ck_encode c) = ck_size_of c.
Proof.
  unfold ck_encode, ck_to_fields, ck_size_of, szv, szv2, szb, szb2. guards. fields_size.
  rewrite fsize_opt_field, mb_size_exact_proved, sf_size_exact_proved, !sov_enc_bool by reflexivity. lia.
Qed.
