(* L2: ReadIndex never returns a stale index (stage 1 voter set).
   A read that a quorum confirmed carries an index >= every commit index any node had
   when the read was requested. *)
From DB Require Import Model.RaftNet Model.RaftNetRead Proofs.RaftNetLists Proofs.RaftNetElection
  Proofs.RaftNetLog Proofs.RaftNetCommitDefs Proofs.RaftNetCommit Proofs.RaftNetSafety.

Definition lc' (n : net) (lc : nat -> nat) (l : label) : nat -> nat :=
  match l with
  | LAdvanceCommit i k => updg lc (term (nodes n i)) k
  | _ => lc
  end.

(* c is bounded by what some leader of a term <= tmax committed by counting *)
Definition cbound (lc : nat -> nat) (tmax c : nat) : Prop :=
  c = 0 \/ exists t', t' <= tmax /\ c <= lc t'.

Lemma cbound_le lc tmax c c' : cbound lc tmax c -> c' <= c -> cbound lc tmax c'.
Proof. intros [->|(t' & Ht & Hc)] H; [left; lia | right; exists t'; split; lia]. Qed.

Lemma cbound_mono lc lc2 tmax tmax' c :
  cbound lc tmax c -> (forall t, lc t <= lc2 t) -> tmax <= tmax' -> cbound lc2 tmax' c.
Proof.
  intros [->|(t' & Ht & Hc)] Hl Hm; [now left|]. right. exists t'. specialize (Hl t'). split; lia.
Qed.

Section ReadProofs.
  Variable V : list id.
  Hypothesis V_nodup : NoDup V.

  Notation inv := (inv V).
  Notation step := (step V).
  Notation stepR := (stepR V).
  Notation stepsR := (stepsR V).
  Notation reachableR := (reachableR V).
  Notation committed := (committed V).

  Definition K1 (n : net) lc := forall t, lc t = 0 \/ (lead n t <> None /\ committed n t (lc t)).
  Definition K2 (n : net) lc := forall i, role (nodes n i) = Leader -> lc (term (nodes n i)) <= commit (nodes n i).
  Definition K3 (n : net) lc := forall j, cbound lc (term (nodes n j)) (hcommit (nodes n j)).
  Definition K4 (n : net) lc := forall t ldr prev pt ents c,
    In (AE t ldr prev pt ents c) (msgs n) -> cbound lc t c.
  Definition K5 (n : net) lc := forall t ldr to c, In (HB t ldr to c) (msgs n) -> cbound lc t c.

  Record invK0 (n : net) (lc : nat -> nat) : Prop := {
    k_0 : inv n; k_1 : K1 n lc; k_2 : K2 n lc; k_3 : K3 n lc; k_4 : K4 n lc; k_5 : K5 n lc
  }.

  Lemma invK0_init : invK0 (init) (fun _ => 0).
  Proof.
    constructor; [apply inv_init | | | | |]; red; simpl; intros; try contradiction; auto; now left.
  Qed.

  Lemma lc'_mono n lc l n' : invK0 n lc -> step n l n' -> forall t, lc t <= lc' n lc l t.
  Proof.
    intros HK Hstep t. destruct l; simpl; auto.
    unfold updg. destruct (Nat.eqb_spec t (term (nodes n i))) as [->|]; [|lia].
    inversion Hstep; subst; repeat match goal with x := _ |- _ => subst x end.
    match goal with Hr : role _ = Leader |- _ => pose proof (k_2 n lc HK i Hr) end. lia.
  Qed.

  Lemma invK0_step n lc l n' : invK0 n lc -> step n l n' -> invK0 n' (lc' n lc l).
  Proof.
    intros HK Hstep. pose proof (k_0 n lc HK) as Hinv.
    pose proof (lc'_mono n lc l n' HK Hstep) as Hmono.
    pose proof (inv_fresh V V_nodup n l n' Hinv Hstep) as Hf.
    destruct Hinv as [H1 Hq H2 H3a H3b] eqn:Einv. pose proof (k_0 n lc HK) as Hinv'.
    pose proof (step_gext V n l n' H1 H2 Hf Hstep) as Hg.
    (* the commit bound is a notion of committed prefix in the sense of prefix_step *)
    assert (Hpre := prefix_step V n n' l (fun tmax c _ => cbound lc tmax c)
                                (fun tmax c _ => cbound (lc' n lc l) tmax c)).
    cbv beta in Hpre.
    specialize (Hpre (fun tmax c c' _ => cbound_le _ tmax c c')).
    specialize (Hpre (fun tmax tmax' c _ H => cbound_mono _ _ tmax tmax' c H (fun _ => le_n _))).
    specialize (Hpre (fun _ _ _ _ H _ => H) (fun _ _ => or_introl eq_refl)).
    specialize (Hpre (fun tmax c _ H => cbound_mono _ _ tmax tmax c H Hmono (le_n _))).
    specialize (Hpre (fun t c H => cbound_mono _ _ t t c H Hmono (le_n _))).
    assert (Hadv : forall i k, l = LAdvanceCommit i k -> cbound (lc' n lc l) (term (nodes n i)) k).
    { intros i k ->. right. exists (term (nodes n i)). split; [lia|]. cbn [lc']. rewrite updg_eq. lia. }
    specialize (Hpre Hadv H2 H3a (agl_fixed V n H2 H3a H3b) Hstep (k_3 n lc HK) (k_4 n lc HK)).
    assert (Hhb : forall t ldr to c, In (HB t ldr to c) (msgs n) ->
                    c = 0 \/ (acked n t to c /\ cbound lc t c)).
    { intros t ldr to c Hin. destruct (i_hb V n H3b _ _ _ _ Hin) as [->|(Ha & _)]; [now left | right].
      split; [exact Ha | exact (k_5 n lc HK _ _ _ _ Hin)]. }
    specialize (Hpre Hhb).
    constructor.
    - eapply inv_step; eauto.
    - intros t.
      assert (Hold : lc t = 0 \/ (lead n' t <> None /\ committed n' t (lc t))).
      { destruct (k_1 n lc HK t) as [E|(Hl & Hc)]; [now left | right].
        split; [now apply (lead_gext n n') | now apply (committed_gext V n n')]. }
      destruct l; simpl; auto.
      unfold updg. destruct (Nat.eqb_spec t (term (nodes n i))) as [->|]; [|exact Hold].
      right. destruct (advance_commit_committed V V_nodup n i k n' Hinv' Hstep) as (Hc & _).
      split; [|now apply (committed_gext V n n')].
      inversion Hstep; subst. apply (lead_gext n _ _ Hg).
      rewrite (i_leader n H1 i) by assumption. discriminate.
    - intros j. pose proof (k_2 n lc HK j) as Hold. pose proof (k_1 n lc HK) as HK1.
      inv_step Hstep; cbn [lc']; simp_upd; intros Hr; auto; try discriminate.
      + (* BecomeLeader: the term had no leader, so nothing was committed in it *)
        match goal with |- lc ?T <= _ =>
          destruct (HK1 T) as [E|(Hl & _)]; [lia|]; exfalso; apply Hl; apply Hf; reflexivity end.
      + rewrite updg_eq. lia.
      + unfold updg.
        match goal with |- context [?a =? ?b] => destruct (Nat.eqb_spec a b) as [E|] end; auto.
        exfalso. pose proof (i_leader n H1 j Hr) as A.
        match goal with Hi : role (nodes n ?i0) = Leader, Hne : j <> ?i0 |- _ =>
          pose proof (i_leader n H1 i0 Hi) as B end.
        rewrite E in A. congruence.
    - exact (proj1 Hpre).
    - exact (proj1 (proj2 Hpre)).
    - intros t ldr to c Hin. destruct (proj2 (proj2 Hpre) t ldr to c Hin) as [->|(_ & Hc)];
        [now left | exact Hc].
  Qed.

  Definition read_ok (n : net) (r : readrec) : Prop :=
    invK0 (r_snap r) (r_snapl r) /\ gext (r_snap r) n /\
    role (nodes (r_snap r) (r_ldr r)) = Leader /\
    term (nodes (r_snap r) (r_ldr r)) = r_term r /\
    term_at (log (nodes (r_snap r) (r_ldr r))) (commit (nodes (r_snap r) (r_ldr r))) = r_term r /\
    r_index r = commit (nodes (r_snap r) (r_ldr r)).

  Definition K6 (s : netR) := forall r, In r (reads s) -> read_ok (baseR s) r.
  Definition K7 (s : netR) := forall t w ctx, In (t, w, ctx) (hbrs s) ->
    forall r, In r (reads s) -> r_ctx r = ctx ->
      r_term r = t /\ forall T c vl, In (Vote T w c vl) (msgs (r_snap r)) -> T <= t.
  Definition K8 (s : netR) := forall t w ctx, In (t, w, ctx) (hbrs s) ->
    exists r, In r (reads s) /\ r_ctx r = ctx.
  Definition K9 (s : netR) := forall r r', In r (reads s) -> In r' (reads s) ->
    r_ctx r = r_ctx r' -> r = r'.
  (* commit indexes only grow from a request to now, and from an older request to a
     newer one (the list is newest first) *)
  Definition K10 (s : netR) := forall r j, In r (reads s) ->
    hcommit (nodes (r_snap r) j) <= hcommit (nodes (baseR s) j).
  Definition K11 (s : netR) := forall pre r post j r', reads s = pre ++ r :: post -> In r' post ->
    hcommit (nodes (r_snap r') j) <= hcommit (nodes (r_snap r) j).

  Record invR (s : netR) : Prop := {
    r_0 : invK0 (baseR s) (lcommit s); r_6 : K6 s; r_7 : K7 s; r_8 : K8 s; r_9 : K9 s;
    r_10 : K10 s; r_11 : K11 s
  }.

  Lemma invR_init : invR (initR).
  Proof.
    constructor; [apply invK0_init | | | | | |]; red; simpl; intros; try contradiction.
    destruct pre; discriminate.
  Qed.

  Lemma invR_step s l s' : invR s -> stepR s l s' -> invR s'.
  Proof.
    intros [HK H6 H7 H8 H9 H10 H11] Hstep.
    destruct Hstep; repeat match goal with x := _ |- _ => subst x end; subst.
    - pose proof (k_0 _ _ HK) as Hinv.
      assert (Hg : gext (baseR s) b').
      { pose proof (inv_fresh V V_nodup _ _ _ Hinv H) as Hf.
        destruct Hinv as [A1 Aq A2 A3a A3b]. eapply step_gext; eauto. }
      constructor; cbn [baseR lcommit reads hbrs]; auto.
      + change (lcommit' s l) with (lc' (baseR s) (lcommit s) l). now apply invK0_step.
      + intros r Hr. destruct (H6 r Hr) as (A & B & C). split; [exact A|]. split; [|exact C].
        eapply gext_trans; eauto.
      + intros r j Hr. cbn [baseR reads] in *. specialize (H10 r j Hr).
        destruct (hcommit_stable V _ _ _ j (inv_2 V _ Hinv) (inv_3a V _ Hinv) (inv_agl V _ Hinv) H)
          as (Hm & _). lia.
    - pose proof (k_0 _ _ HK) as Hinv. destruct Hinv as [A1 Aq A2 A3a A3b].
      constructor; cbn [baseR lcommit reads hbrs]; auto.
      + intros r [<-|Hr]; [|now apply H6].
        unfold read_ok; cbn [r_snap r_snapl r_ldr r_term r_index].
        split; [exact HK|]. split; [apply gext_refl|]. repeat split; auto.
      + intros t w ctx0 [Heq|Hin] r [<-|Hr] Hctx; cbn [r_ctx r_term r_snap] in *.
        * injection Heq as <- <- <-. split; [reflexivity|]. intros T c vl Hv.
          apply (i_vote_le _ A1 _ _ _ _ Hv).
        * injection Heq as <- <- <-. exfalso. eapply H1; eauto.
        * exfalso. destruct (H8 _ _ _ Hin) as (r0 & Hr0 & E0). eapply H1; eauto. congruence.
        * eapply H7; eauto.
      + intros t w ctx0 [Heq|Hin].
        * injection Heq as <- <- <-. eexists. split; [now left | reflexivity].
        * destruct (H8 _ _ _ Hin) as (r0 & Hr0 & E0). exists r0. split; [now right | exact E0].
      + intros r r' [<-|Hr] [<-|Hr'] E; cbn [r_ctx] in *; auto.
        * exfalso. eapply H1; eauto.
        * exfalso. eapply H1; eauto.
      + intros r j [<-|Hr]; cbn [r_snap baseR]; [lia | now apply H10].
      + intros pre r post j r' Hsplit Hr'. destruct pre as [|r0 pre]; simpl in Hsplit.
        * injection Hsplit as <- <-. cbn [r_snap]. now apply H10.
        * injection Hsplit as _ Hsplit. eapply H11; eauto.
    - pose proof (k_0 _ _ HK) as Hinv. destruct Hinv as [A1 Aq A2 A3a A3b].
      constructor; cbn [baseR lcommit reads hbrs]; auto.
      + intros t0 w0 ctx0 [Heq|Hin] r Hr Hctx; [|eapply H7; eauto].
        injection Heq as <- <- <-.
        destruct H as (r1 & Hr1 & E1 & T1).
        assert (r = r1) by (apply H9; auto; congruence). subst r1.
        split; [exact T1|].
        intros T c vl Hv. destruct (H6 r Hr) as (_ & (Hincl & _) & _).
        pose proof (i_vote_le _ A1 _ _ _ _ (Hincl _ Hv)). lia.
      + intros t0 w0 ctx0 [Heq|Hin]; [|eauto].
        injection Heq as <- <- <-. destruct H as (r1 & Hr1 & E1 & _). eauto.
  Qed.

  Lemma invR_steps s ls s' : invR s -> stepsR s ls s' -> invR s'.
  Proof. intros Hi Hs. induction Hs; [assumption|]. apply IHHs. eapply invR_step; eauto. Qed.

  Lemma invR_reachable s : reachableR s -> invR s.
  Proof. intros (ls & Hs). eapply invR_steps; [apply invR_init | exact Hs]. Qed.

  Theorem read_index_not_stale s r j :
    reachableR s -> In r (reads s) -> confirmed V s r ->
    hcommit (nodes (r_snap r) j) <= r_index r.
  Proof.
    intros Hr Hin (Q & HQi & HQn & HQl & HQw).
    destruct (invR_reachable s Hr) as [HK H6 H7 H8 H9 _ _].
    destruct (H6 r Hin) as (HK0 & Hg & Hrole & Hterm & Hown & Hidx).
    set (n0 := r_snap r) in *. set (l0 := r_snapl r) in *. set (i := r_ldr r) in *.
    set (t := r_term r) in *.
    pose proof (k_0 _ _ HK0) as Hinv0. destruct Hinv0 as [A1 Aq A2 A3a A3b] eqn:Einv0.
    destruct (k_3 _ _ HK0 j) as [E|(t' & Ht' & Hc)]; [lia|].
    destruct (Nat.eq_dec (l0 t') 0) as [E0|E0]; [lia|].
    destruct (k_1 _ _ HK0 t') as [E|(Hl' & Hcm)]; [contradiction|].
    rewrite Hidx.
    destruct (Nat.lt_trichotomy t' t) as [Hlt|[->|Hgt]].
    - (* committed in an earlier term: it lies before the leader's own committed entry *)
      pose proof (i_leader n0 A1 i Hrole) as Hli. rewrite Hterm in Hli.
      assert (Hlt_lead : lead n0 t <> None) by (rewrite Hli; discriminate).
      pose proof (leader_completeness1 V n0 A2 A3b t t' (l0 t') Hcm Hlt Hlt_lead) as Hag.
      pose proof (i_leader_log n0 A2 i Hrole) as Hll. rewrite Hterm in Hll. rewrite Hll in Hag.
      destruct Hcm as (Hk' & Hterm' & _).
      assert (Hk'len : l0 t' <= length (log (nodes n0 i))).
      { apply agree_sym in Hag. eapply agree_len; [exact Hag | lia]. }
      assert (Et' : term_at (log (nodes n0 i)) (l0 t') = t').
      { rewrite (agree_term_at _ (l0 t') _ _ Hag) by lia. exact Hterm'. }
      assert (Ht1 : 1 <= t).
      { pose proof (i_role_term n0 A1 i). rewrite Hterm in H. apply H. congruence. }
      assert (Hcr : 1 <= commit (nodes n0 i) <= length (log (nodes n0 i)))
        by (apply term_at_in_range; lia).
      pose proof (log_ok_sorted n0 _ (i_llog_sorted n0 A2) (i_log_ok n0 A2 i)) as Hsorted.
      destruct (Nat.le_gt_cases (l0 t') (commit (nodes n0 i))) as [Hle|Hgt']; [lia|].
      pose proof (Hsorted (commit (nodes n0 i)) (l0 t') ltac:(lia) Hk'len). lia.
    - pose proof (k_2 _ _ HK0 i Hrole) as H2'. rewrite Hterm in H2'. lia.
    - exfalso. destruct (lead n0 t') as [c'|] eqn:El; [|congruence].
      destruct (Aq t' c' El) as (Q' & (I' & N' & L') & HQ'w).
      destruct (quorum_intersect V Q' Q I' HQi N' HQn L' HQl) as (w & Hw1 & Hw2).
      destruct (HQ'w w Hw1) as (vl & Hv).
      destruct (H7 _ _ _ (HQw w Hw2) r Hin eq_refl) as (_ & Hvotes).
      pose proof (Hvotes _ _ _ Hv). fold t in H. lia.
  Qed.

  Corollary read_index_covers_commits s r j :
    reachableR s -> In r (reads s) -> confirmed V s r ->
    commit (nodes (r_snap r) j) <= r_index r.
  Proof.
    intros Hr Hin Hc. pose proof (read_index_not_stale s r j Hr Hin Hc).
    destruct (invR_reachable s Hr) as [HK H6 _ _ _ _ _].
    destruct (H6 r Hin) as (HK0 & _).
    pose proof (k_0 _ _ HK0) as Hinv0. destruct Hinv0 as [_ _ _ A3a _].
    destruct (i_commit_bounds _ A3a j). lia.
  Qed.

  (* readIndex.confirm releases every OLDER pending read together with the confirmed one,
     at the confirmed read's index: that index also covers what was committed when the
     older reads were requested *)
  Theorem read_index_covers_older_reads s pre r post r' j :
    reachableR s -> reads s = pre ++ r :: post -> In r' post -> confirmed V s r ->
    hcommit (nodes (r_snap r') j) <= r_index r.
  Proof.
    intros Hr Hsplit Hr' Hc.
    assert (Hin : In r (reads s)) by (rewrite Hsplit; apply in_or_app; right; now left).
    pose proof (read_index_not_stale s r j Hr Hin Hc).
    pose proof (r_11 s (invR_reachable s Hr) pre r post j r' Hsplit Hr'). lia.
  Qed.

  Theorem step_fnR_sound s l s' : step_fnR V s l = Some s' -> stepR s l s'.
  Proof.
    destruct l; cbn [step_fnR]; intros H.
    - destruct (step_fn V (baseR s) l) as [b'|] eqn:E; [|discriminate].
      injection H as <-. apply SRBase. now apply step_fn_sound.
    - match type of H with (if ?c then _ else _) = _ => destruct c eqn:Hc; [|discriminate] end.
      injection H as <-. apply andb_prop in Hc. destruct Hc as [Hc Hfresh].
      apply andb_prop in Hc. destruct Hc as [Hr Ht]. apply Nat.eqb_eq in Ht.
      apply SRRequest; auto using role_eqb_eq.
      intros r Hin E. rewrite forallb_forall in Hfresh. specialize (Hfresh r Hin).
      apply negb_true_iff in Hfresh. apply Nat.eqb_neq in Hfresh. contradiction.
    - match type of H with (if ?c then _ else _) = _ => destruct c eqn:Hc; [|discriminate] end.
      injection H as <-. apply andb_prop in Hc. destruct Hc as [Hex Ht]. apply Nat.eqb_eq in Ht.
      apply SRRespond; [|exact Ht].
      apply existsb_exists in Hex. destruct Hex as (r & Hin & Hb).
      apply andb_prop in Hb. destruct Hb as [A B]. apply Nat.eqb_eq in A, B. eauto.
  Qed.

  Theorem runR_sound ls : forall s s', runR V s ls = Some s' -> stepsR s ls s'.
  Proof.
    induction ls as [|l ls IH]; simpl; intros s s' H.
    - injection H as <-. constructor.
    - destruct (step_fnR V s l) as [s1|] eqn:E; [|discriminate].
      econstructor; [apply step_fnR_sound; exact E | apply IH; exact H].
  Qed.

  Corollary runR_reachable ls s : runR V (initR) ls = Some s -> reachableR s.
  Proof. intros H. exists ls. now apply runR_sound. Qed.

  Theorem confirmed_b_sound s r : confirmed_b V s r = true -> confirmed V s r.
  Proof.
    unfold confirmed_b. intros H. apply Nat.leb_le in H.
    destruct (filter_quorum V _ V_nodup H) as (Q & (HI & HN & HL) & Hf).
    exists Q. repeat split; auto. intros w Hw. specialize (Hf w Hw).
    apply existsb_exists in Hf. destruct Hf as ([[t0 w0] c0] & Hin & He). simpl in He.
    apply andb_prop in He. destruct He as [He E3]. apply andb_prop in He. destruct He as [E1 E2].
    apply Nat.eqb_eq in E1, E2, E3. now subst.
  Qed.

End ReadProofs.
