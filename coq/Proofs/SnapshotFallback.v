(* Proofs/SnapshotFallback.v — C08, the raft side of "a lagging follower whose
   needed entries were compacted is brought up to date by a snapshot rather than
   left with a gap": raft.sendReplicateMessage (Model/RaftCore.v [send_replicate],
   the L1 model tied to internal/raft by the raft simulator's differential check). *)
From DB Require Import Model.RaftCore.
From Coq Require Import ZifyN ZifyNat ZifyBool Lia.
Open Scope N_scope.

(* what a step leaves in the outbox: the messages that were there, then nothing
   or one message, of which [P] holds *)
Definition emits (r r' : raft) (P : msg -> Prop) : Prop :=
  exists new, r_msgs r' = r_msgs r ++ new /\ (new = [] \/ exists x, new = [x] /\ P x).

Lemma emits_none r r' P : r_msgs r' = r_msgs r -> emits r r' P.
Proof. intros E. exists []. rewrite E, app_nil_r. auto. Qed.

Lemma emits_impl r r' (P Q : msg -> Prop) : (forall x, P x -> Q x) -> emits r r' P -> emits r r' Q.
Proof. intros I (new & E & [H|(x & H & Px)]); exists new; eauto 6. Qed.

(* [send] from a state with the same outbox: at most the message itself, its
   term possibly filled in *)
Lemma emits_send r r0 m : r_msgs r0 = r_msgs r ->
  emits r (send r0 m) (fun x => m_type x = m_type m /\ m_to x = m_to m /\
    m_logindex x = m_logindex m /\ m_entries x = m_entries m /\ m_snapshot x = m_snapshot m).
Proof.
  intros E. unfold send. destruct (finalize_term r0 (m <| m_from := r_id r0 |>)) as [m'|] eqn:F.
  - exists [m']. cbn. rewrite E. split; [reflexivity|]. right. exists m'. split; [reflexivity|].
    unfold finalize_term in F.
    destruct (_ && _); [discriminate|]. destruct (_ && _); [discriminate|].
    destruct (_ && _); inversion F; repeat split; reflexivity.
  - now apply emits_none.
Qed.

Lemma set_peer_msgs r k id p : r_msgs (set_peer r k id p) = r_msgs r.
Proof. destruct k; reflexivity. Qed.

(* LogReader / inMemory: entries are handed out from [start] on, contiguous, or
   ErrCompacted *)
Lemma log_entries_from_some l start ents :
  log_entries_from l start = Some ents ->
  (log_last l < start /\ ents = []) \/
  (log_first l <= start <= log_last l /\ ents = skipn (N.to_nat (start - log_first l)) (l_ents l)).
Proof.
  unfold log_entries_from.
  destruct (log_last l <? start) eqn:A; [intros H; inversion H; left; split; [lia|reflexivity]|].
  destruct (_ && _); [discriminate|].
  destruct (start <? log_first l) eqn:B; [discriminate|].
  intros H; inversion H. right. split; [lia|reflexivity].
Qed.

Lemma log_entries_from_compacted l start :
  start < log_first l -> start <= log_last l -> log_entries_from l start = None.
Proof.
  intros A B. unfold log_entries_from.
  destruct (log_last l <? start) eqn:C; [lia|].
  destruct (_ && _); [reflexivity|].
  destruct (start <? log_first l) eqn:D; [reflexivity|lia].
Qed.

Lemma replicate_or_snapshot_proved r to k rp :
  find_peer r to = Some (k, rp) ->
  emits r (send_replicate r to) (fun x => m_to x = to /\
    ((m_type x = mt_Replicate /\ m_logindex x = rm_next rp - 1 /\
      exists ents0, log_entries_from (r_log r) (rm_next rp) = Some ents0 /\
        m_entries x = match k with KWitness => make_metadata_entries ents0 | _ => ents0 end) \/
     (m_type x = mt_InstallSnapshot /\ log_entries_from (r_log r) (rm_next rp) = None /\
      ss_index (m_snapshot x) = ss_index (log_snapshot (r_log r)) /\ ss_index (m_snapshot x) <> 0))).
Proof.
  intros Hf. unfold send_replicate. rewrite Hf.
  destruct (rm_is_paused rp); [now apply emits_none|].
  destruct (log_entries_from (r_log r) (rm_next rp)) as [ents0|] eqn:E.
  - (* with or without the progress update, the same Replicate goes out *)
    destruct ents0 as [|e0 es]; [|destruct (rm_progress rp _) as [rp'|]; [|now apply emits_none]];
      (eapply emits_impl; [|apply emits_send; auto using set_peer_msgs]);
      cbn [m_type m_to m_logindex m_entries set]; intros x (Ty & To & Li & En & _);
      (split; [exact To|]); left; repeat split; auto; eexists; (split; [reflexivity|exact En]).
  - destruct (negb (rm_active rp)); [now apply emits_none|].
    destruct (is_empty_snapshot (log_snapshot (r_log r))) eqn:Z; [now apply emits_none|].
    eapply emits_impl; [|apply emits_send, set_peer_msgs].
    cbn [m_type m_to m_snapshot set]. intros x (Ty & To & _ & _ & Sn). split; [exact To|]. right.
    rewrite Sn. split; [exact Ty|]. split; [reflexivity|].
    assert (SI : forall s, ss_index (match k with KWitness => make_witness_snapshot s | _ => s end) = ss_index s)
      by (intros; destruct k; reflexivity).
    rewrite SI. split; [reflexivity|]. unfold is_empty_snapshot in Z. lia.
Qed.

Lemma compacted_follower_gets_snapshot_proved r to k rp :
  find_peer r to = Some (k, rp) ->
  rm_next rp < log_first (r_log r) -> rm_next rp <= log_last (r_log r) ->
  l_marker (r_log r) <= ss_index (log_snapshot (r_log r)) ->
  emits r (send_replicate r to) (fun x => m_to x = to /\ m_type x = mt_InstallSnapshot /\
    rm_next rp - 1 <= ss_index (m_snapshot x) /\
    log_first (r_log r) <= ss_index (m_snapshot x) + 1).
Proof.
  intros Hf A B W. eapply emits_impl; [|exact (replicate_or_snapshot_proved r to k rp Hf)].
  intros x (To & [(_ & _ & e0 & E & _)|(Ty & _ & SI & _)]).
  - rewrite (log_entries_from_compacted _ _ A B) in E. discriminate.
  - repeat split; auto; rewrite SI; unfold log_first in *; lia.
Qed.
