(* C11 — the sequential apply path (Model/ApplyOrder.v part 1). *)
From Coq Require Import NArith List Bool Lia Sorted.
From DB Require Import Model.SMThreads Model.ApplyOrder.
Import ListNotations.
Open Scope N_scope.

(* [handle_entry] and [handle_task] do nothing once the error code is set, so a fold of either
   that ends without error kept, all the way, what each step keeps when it ends without error *)
Lemma fold_no_err {X} (f : astate -> X -> astate) (P : astate -> Prop) :
  (forall st x, a_err st <> 0 -> f st x = st) ->
  (forall st x, P st -> a_err (f st x) = 0 -> P (f st x)) ->
  forall l st, P st -> a_err (fold_left f l st) = 0 -> P (fold_left f l st).
Proof.
  intros Hsticky Hstep. induction l as [|x l IH]; simpl; auto. intros st H He.
  destruct (N.eq_dec (a_err (f st x)) 0) as [E|E]; [apply IH; auto|].
  assert (S : forall l', fold_left f l' (f st x) = f st x) by (induction l'; simpl; [|rewrite Hsticky]; auto).
  rewrite S in He. contradiction.
Qed.

Lemma sticky_entry st e : a_err st <> 0 -> handle_entry st e = st.
Proof. intros H. unfold handle_entry. apply N.eqb_neq in H. rewrite H. reflexivity. Qed.

Lemma sticky_task st t : a_err st <> 0 -> handle_task st t = st.
Proof. intros H. unfold handle_task. apply N.eqb_neq in H. rewrite H. reflexivity. Qed.

Definition same_cfg (st st' : astate) : Prop :=
  a_init st' = a_init st /\ a_disk st' = a_disk st /\ a_guard st' = a_guard st.

Lemma cfg_entries l : forall st, same_cfg st (fold_left handle_entry l st).
Proof.
  induction l as [|e l IH]; simpl; intros st; [repeat split|].
  destruct (IH (handle_entry st e)) as (A & B & C). unfold same_cfg. rewrite A, B, C. unfold handle_entry.
  destruct (negb (a_err st =? 0)); [repeat split|]. destruct (negb (a_index st + 1 =? e_index e)); repeat split.
Qed.

Lemma cfg_tasks q : forall st, same_cfg st (handle_tasks st q).
Proof.
  unfold handle_tasks. induction q as [|t q IH]; simpl; intros st; [repeat split|].
  destruct (IH (handle_task st t)) as (A & B & C). unfold same_cfg. rewrite A, B, C. unfold handle_task.
  destruct (negb (a_err st =? 0)); [repeat split|]. destruct t; try (repeat split; fail).
  - destruct (entries_to_apply l (a_index st)); [apply cfg_entries|repeat split].
  - destruct (ss_index <=? a_index st); repeat split.
Qed.

(* the recorded calls (most recent first) are strictly decreasing, bounded by the
   applied index, above the start index and, on disk, above the Open index *)
Record ainv (lo : N) (st : astate) : Prop := {
  ai_sorted : StronglySorted (fun a b => fst b < fst a) (a_calls st);
  ai_bound : forall x, In x (a_calls st) -> fst x <= a_index st /\ lo < fst x;
  ai_disk : a_disk st = true -> forall x, In x (a_calls st) -> a_init st < fst x;
  ai_lo : lo <= a_index st;
  ai_streams : a_guard st = true -> forall l od, In (Some (l, od)) (a_streams st) -> od <= l
}.

Lemma ainv_entry lo st e : ainv lo st -> a_err (handle_entry st e) = 0 -> ainv lo (handle_entry st e).
Proof.
  intros [Hs Hb Hd Hl Hst] He. unfold handle_entry in *.
  destruct (negb (a_err st =? 0)); [constructor; auto|].
  destruct (negb (a_index st + 1 =? e_index e)) eqn:E; [simpl in He; discriminate|].
  apply negb_false_iff in E. apply N.eqb_eq in E.
  match goal with |- ainv _ (mkA _ _ _ (if ?d then _ else _) _ _ _) => destruct d eqn:Ed end.
  - constructor; simpl; auto.
    + constructor; auto. apply Forall_forall. intros x Hx. destruct (Hb x Hx). simpl. lia.
    + intros x [<-|Hx]; simpl; [lia|]. destruct (Hb x Hx). lia.
    + intros Hdk x [<-|Hx]; simpl; [|apply Hd; auto].
      destruct (e_kind e); [|discriminate]. rewrite Hdk in Ed. simpl in Ed. apply negb_true_iff in Ed.
      apply N.leb_gt in Ed. exact Ed.
    + lia.
  - constructor; simpl; auto.
    + intros x Hx. destruct (Hb x Hx). lia.
    + lia.
Qed.

Lemma ainv_task lo st t : ainv lo st -> a_err (handle_task st t) = 0 -> ainv lo (handle_task st t).
Proof.
  intros H He. unfold handle_task in *. destruct (negb (a_err st =? 0)); auto.
  destruct t; auto.
  - destruct (entries_to_apply l (a_index st)); [|simpl in He; discriminate].
    apply (fold_no_err handle_entry (ainv lo) sticky_entry (ainv_entry lo)); auto.
  - destruct (ss_index <=? a_index st) eqn:E; auto. apply N.leb_gt in E.
    destruct H as [Hs Hb Hd Hl Hst]. constructor; simpl; auto.
    + intros x Hx. destruct (Hb x Hx). lia.
    + lia.
  - (* a stream task: ready only when the applied index has reached the Open index *)
    destruct H as [Hs Hb Hd Hl Hst]. constructor; simpl; auto.
    intros Hg l od [X|X]; [|eapply Hst; eauto].
    rewrite Hg in X. simpl in X. rewrite orb_false_r in X.
    destruct (negb (a_disk st) || (a_init st <=? a_index st)) eqn:Er; [|discriminate].
    destruct (a_disk st) eqn:Edk; [|inversion X; subst; lia].
    simpl in Er. apply N.leb_le in Er.
    destruct (a_calls st) as [|c r] eqn:Ec; inversion X; subst; [lia|].
    destruct (Hb c) as [Y _]; [left; auto|]. simpl. lia.
Qed.

Theorem ainv_run g applied init disk q :
  a_err (handle_tasks (a_start_g g applied init disk) q) = 0 ->
  ainv applied (handle_tasks (a_start_g g applied init disk) q).
Proof.
  apply (fold_no_err handle_task (ainv applied) sticky_task (ainv_task applied)).
  constructor; simpl; auto; try contradiction. constructor. lia.
Qed.

Lemma sorted_rev_lt l :
  StronglySorted (fun a b : N * N => fst b < fst a) l -> StronglySorted (fun a b => fst a < fst b) (rev l).
Proof.
  induction 1; simpl; [constructor|].
  assert (G : forall l1, StronglySorted (fun a b : N * N => fst a < fst b) l1 ->
              Forall (fun y => fst y < fst a) l1 -> StronglySorted (fun a b => fst a < fst b) (l1 ++ [a])).
  { induction l1; simpl; intros Hs Hf; [repeat constructor|].
    inversion Hs; subst. inversion Hf; subst. constructor; auto.
    apply Forall_app. split; auto. }
  apply G; auto. apply Forall_forall. intros y Hy. apply in_rev in Hy.
  rewrite Forall_forall in H0. apply H0. auto.
Qed.

Fixpoint consecutive (from : N) (l : list entry) : Prop :=
  match l with
  | [] => True
  | e :: r => e_index e = from + 1 /\ consecutive (from + 1) r
  end.

Definition delivered (disk : bool) (init : N) (e : entry) : bool :=
  match e_kind e with
  | KUpdate => negb (disk && (e_index e <=? init))
  | KSkip => false
  end.

Definition expected (disk : bool) (init : N) (l : list entry) : list (N * N) :=
  map (fun e => (e_index e, e_payload e)) (filter (delivered disk init) l).

Lemma last_index_cons e l : l <> [] -> last_index (e :: l) = last_index l.
Proof.
  intros H. unfold last_index. simpl. destruct (rev l) eqn:E.
  - exfalso. apply H. apply (f_equal (@rev entry)) in E. rewrite rev_involutive in E. auto.
  - reflexivity.
Qed.

Lemma consecutive_last from l : consecutive from l -> l <> [] -> from < last_index l.
Proof.
  revert from. induction l as [|e r IH]; intros from H Hne; [congruence|]. destruct H as [H1 H2].
  destruct r as [|e2 r2].
  - unfold last_index. simpl. lia.
  - rewrite last_index_cons; [|discriminate]. specialize (IH (from + 1) H2 ltac:(discriminate)). lia.
Qed.

Lemma entries_to_apply_consecutive l applied :
  consecutive applied l -> entries_to_apply l applied = Some l.
Proof.
  intros H. destruct l as [|e r]; auto. unfold entries_to_apply.
  pose proof (consecutive_last applied (e :: r) H ltac:(discriminate)) as Hl.
  destruct (last_index (e :: r) <=? applied) eqn:E1; [apply N.leb_le in E1; lia|].
  destruct H as [H1 H2]. destruct (applied + 1 <? e_index e) eqn:E2; [apply N.ltb_lt in E2; lia|].
  replace (applied + 1 - e_index e) with 0 by lia. reflexivity.
Qed.

Lemma fold_entries_consecutive l : forall st,
  a_err st = 0 -> consecutive (a_index st) l ->
  let st' := fold_left handle_entry l st in
  a_err st' = 0 /\ a_calls st' = rev (expected (a_disk st) (a_init st) l) ++ a_calls st
  /\ a_index st' = (if l then a_index st else last_index l).
Proof.
  induction l as [|e r IH]; intros st He Hc; simpl; auto.
  destruct Hc as [H1 H2].
  assert (Hstep : handle_entry st e = mkA (e_index e) (a_init st) (a_disk st)
            (if delivered (a_disk st) (a_init st) e then (e_index e, e_payload e) :: a_calls st else a_calls st) 0
            (a_guard st) (a_streams st)).
  { unfold handle_entry, delivered. rewrite He. simpl. rewrite H1. rewrite N.eqb_refl. simpl. reflexivity. }
  rewrite Hstep.
  match goal with |- context [fold_left handle_entry r ?s] => set (st1 := s) end.
  destruct (IH st1 eq_refl) as (A1 & A4 & A5); [simpl; rewrite H1; exact H2|]. simpl in *.
  repeat split; auto.
  - rewrite A4. unfold expected. simpl. destruct (delivered (a_disk st) (a_init st) e); simpl; auto.
    rewrite <- app_assoc. reflexivity.
  - rewrite A5. destruct r; [reflexivity|]. symmetry. apply last_index_cons. discriminate.
Qed.

(* batches that continue each other without a gap *)
Fixpoint chained (from : N) (bs : list (list entry)) : Prop :=
  match bs with
  | [] => True
  | b :: r => consecutive from b /\ chained (if b then from else last_index b) r
  end.

Lemma tasks_chained bs : forall st,
  a_err st = 0 -> chained (a_index st) bs ->
  let st' := handle_tasks st (map TEntries bs) in
  a_err st' = 0 /\ a_calls st' = rev (expected (a_disk st) (a_init st) (concat bs)) ++ a_calls st.
Proof.
  induction bs as [|b r IH]; intros st He Hc; simpl.
  - split; auto.
  - destruct Hc as [H1 H2]. unfold handle_tasks in *. simpl.
    destruct (fold_entries_consecutive b st He H1) as (A1 & A4 & A5).
    destruct (cfg_entries b st) as (A2 & A3 & _).
    set (st1 := fold_left handle_entry b st) in *.
    assert (Hht : handle_task st (TEntries b) = st1).
    { unfold handle_task. rewrite He. simpl. rewrite entries_to_apply_consecutive; auto. }
    rewrite Hht. rewrite <- A5 in H2.
    destruct (IH st1 A1 H2) as [B1 B2]. split; auto.
    rewrite B2, A4, A2, A3. unfold expected. rewrite filter_app, map_app, rev_app_distr, app_assoc. reflexivity.
Qed.

Theorem each_committed_entry_once_proved :
  forall applied init disk bs,
  chained applied bs ->
  let st := handle_tasks (a_start applied init disk) (map TEntries bs) in
  a_err st = 0 /\ calls_of st = expected disk init (concat bs).
Proof.
  intros applied init disk bs Hc.
  destruct (tasks_chained bs (a_start applied init disk) eq_refl Hc) as [H1 H2]. simpl in *.
  split; auto. unfold calls_of. rewrite H2. rewrite app_nil_r. apply rev_involutive.
Qed.

Theorem ondisk_never_at_or_below_open_index_proved :
  forall applied init q x,
  a_err (handle_tasks (a_start applied init true) q) = 0 ->
  In x (calls_of (handle_tasks (a_start applied init true) q)) -> init < fst x /\ applied < fst x.
Proof.
  intros applied init q x He Hx. apply in_rev in Hx.
  pose proof (ainv_run _ applied init true q He : ainv applied (handle_tasks (a_start applied init true) q)) as I.
  destruct (cfg_tasks q (a_start applied init true)) as (Ei & Ed & _).
  split; [|apply (ai_bound _ _ I x Hx)]. pose proof (ai_disk _ _ I Ed x Hx) as Y. rewrite Ei in Y. exact Y.
Qed.
