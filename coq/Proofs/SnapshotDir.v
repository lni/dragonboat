(* C16, snapshot directories are crash-atomic: an invariant of the file tree and
   the recorded index that every operation respecting the guards [allowed] keeps,
   and the programs of Model/SnapshotDir.v, which respect them.  What does not
   depend on the notion of complete file content stands before the Section. *)
From Coq Require Import List NArith Bool Lia Permutation.
From DB Require Import Model.FS Model.SnapshotDir.
Import ListNotations.
Open Scope N_scope.

(* the order of "record" and "remove flag" (tie G: Gen.GenC16) *)

Lemma commit_tail_order : forall i,
  commit_tail i = [ORecord i; OFs (FRemove (DFinal i) FFlag)].
Proof. reflexivity. Qed.

Lemma apply_ops_order : forall i,
  apply_ops i = [ORecord i; OFs (FRemove (DFinal i) FFlag)].
Proof. reflexivity. Qed.

Lemma dname_eqb_eq : forall a b, dname_eqb a b = true <-> a = b.
Proof.
  destruct a, b; simpl; rewrite ?N.eqb_eq; split; intro H; congruence.
Qed.

Lemma fname_eqb_eq : forall a b, fname_eqb a b = true <-> a = b.
Proof.
  destruct a, b; simpl; rewrite ?N.eqb_eq; split; intro H; congruence.
Qed.

Lemma d_is_eq : forall o n, d_is o n = true <-> o = Some n.
Proof.
  destruct o as [m|]; simpl; intros n; [rewrite dname_eqb_eq|]; split; congruence.
Qed.

Lemma f_is_eq : forall o n, f_is o n = true <-> o = Some n.
Proof.
  destruct o as [m|]; simpl; intros n; [rewrite fname_eqb_eq|]; split; congruence.
Qed.

Lemma d_is_neq : forall o n, d_is o n = false <-> o <> Some n.
Proof. intros. rewrite <- d_is_eq. symmetry. apply not_true_iff_false. Qed.

Lemma f_is_neq : forall o n, f_is o n = false <-> o <> Some n.
Proof. intros. rewrite <- f_is_eq. symmetry. apply not_true_iff_false. Qed.

(* the shapes of the operations of Model/FS.v.  In a directory and in the root
   an operation rewrites the objects one by one, and then mostly drops the dead
   ones: [map h l], [filter alive (map h l)]; a crash keeps the durable ones and
   rewrites them: [map h (filter p l)]; [in_dir d g] rewrites the file lists of
   the directories named d.  A property of all objects, or of some object, is
   kept when one object keeps it. *)

Lemma Forall_map_same {A} (P : A -> Prop) h l :
  (forall x, In x l -> P x -> P (h x)) -> Forall P l -> Forall P (map h l).
Proof. intros H F. apply Forall_map. rewrite Forall_forall in *. auto. Qed.

Lemma Forall_alive_map {A} (P : A -> Prop) alive h l :
  (forall x, In x l -> P x -> P (h x)) -> Forall P l -> Forall P (filter alive (map h l)).
Proof. intros H F. apply (incl_Forall (incl_filter _ _)), Forall_map_same; assumption. Qed.

Lemma Forall_map_filter {A B} (P : A -> Prop) (Q : B -> Prop) p (h : A -> B) l :
  (forall x, p x = true -> P x -> Q (h x)) -> Forall P l -> Forall Q (map h (filter p l)).
Proof.
  intros H F. apply Forall_map. rewrite Forall_forall in *. intros x Hx. apply filter_In in Hx. apply H; [|apply F]; tauto.
Qed.

Lemma Exists_map_same {A} (P : A -> Prop) h l :
  (forall x, P x -> P (h x)) -> Exists P l -> Exists P (map h l).
Proof. intros H E. apply Exists_map. revert E. apply Exists_impl, H. Qed.

Lemma Exists_alive_map {A} (P Q : A -> Prop) alive h l :
  (forall x, P x -> Q (h x) /\ alive (h x) = true) -> Exists P l -> Exists Q (filter alive (map h l)).
Proof.
  intros H E. rewrite Exists_exists in *. destruct E as [x [Hx Px]]. exists (h x). split; [|apply H, Px].
  apply filter_In. split; [apply in_map, Hx | apply H, Px].
Qed.

Lemma Exists_map_filter {A B} (P : A -> Prop) (Q : B -> Prop) p (h : A -> B) l :
  (forall x, P x -> p x = true /\ Q (h x)) -> Exists P l -> Exists Q (map h (filter p l)).
Proof.
  intros H E. rewrite Exists_exists in *. destruct E as [x [Hx Px]]. exists (h x). split; [|apply H, Px].
  apply in_map, filter_In. split; [exact Hx | apply H, Px].
Qed.

Lemma In_alive_map {A} alive (h : A -> A) l y :
  In y (filter alive (map h l)) <-> exists x, In x l /\ h x = y /\ alive y = true.
Proof.
  rewrite filter_In, in_map_iff. split; [intros [(x & E & Hx) AL] | intros (x & Hx & E & AL)]; eauto.
Qed.

Lemma Forall_in_dir (P : dobj -> Prop) d g l :
  (forall o, In o l -> d_vn o = Some d -> P o -> P (mkD (d_vn o) (d_dn o) (g (d_files o)))) ->
  Forall P l -> Forall P (in_dir d g l).
Proof.
  intros H. apply Forall_map_same. intros o Ho Po. destruct (d_is (d_vn o) d) eqn:E; [apply d_is_eq in E; auto | exact Po].
Qed.

Lemma Exists_in_dir (P : dobj -> Prop) d g l :
  (forall o fl, P o -> P (mkD (d_vn o) (d_dn o) fl)) -> Exists P l -> Exists P (in_dir d g l).
Proof. intros H. apply Exists_map_same. intros o Po. destruct (d_is (d_vn o) d); auto. Qed.

Lemma In_in_dir d g l o' :
  In o' (in_dir d g l) <->
  exists o, In o l /\ o' = if d_is (d_vn o) d then mkD (d_vn o) (d_dn o) (g (d_files o)) else o.
Proof. unfold in_dir. rewrite in_map_iff. split; intros [o H]; exists o; intuition. Qed.

(* a durable file name is the volatile one, or the node is unbound, or the
   node is a shrunk file that was renamed over the snapshot file *)
Definition fK (f : fobj) : Prop :=
  forall n, f_dn f = Some n ->
    f_vn f = None \/ f_vn f = Some n \/ exists i, n = FShrunk i /\ f_vn f = Some (FSnap i).

Definition tmp_of (n : dname) (i : N) : Prop := n = DGen i \/ n = DRecv i.

Definition dK (o : dobj) : Prop :=
  forall n, d_dn o = Some n ->
    d_vn o = None \/ d_vn o = Some n \/ exists i, tmp_of n i /\ d_vn o = Some (DFinal i).

(* the directory of the recorded snapshot, bound in both views; [recorded_dir] and the guard of
   [ORecord] say [Exists (is_rec r)] *)
Definition is_rec (r : N) (o : dobj) : Prop := d_vn o = Some (DFinal r) /\ d_dn o = Some (DFinal r).

Definition recorded_dir (s : state) : Prop :=
  st_rec s <> 0 ->
  Exists (fun o => d_vn o = Some (DFinal (st_rec s)) /\ d_dn o = Some (DFinal (st_rec s))) (st_fs s).

(* in a final directory only the shrunk file is written *)
Definition file_ok (d : dname) (f : fname) : Prop :=
  match d with DFinal i => f = FShrunk i | _ => True end.

(* the nodes named m, in either view, have durable content that satisfies Pd and
   the same volatile content; see gen_ok_held, fgood_split *)
Definition held (m : fname) (Pd : data -> Prop) (f : fobj) : Prop :=
  ((f_vn f = Some m \/ f_dn f = Some m) -> Pd (f_dd f)) /\ (f_vn f = Some m -> f_vd f = f_dd f).

Definition cG (i : N) : fobj -> Prop := held FFlag (fun d => d = flag_data i).

Definition named (m : fname) (l : list fobj) : Prop :=
  Exists (fun f => f_dn f = Some m) l /\ Exists (fun f => f_vn f = Some m) l.

Definition local_fn (o : fsop) : list fobj -> list fobj :=
  match o with
  | FCreate _ f => fl_create f
  | FWrite _ f x => fl_write f x
  | FWriteAt _ f off x => fl_writeat f off x
  | FSyncFile _ f => fl_syncfile f
  | FSyncDir _ => fl_syncdir
  | _ => fun l => l
  end.

Definition local_to (d : dname) (o : fsop) : Prop :=
  match o with
  | FCreate d' _ | FWrite d' _ _ | FWriteAt d' _ _ _ | FSyncFile d' _ | FSyncDir d' => d' = d
  | _ => False
  end.

(* operations on the file named f' (or a directory sync) *)
Definition about (f' : fname) (o : fsop) : Prop :=
  match o with
  | FCreate _ n | FWrite _ n _ | FWriteAt _ n _ _ | FSyncFile _ n => n = f'
  | FSyncDir _ => True
  | _ => False
  end.

(* the same, but for the creation: what follows it on the open file *)
Definition cont (f : fname) (o : fsop) : Prop :=
  match o with
  | FWrite _ n _ | FWriteAt _ n _ _ | FSyncFile _ n => n = f
  | FSyncDir _ => True
  | _ => False
  end.

Definition syncs_dir (o : fsop) : Prop := match o with FSyncDir _ => True | _ => False end.

Definition apply_local (ops : list fsop) (fl : list fobj) : list fobj :=
  fold_left (fun acc o => local_fn o acc) ops fl.

(* what the operations do to one node: unbind it, change the volatile data of
   the node named n, sync that node *)
Definition set_vd (n : fname) (w : data -> data) (f : fobj) : fobj :=
  if f_is (f_vn f) n then mkF (f_vn f) (f_dn f) (w (f_vd f)) (f_dd f) else f.
Definition sync_f (n : fname) (f : fobj) : fobj :=
  if f_is (f_vn f) n then mkF (f_vn f) (f_dn f) (f_vd f) (f_vd f) else f.

Lemma unbind_other : forall n f, f_vn f <> Some n -> f_unbind n f = f.
Proof. intros n f H. unfold f_unbind. apply f_is_neq in H. rewrite H. reflexivity. Qed.

Lemma unbind_dn : forall n f, f_dn (f_unbind n f) = f_dn f.
Proof. intros. unfold f_unbind. destruct (f_is (f_vn f) n); reflexivity. Qed.

Lemma unbind_vn : forall n f m, f_vn (f_unbind n f) = Some m -> m <> n /\ f_unbind n f = f.
Proof.
  intros n f m. unfold f_unbind. destruct (f_is (f_vn f) n) eqn:E; [discriminate|].
  apply f_is_neq in E. intros V. split; congruence.
Qed.

Lemma alive_vn : forall f m, f_vn f = Some m -> f_alive f = true.
Proof. intros f m H. unfold f_alive. rewrite H. reflexivity. Qed.

Lemma alive_dn : forall f m, f_dn f = Some m -> f_alive f = true.
Proof. intros f m H. unfold f_alive. rewrite H. apply orb_true_r. Qed.

Lemma fK_unbind : forall n f, fK f -> fK (f_unbind n f).
Proof.
  intros n f H. unfold f_unbind. destruct (f_is (f_vn f) n); [|exact H].
  intros m Hm. left. reflexivity.
Qed.

Lemma fK_synced : forall v a b, fK (mkF v v a b).
Proof. intros v a b n Hn. simpl in *. auto. Qed.

Lemma fK_syncdir : forall l, Forall fK (fl_syncdir l).
Proof. intros l. apply (incl_Forall (incl_filter _ _)), Forall_map, Forall_forall. intros f _. apply fK_synced. Qed.

Lemma fK_local : forall o l, Forall fK l -> Forall fK (local_fn o l).
Proof.
  intros o l K. destruct o; simpl; auto.
  2-4: apply Forall_map_same; auto; intros y _ Hy; destruct (f_is (f_vn y) f); exact Hy.
  - constructor; [intros m Hm; discriminate|]. apply Forall_alive_map; auto. intros x _. apply fK_unbind.
  - apply fK_syncdir.
Qed.

Lemma held_unbind : forall m Pd n f, held m Pd f -> held m Pd (f_unbind n f).
Proof.
  intros m Pd n f. unfold f_unbind. destruct (f_is (f_vn f) n); [|auto]. intros [H1 H2].
  split; simpl; [|discriminate]. intros [A|A]; [discriminate | auto].
Qed.

Lemma held_set_vd : forall m Pd n w f, n <> m -> held m Pd f -> held m Pd (set_vd n w f).
Proof.
  intros m Pd n w f NE [H1 H2]. unfold set_vd. destruct (f_is (f_vn f) n) eqn:E; [|split; assumption].
  apply f_is_eq in E. split; simpl; [intros [A|A]; [congruence | auto] | congruence].
Qed.

(* the node synced under the name n is not durably bound to m: it would be
   volatile under m too, or a shrunk file renamed over the snapshot file *)
Lemma held_sync_f : forall m Pd n f, n <> m -> (forall k, m <> FShrunk k) -> fK f ->
  held m Pd f -> held m Pd (sync_f n f).
Proof.
  intros m Pd n f NE NS K [H1 H2]. unfold sync_f. destruct (f_is (f_vn f) n) eqn:E; [|split; assumption].
  apply f_is_eq in E. split; simpl; [|congruence]. intros [A|A]; [congruence|].
  destruct (K _ A) as [B|[B|[k [B _]]]]; [congruence | congruence | destruct (NS k B)].
Qed.

Lemma held_crash : forall m Pd l, Forall (held m Pd) l -> Forall (held m Pd) (fl_crash l).
Proof.
  intros m Pd l. apply Forall_map_filter. intros f _ [H1 H2]. split; simpl; [intros [A|A]; auto | reflexivity].
Qed.

Lemma held_unbind_all : forall m Pd n l,
  Forall (held m Pd) l -> Forall (held m Pd) (filter f_alive (map (f_unbind n) l)).
Proof. intros m Pd n l. apply Forall_alive_map. intros x _. apply held_unbind. Qed.

Lemma held_local : forall m Pd n o l,
  about n o -> n <> m -> (forall k, m <> FShrunk k) -> Forall fK l ->
  Forall (held m Pd) l -> Forall (held m Pd) (local_fn o l).
Proof.
  intros m Pd n o l AB NE NS K H. destruct o; simpl in AB; try contradiction; subst; simpl.
  - constructor; [split; simpl; [intros [A|A]|intros A]; congruence | apply held_unbind_all, H].
  - apply Forall_map_same; auto. intros f _. apply (held_set_vd m Pd n (fun v => v ++ x)), NE.
  - apply Forall_map_same; auto. intros f _. apply (held_set_vd m Pd n (overwrite off x)), NE.
  - apply Forall_map_same; auto. intros f Hf. apply held_sync_f; auto. rewrite Forall_forall in K. auto.
  - apply Forall_alive_map; auto. intros f _ [H1 H2]. split; simpl; [intros [A|A]|]; auto.
Qed.

Lemma named_unbind : forall m n l, n <> m -> named m l -> named m (filter f_alive (map (f_unbind n) l)).
Proof.
  intros m n l NE [Ed Ev]. split; [revert Ed | revert Ev]; apply Exists_alive_map; intros f P.
  - rewrite unbind_dn. split; [exact P | eapply alive_dn; rewrite unbind_dn; exact P].
  - rewrite unbind_other by congruence. split; [exact P | eapply alive_vn, P].
Qed.

Lemma named_local : forall m n o l, about n o -> n <> m -> named m l -> named m (local_fn o l).
Proof.
  intros m n o l AB NE H.
  assert (KEEP : forall h : fobj -> fobj, (forall f, f_vn (h f) = f_vn f /\ f_dn (h f) = f_dn f) -> named m (map h l)).
  { intros h Hh. destruct H as [Ed Ev]. split; [revert Ed | revert Ev]; apply Exists_map_same; intros f P;
      destruct (Hh f); congruence. }
  destruct o; simpl in AB; try contradiction; subst; simpl.
  2-4: apply KEEP; intros f; destruct (f_is (f_vn f) n); auto.
  - destruct (named_unbind m n l NE H). split; apply Exists_cons_tl; assumption.
  - destruct H as [_ Ev]. split; revert Ev; apply Exists_alive_map; intros f P; (split; [exact P | eapply alive_vn, P]).
Qed.

Lemma fK_rename : forall i l, Forall fK l -> Forall fK (fl_rename (FShrunk i) (FSnap i) l).
Proof.
  intros i l. apply Forall_alive_map. intros f _ Hf. destruct (f_is (f_vn f) (FShrunk i)) eqn:E; [|apply fK_unbind, Hf].
  apply f_is_eq in E. intros n Hn. simpl in *. destruct (Hf n Hn) as [B|[B|[k [_ B]]]]; try congruence.
  right. right. exists i. split; [congruence | reflexivity].
Qed.

Lemma dinv_final_index : forall o d i,
  dK o -> d_vn o = Some d -> (d_vn o = Some (DFinal i) \/ d_dn o = Some (DFinal i)) -> d = DFinal i.
Proof.
  intros o d i K V [A|A]; [congruence|].
  destruct (K _ A) as [B|[B|[k [[T|T] _]]]]; try congruence; discriminate.
Qed.

(* what an operation does when its existence test succeeds *)
Definition dir_fn (o : fsop) : list fobj -> list fobj :=
  match o with FRenameFile _ a b => fl_rename a b | FRemove _ f => fl_remove f | _ => local_fn o end.

Definition fs_do (o : fsop) (l : fs) : fs :=
  match o with
  | FMkdir d => fs_mkdir d l
  | FSyncRoot => fs_syncroot l
  | FRenameDir a b => fs_renamedir a b l
  | FRemoveAll d => fs_removeall d l
  | FCreate d _ | FWrite d _ _ | FWriteAt d _ _ _ | FSyncFile d _ | FSyncDir d
  | FRenameFile d _ _ | FRemove d _ => in_dir d (dir_fn o) l
  end.

Lemma fs_step_do : forall l o l', fs_step l o = Some l' -> l' = fs_do o l.
Proof.
  intros l o l'. destruct o; simpl; try destruct (has_dir _ l); try destruct (has_file _ _ l); congruence.
Qed.

Lemma is_rec_unbind : forall r n o,
  n <> DFinal r -> is_rec r o -> is_rec r (d_unbind n o) /\ d_alive (d_unbind n o) = true.
Proof.
  intros r n o NE [V D]. unfold d_unbind. destruct (d_is (d_vn o) n) eqn:E; [apply d_is_eq in E; congruence|].
  unfold is_rec, d_alive. rewrite V. auto.
Qed.

Lemma has_dir_in : forall n l, has_dir n l = true <-> exists o, In o l /\ d_vn o = Some n.
Proof.
  intros. unfold has_dir. rewrite existsb_exists. split; intros [o [Ho E]]; exists o; split; auto; apply d_is_eq; auto.
Qed.

(* no directory is ever named for index 0 (an "empty" snapshot) *)
Definition nz (o : dobj) : Prop := d_vn o <> Some (DFinal 0) /\ d_dn o <> Some (DFinal 0).
Definition NoZero (s : state) : Prop := Forall nz (st_fs s).

Lemma nz_unbind : forall n o, nz o -> nz (d_unbind n o).
Proof. intros n o [H1 H2]. unfold d_unbind. destruct (d_is (d_vn o) n); split; simpl; auto. discriminate. Qed.

Lemma run_cons : forall s o r, run s (o :: r) = run (step' s o) r.
Proof. reflexivity. Qed.

Lemma run_app : forall a s b, run s (a ++ b) = run (run s a) b.
Proof. intros. unfold run. apply fold_left_app. Qed.

Lemma exec_run : forall ops s u tr ok, exec s ops = (u, tr, ok) -> u = run s tr.
Proof.
  induction ops as [|o r IH]; intros s u tr ok H; simpl in H.
  - inversion H; subst. reflexivity.
  - destruct (step s o) as [t|] eqn:E.
    + destruct (exec t r) as [[u' tr'] ok'] eqn:E2. inversion H; subst. rewrite run_cons. unfold step'. rewrite E.
      eapply IH; eauto.
    + inversion H; subst. reflexivity.
Qed.

Lemma exec_prefix : forall ops s u tr ok, exec s ops = (u, tr, ok) -> exists rest, ops = tr ++ rest.
Proof.
  induction ops as [|o r IH]; intros s u tr ok H; simpl in H.
  - inversion H; subst. exists []. reflexivity.
  - destruct (step s o) as [t|] eqn:E.
    + destruct (exec t r) as [[u' tr'] ok'] eqn:E2. inversion H; subst. destruct (IH _ _ _ _ E2) as [rest ->].
      exists rest. reflexivity.
    + inversion H; subst. exists (o :: r). reflexivity.
Qed.

Lemma exec_incl : forall ops s u tr ok, exec s ops = (u, tr, ok) -> incl tr ops.
Proof.
  intros ops s u tr ok E o I. destruct (exec_prefix _ _ _ _ _ E) as [rest ->]. apply in_or_app. auto.
Qed.

Lemma exec_app : forall a b s,
  exec s (a ++ b) =
  let '(s1, tr1, ok1) := exec s a in
  if ok1 then let '(u, tr2, ok2) := exec s1 b in (u, tr1 ++ tr2, ok2) else (s1, tr1, false).
Proof.
  induction a as [|o r IH]; intros b s.
  - simpl. destruct (exec s b) as [[u tr] ok]. reflexivity.
  - cbn [app exec]. destruct (step s o) as [t|]; [|reflexivity]. rewrite IH.
    destruct (exec t r) as [[s1 tr1] ok1]. destruct ok1; [|reflexivity].
    destruct (exec s1 b) as [[u tr2] ok2]. reflexivity.
Qed.

Definition dsynced (o : dobj) : Prop := d_dn o = d_vn o /\ d_vn o <> None.
Definition DSynced (s : state) : Prop := Forall dsynced (st_fs s).

Lemma syncroot_dsynced : forall l, Forall dsynced (fs_syncroot l).
Proof.
  intros l. unfold fs_syncroot. apply Forall_forall. intros o Ho. apply filter_In in Ho as [Ho AL].
  apply in_map_iff in Ho as [x [<- _]]. unfold d_alive in AL. simpl in *. split; auto.
  destruct (d_vn x); discriminate.
Qed.

Lemma in_dir_dsynced : forall d g l, Forall dsynced l -> Forall dsynced (in_dir d g l).
Proof. intros. apply Forall_in_dir; auto. Qed.

Lemma crash_dsynced : forall l, Forall dsynced (fs_crash l).
Proof.
  intros l. apply (Forall_map_filter (fun _ => True)); [|apply Forall_forall; auto].
  intros o D _. split; simpl; auto. destruct (d_dn o); discriminate.
Qed.

Definition kept (r : N) (o : dobj) : Prop :=
  d_dn o = d_vn o /\
  match d_vn o with
  | Some (DOther _) => True
  | Some (DFinal i) => i = r /\ r <> 0 /\ fl_has FFlag (d_files o) = false
  | _ => False
  end.

Lemma has_file_in : forall n f l, has_file n f l = true <->
  exists o, In o l /\ d_vn o = Some n /\ fl_has f (d_files o) = true.
Proof.
  intros. unfold has_file. rewrite existsb_exists. split; intros [o [Ho E]]; exists o; split; auto.
  - apply andb_true_iff in E. destruct E as [E1 E2]. apply d_is_eq in E1. auto.
  - destruct E as [E1 E2]. apply andb_true_iff. split; auto. apply d_is_eq. auto.
Qed.

Lemma has_file_false : forall n f l o, has_file n f l = false -> In o l -> d_vn o = Some n -> fl_has f (d_files o) = false.
Proof.
  intros n f l o H Ho V. destruct (fl_has f (d_files o)) eqn:E; auto.
  assert (X : has_file n f l = true) by (apply has_file_in; eauto). congruence.
Qed.

Lemma fl_has_remove : forall f l, fl_has f (fl_remove f l) = false.
Proof.
  intros f l. unfold fl_has, fl_remove. destruct (existsb _ _) eqn:E; auto.
  apply existsb_exists in E as [x [Hx P]]. apply filter_In in Hx as [Hx _].
  apply in_map_iff in Hx as [y [<- _]]. apply f_is_eq, unbind_vn in P. destruct P. congruence.
Qed.

Lemma d_eta : forall o, d_dn o = d_vn o -> mkD (d_vn o) (d_vn o) (d_files o) = o.
Proof. intros [v d fl] H. simpl in *. subst. reflexivity. Qed.

Lemma rm_sync_in : forall n l o', Forall dsynced l ->
  (In o' (fs_syncroot (fs_removeall n l)) <-> In o' l /\ d_vn o' <> Some n).
Proof.
  intros n l o' HS. unfold fs_syncroot, fs_removeall. rewrite In_alive_map. rewrite Forall_forall in HS. split.
  - intros (x & Hx & <- & AL). apply In_alive_map in Hx as (o & Ho & <- & _). destruct (HS o Ho) as [SD SV].
    unfold d_unbind in *. destruct (d_is (d_vn o) n) eqn:E; [discriminate AL|].
    rewrite d_eta by auto. split; [exact Ho | apply d_is_neq, E].
  - intros [Ho NE]. destruct (HS o' Ho) as [SD SV]. exists o'. rewrite d_eta by auto.
    assert (AL : d_alive o' = true) by (unfold d_alive; destruct (d_vn o'); [reflexivity | contradiction]).
    split; [|auto]. apply In_alive_map. exists o'. unfold d_unbind. apply d_is_neq in NE. rewrite NE. auto.
Qed.

(* read_file returns the first of the volatile files of that name: one exists,
   and all of them are good *)
Lemma read_file_all : forall (P : data -> Prop) d f l,
  (exists o x, In o l /\ d_vn o = Some d /\ In x (d_files o) /\ f_vn x = Some f) ->
  (forall o x, In o l -> d_vn o = Some d -> In x (d_files o) -> f_vn x = Some f -> P (f_vd x)) ->
  exists v, read_file d f l = Some v /\ P v.
Proof.
  intros P d f l (o & x & Ho & V & Hx & W) ALL. unfold read_file. set (c := flat_map _ l).
  assert (A : Forall P c).
  { apply Forall_forall. intros v Hv. apply in_flat_map in Hv as (o' & Ho' & Hv).
    destruct (d_is (d_vn o') d) eqn:E; [|contradiction]. apply d_is_eq in E.
    apply in_flat_map in Hv as (x' & Hx' & Hv). destruct (f_is (f_vn x') f) eqn:E2; [|contradiction].
    apply f_is_eq in E2. destruct Hv as [<-|[]]. eauto. }
  assert (I : In (f_vd x) c).
  { apply in_flat_map. exists o. split; auto. apply d_is_eq in V. rewrite V. apply in_flat_map. exists x.
    split; auto. apply f_is_eq in W. rewrite W. left. reflexivity. }
  destruct c as [|v c']; [contradiction|]. exists v. inversion A; auto.
Qed.

Lemma flag_index_data : forall i, i <> 0 -> flag_index (flag_data i) = Some i.
Proof.
  intros i H. unfold flag_index, flag_data. rewrite N.eqb_refl. apply N.eqb_neq in H. rewrite H. reflexivity.
Qed.

Lemma exec_rmdir : forall s n,
  exec s (rmdir_ops n) = (mkS (fs_syncroot (fs_removeall n (st_fs s))) (st_rec s), rmdir_ops n, true).
Proof. intros [l r] n. reflexivity. Qed.

Lemma vnames_in : forall n l, In n (vnames l) <-> exists o, In o l /\ d_vn o = Some n.
Proof.
  intros n l. unfold vnames. rewrite in_flat_map. split.
  - intros [o [Ho H]]. exists o. split; auto. destruct (d_vn o); [|contradiction]. destruct H as [->|[]]. reflexivity.
  - intros [o [Ho V]]. exists o. split; auto. rewrite V. left. reflexivity.
Qed.

Lemma dedup_in : forall l x, In x (dedup l) <-> In x l.
Proof.
  induction l as [|y r IH]; intros x; simpl; [tauto|].
  rewrite filter_In, IH. split.
  - intros [H|[H _]]; auto.
  - intros [H|H]; auto. destruct (dname_eqb y x) eqn:E.
    + apply dname_eqb_eq in E. auto.
    + right. split; auto.
Qed.

Lemma dedup_nodup : forall l, NoDup (dedup l).
Proof.
  induction l as [|y r IH]; simpl; constructor.
  - intro H. apply filter_In in H. destruct H as [_ H].
    assert (E : dname_eqb y y = true) by (apply dname_eqb_eq; reflexivity). rewrite E in H. discriminate.
  - apply NoDup_filter. exact IH.
Qed.

Definition ord_ok (ord : list dname -> list dname) : Prop := forall l, Permutation l (ord l).

Definition durable_complete (s : state) (i : N) : Prop :=
  exists o, In o (st_fs s) /\ d_vn o = Some (DFinal i) /\ d_dn o = Some (DFinal i) /\
    exists f, In f (d_files o) /\ f_dn f = Some (FSnap i) /\ valid_snap (f_dd f) = true.

Lemma triple_eq : forall {A B C} (a a' : A) (b b' : B) (c c' : C),
  (a, b, c) = (a', b', c') -> a = a' /\ b = b' /\ c = c'.
Proof. intros. inversion H. auto. Qed.

Lemma in_dir_id : forall d l, in_dir d (fun x => x) l = l.
Proof.
  intros. unfold in_dir. rewrite <- (map_id l) at 2. apply map_ext. intros [v dn fl]. simpl.
  destruct (d_is v d); reflexivity.
Qed.

Lemma in_dir_in_dir : forall d g1 g2 l, in_dir d g2 (in_dir d g1 l) = in_dir d (fun x => g2 (g1 x)) l.
Proof.
  intros. unfold in_dir. rewrite map_map. apply map_ext. intros o. destruct (d_is (d_vn o) d) eqn:E; simpl; rewrite E; reflexivity.
Qed.

Lemma has_dir_in_dir : forall n d g l, has_dir n (in_dir d g l) = has_dir n l.
Proof.
  intros n d g l. unfold has_dir, in_dir. induction l as [|o r IH]; simpl; auto. rewrite IH. f_equal.
  destruct (d_is (d_vn o) d); reflexivity.
Qed.

Lemma in_dir_files : forall (P : list fobj -> Prop) d g l,
  (forall o, In o l -> d_vn o = Some d -> P (g (d_files o))) ->
  Forall (fun o => d_vn o = Some d -> P (d_files o)) (in_dir d g l).
Proof.
  intros P d g l H. apply Forall_forall. intros o' Ho' V. apply In_in_dir in Ho' as (o & Ho & ->).
  destruct (d_is (d_vn o) d) eqn:E; [apply d_is_eq in E; simpl; auto | apply d_is_neq in E; contradiction].
Qed.

Lemma exec_local : forall ops l r d,
  has_dir d l = true -> Forall (local_to d) ops ->
  exec (mkS l r) (map OFs ops) = (mkS (in_dir d (apply_local ops) l) r, map OFs ops, true).
Proof.
  induction ops as [|o ops IH]; intros l r d HD HL.
  - cbn [map exec]. change (apply_local []) with (fun x : list fobj => x). rewrite in_dir_id. reflexivity.
  - inversion HL as [|? ? L1 L2]; subst.
    assert (ST : step (mkS l r) (OFs o) = Some (mkS (in_dir d (local_fn o) l) r)).
    { destruct o; simpl in L1; try contradiction; subst; simpl; try rewrite HD; reflexivity. }
    cbn [map exec]. rewrite ST. rewrite (IH _ r d); auto; [|rewrite has_dir_in_dir; exact HD].
    rewrite in_dir_in_dir. reflexivity.
Qed.

(* the live node durably named m *)
Definition both (m : fname) (l : list fobj) : Prop :=
  Exists (fun x => f_vn x = Some m /\ f_dn x = Some m) l.

Lemma both_local : forall m n o l, about n o -> n <> m -> both m l -> both m (local_fn o l).
Proof.
  intros m n o l AB NE. destruct o; simpl in AB; try contradiction; subst; simpl.
  2-4: apply Exists_map_same; intros y P; destruct (f_is (f_vn y) n); exact P.
  - intros B. apply Exists_cons_tl. revert B. apply Exists_alive_map. intros y [V D].
    rewrite unbind_other by congruence. split; [auto | eapply alive_vn, V].
  - apply Exists_alive_map. intros y [V D]. split; [simpl; auto | eapply alive_vn; simpl; exact V].
Qed.

(* operations about another file leave the content held under m and its live node *)
Lemma held_frame : forall m Pd n ops l,
  Forall (about n) ops -> n <> m -> (forall k, m <> FShrunk k) ->
  Forall fK l -> Forall (held m Pd) l -> both m l ->
  Forall (held m Pd) (apply_local ops l) /\ both m (apply_local ops l).
Proof.
  intros m Pd n ops. induction ops as [|o ops IH]; intros l AB NE NS K H B; [auto|].
  inversion AB; subst. apply IH; auto; [apply fK_local, K | apply (held_local m Pd n); auto | apply (both_local m n); auto].
Qed.

Lemma mkdir_sync_in : forall d l o,
  In o (fs_syncroot (fs_mkdir d l)) ->
  d_vn o = Some d \/ exists o0, In o0 l /\ o = mkD (d_vn o0) (d_vn o0) (d_files o0).
Proof.
  intros d l o H. apply In_alive_map in H as (x & Hx & <- & _). unfold fs_mkdir in Hx.
  destruct (has_dir d l); [|destruct Hx as [<-|Hx]; [left; reflexivity|]]; right; exists x; auto.
Qed.

Lemma has_dir_mkdir_sync : forall d l, has_dir d (fs_syncroot (fs_mkdir d l)) = true.
Proof.
  intros d l. apply has_dir_in. unfold fs_mkdir, fs_syncroot. destruct (has_dir d l) eqn:E.
  - apply has_dir_in in E as (o & Ho & V). exists (mkD (d_vn o) (d_vn o) (d_files o)). split; [|exact V].
    apply In_alive_map. exists o. unfold d_alive. simpl. rewrite V. auto.
  - exists (mkD (Some d) (Some d) []). split; [|reflexivity]. apply In_alive_map.
    exists (mkD (Some d) None []). simpl. auto.
Qed.

(* the nodes volatile under the name f (there is one) have volatile data v and durable data w *)
Definition Tr (f : fname) (v w : data) (fl : list fobj) : Prop :=
  Exists (fun x => f_vn x = Some f) fl /\
  Forall (fun x => f_vn x = Some f -> f_vd x = v /\ f_dd x = w) fl.

(* the durable name f belongs to the live node only, and it has it *)
Definition Db (f : fname) (fl : list fobj) : Prop :=
  Exists (fun x => f_vn x = Some f /\ f_dn x = Some f) fl /\
  Forall (fun x => f_dn x = Some f -> f_vn x = Some f) fl.

(* what an operation on the open file does to the volatile and durable data (v, w) of Tr *)
Definition track (vw : data * data) (o : fsop) : data * data :=
  match o with
  | FWrite _ _ x => (fst vw ++ x, snd vw)
  | FWriteAt _ _ off x => (overwrite off x (fst vw), snd vw)
  | FSyncFile _ _ => (fst vw, fst vw)
  | _ => vw
  end.

Lemma Tr_create : forall f fl, Tr f [] [] (fl_create f fl).
Proof.
  intros f fl. split; [apply Exists_cons_hd; reflexivity|].
  constructor; [simpl; auto|]. apply (incl_Forall (incl_filter _ _)), Forall_map, Forall_forall.
  intros x _ V. apply unbind_vn in V. destruct V. congruence.
Qed.

Lemma Db_syncdir : forall f fl, Exists (fun x => f_vn x = Some f) fl -> Db f (fl_syncdir fl).
Proof.
  intros f fl E. split.
  - revert E. apply Exists_alive_map. intros x V. simpl. split; [auto | eapply alive_vn, V].
  - apply (incl_Forall (incl_filter _ _)), Forall_map, Forall_forall. intros x _. simpl. auto.
Qed.

Lemma Db_names : forall f (h : fobj -> fobj) fl,
  (forall x, f_vn (h x) = f_vn x /\ f_dn (h x) = f_dn x) -> Db f fl -> Db f (map h fl).
Proof.
  intros f h fl H [E F]. split.
  - revert E. apply Exists_map_same. intros x. destruct (H x) as [-> ->]. auto.
  - revert F. apply Forall_map_same. intros x _. destruct (H x) as [-> ->]. auto.
Qed.

Lemma Db_cont : forall f n o fl, cont n o -> Db f fl -> Db f (local_fn o fl).
Proof.
  intros f n o fl C D. destruct o; simpl in C; try contradiction; simpl.
  1-3: apply Db_names; auto; intros y; destruct (f_is (f_vn y) f0); auto.
  - apply Db_syncdir. destruct D as [E _]. revert E. apply Exists_impl. tauto.
Qed.

Lemma Tr_cont : forall f o vw fl, cont f o -> Tr f (fst vw) (snd vw) fl ->
  Tr f (fst (track vw o)) (snd (track vw o)) (local_fn o fl) /\ (syncs_dir o -> Db f (local_fn o fl)).
Proof.
  intros f o [v w] fl C [E F]. simpl in E, F.
  (* the node named f is rewritten by k, which keeps the names *)
  assert (ON : forall (k : fobj -> fobj) v' w', (forall y, f_vn (k y) = f_vn y) ->
            (forall y, f_vd y = v -> f_dd y = w -> f_vd (k y) = v' /\ f_dd (k y) = w') ->
            Tr f v' w' (map (fun y => if f_is (f_vn y) f then k y else y) fl)).
  { intros k v' w' K1 K2. split.
    - revert E. apply Exists_map_same. intros y V. rewrite (proj2 (f_is_eq _ _) V), K1. exact V.
    - apply Forall_map. revert F. apply Forall_impl. intros y P. destruct (f_is (f_vn y) f) eqn:X.
      + rewrite K1. intros V. destruct (P V). auto.
      + intros V. apply f_is_neq in X. contradiction. }
  destruct o; simpl in C; try contradiction; subst; simpl; (split; [|intros []]).
  - apply (ON (fun y => mkF (f_vn y) (f_dn y) (f_vd y ++ x) (f_dd y))); [reflexivity | intros y -> ->; auto].
  - apply (ON (fun y => mkF (f_vn y) (f_dn y) (overwrite off x (f_vd y)) (f_dd y))); [reflexivity | intros y -> ->; auto].
  - apply (ON (fun y => mkF (f_vn y) (f_dn y) (f_vd y) (f_vd y))); [reflexivity | intros y -> _; auto].
  - split; [revert E; apply Exists_alive_map; intros y V; simpl; split; [exact V | eapply alive_vn, V]|].
    revert F. apply Forall_alive_map. auto.
  - apply Db_syncdir, E.
Qed.

Lemma tracked_from : forall f ops, Forall (cont f) ops -> forall vw l, Tr f (fst vw) (snd vw) l ->
  Tr f (fst (fold_left track ops vw)) (snd (fold_left track ops vw)) (apply_local ops l) /\
  (Db f l \/ Exists syncs_dir ops -> Db f (apply_local ops l)).
Proof.
  intros f ops C. induction C as [|o ops Co _ IH]; intros vw l T.
  - split; [exact T|]. intros [D|E]; [exact D | inversion E].
  - destruct (Tr_cont f o vw l Co T) as [T' D']. destruct (IH _ _ T') as [T'' D''].
    split; [exact T''|]. intros [D|E]; apply D''.
    + left. apply (Db_cont f f o); auto.
    + inversion E; subst; auto.
Qed.

(* the file f is created and then written by ops *)
Lemma tracked : forall f d ops fl, Forall (cont f) ops ->
  let vw := fold_left track ops ([], []) in
  Tr f (fst vw) (snd vw) (apply_local (FCreate d f :: ops) fl) /\
  (forall d', In (FSyncDir d') ops -> Db f (apply_local (FCreate d f :: ops) fl)).
Proof.
  intros f d ops fl C. destruct (tracked_from f ops C ([], []) (fl_create f fl) (Tr_create f fl)) as [T D].
  split; [exact T | intros d' H; apply D; right; apply Exists_exists; exists (FSyncDir d'); split; [exact H | exact I]].
Qed.

Lemma held_of_Tr : forall f v fl, Tr f v v fl -> Db f fl -> Forall (held f (fun d => d = v)) fl.
Proof.
  intros f v fl [_ F] [_ DF]. rewrite Forall_forall in *. intros x Hx. split.
  - intros [A|A]; [apply (F x Hx A) | apply (F x Hx (DF x Hx A))].
  - intros A. destruct (F x Hx A) as [-> ->]. reflexivity.
Qed.

Definition writer_fs (d : dname) (f : fname) (body : data) : list fsop :=
  [FCreate d f; FWrite d f [T_HDR0]; FWrite d f body; FWrite d f [T_TAIL]; FWriteAt d f 0 [T_HDR];
   FSyncFile d f; FSyncDir d].

Lemma writer_Tr : forall d f body fl,
  let v := T_HDR :: body ++ [T_TAIL] in
  Tr f v v (apply_local (writer_fs d f body) fl) /\ Db f (apply_local (writer_fs d f body) fl).
Proof.
  intros d f body fl. destruct (tracked f d (tl (writer_fs d f body)) fl) as [T D]; [repeat constructor|].
  split; [exact T | apply (D d); simpl; auto 10].
Qed.

Lemma valid_writer : forall body, valid_snap (T_HDR :: body ++ [T_TAIL]) = true.
Proof. intros. unfold valid_snap. rewrite last_last. reflexivity. Qed.

(* CreateFlagFile(dir, n, i) on a directory that holds a complete snapshot file *)
Definition flag_fn (n : fname) (i : N) (fl : list fobj) : list fobj :=
  fl_syncdir (fl_syncfile n (fl_write n [i] (fl_write n [T_HASH] (fl_create n fl)))).

Definition flag_fs (d : dname) (n : fname) (i : N) : list fsop :=
  [FCreate d n; FWrite d n [T_HASH]; FWrite d n [i]; FSyncFile d n; FSyncDir d].

Lemma apply_local_flag : forall d n i fl, apply_local
  [FCreate d n; FWrite d n [T_HASH]; FWrite d n [i]; FSyncFile d n; FSyncDir d] fl = flag_fn n i fl.
Proof. reflexivity. Qed.

(* [local_fn] does not look at the directory an operation names *)
Lemma flag_fn_Tr : forall n i fl, Tr n (flag_data i) (flag_data i) (flag_fn n i fl) /\ Db n (flag_fn n i fl).
Proof.
  intros n i fl. destruct (tracked n (DFinal 0) (tl (flag_fs (DFinal 0) n i)) fl) as [T D]; [repeat constructor|].
  split; [exact T | apply (D (DFinal 0)); simpl; auto 10].
Qed.

Lemma flag_fn_cG : forall i fl, Forall (cG i) (flag_fn FFlag i fl).
Proof. intros i fl. destruct (flag_fn_Tr FFlag i fl). apply held_of_Tr; assumption. Qed.

Lemma flag_fn_has_flag : forall i fl, fl_has FFlag (flag_fn FFlag i fl) = true.
Proof.
  intros i fl. destruct (flag_fn_Tr FFlag i fl) as [[E _] _]. apply existsb_exists. rewrite Exists_exists in E.
  destruct E as [x [Hx V]]. exists x. split; auto. apply f_is_eq, V.
Qed.

Lemma flag_about : forall d n i, Forall (local_to d) (flag_fs d n i) /\ Forall (about n) (flag_fs d n i).
Proof. intros. split; repeat constructor. Qed.

Lemma flagfile_ops_fs : forall d n i, flagfile_ops d n i = map OFs (flag_fs d n i).
Proof. reflexivity. Qed.

Lemma exec_flagfile : forall d n i l r, has_dir d l = true ->
  exec (mkS l r) (flagfile_ops d n i) = (mkS (in_dir d (flag_fn n i) l) r, flagfile_ops d n i, true).
Proof. intros d n i l r HD. rewrite flagfile_ops_fs. apply exec_local; [exact HD | apply flag_about]. Qed.

Lemma exec_flagfile_nodir : forall d n i s, has_dir d (st_fs s) = false -> exec s (flagfile_ops d n i) = (s, [], false).
Proof. intros d n i [l r] HD. simpl in *. rewrite HD. reflexivity. Qed.

Lemma rename_sync_witness : forall a b l o,
  In o l -> d_vn o = Some a ->
  In (mkD (Some b) (Some b) (d_files o)) (fs_syncroot (fs_renamedir a b l)).
Proof.
  intros a b l o Ho V. apply In_alive_map. exists (mkD (Some b) (d_dn o) (d_files o)). split; [|auto].
  apply In_alive_map. exists o. apply d_is_eq in V. rewrite V. auto.
Qed.

Lemma recv_ops_fs : forall i n, recv_data_ops i n = map OFs (recv_file_fs (DRecv i) (FSnap i) n true).
Proof. intros. unfold recv_data_ops, recv_file_fs. destruct (n <=? 1); reflexivity. Qed.

Lemma recv_file_about : forall d f nch b, Forall (about f) (recv_file_fs d f nch b).
Proof. intros. unfold recv_file_fs. destruct (nch <=? 1); destruct b; simpl; repeat constructor. Qed.

Lemma recv_file_local : forall d f nch b, Forall (local_to d) (recv_file_fs d f nch b).
Proof. intros. unfold recv_file_fs. destruct (nch <=? 1); destruct b; simpl; repeat constructor. Qed.

Lemma read_file_has_dir : forall d f l x, read_file d f l = Some x -> has_dir d l = true.
Proof.
  intros d f l x H. unfold read_file in H. destruct (flat_map _ l) as [|y ys] eqn:E; [discriminate|].
  assert (I : In y (y :: ys)) by (left; reflexivity). rewrite <- E in I. apply in_flat_map in I.
  destruct I as [o [Ho I]]. destruct (d_is (d_vn o) d) eqn:E2; [|contradiction].
  apply has_dir_in. exists o. split; auto. apply d_is_eq. exact E2.
Qed.

(* every file of the image is durable and has its full content when the last
   chunk has been saved, i.e. before FinalizeSnapshot hands the image over *)
Definition durable_full (f : fname) (fl : list fobj) : Prop :=
  exists v, valid_snap v = true /\
    Exists (fun x => f_vn x = Some f /\ f_dn x = Some f) fl /\
    Forall (fun x => (f_vn x = Some f \/ f_dn x = Some f) -> f_dd x = v) fl.

Lemma durable_full_of : forall f v fl, valid_snap v = true -> Tr f v v fl -> Db f fl -> durable_full f fl.
Proof.
  intros f v fl VS T D. exists v. split; [exact VS|]. split; [apply D|].
  generalize (held_of_Tr f v fl T D). apply Forall_impl. intros x H. apply H.
Qed.

Lemma recv_file_fK : forall d f nch fl, Forall fK (apply_local (recv_file_fs d f nch true) fl).
Proof.
  intros d f nch fl. unfold recv_file_fs. destruct (nch <=? 1); [apply fK_syncdir|].
  apply (fK_local (FSyncFile d f)), (fK_local (FWrite d f [T_TAIL])), (fK_local (FWrite d f (repeat T_BODY (N.to_nat (nch - 2))))), fK_syncdir.
Qed.

Definition is_shrink (c : cmd) : Prop := match c with CShrink _ => True | _ => False end.

Lemma po_flag_removal_recorded : forall n s ops j,
  po_one n s = Some ops -> In (OFs (FRemove (DFinal j) FFlag)) ops -> st_rec s = j /\ j <> 0.
Proof.
  intros n s ops j H I.
  assert (RM : forall d, ~ In (OFs (FRemove (DFinal j) FFlag)) (rmdir_ops d))
    by (intros d [X|[X|[]]]; discriminate).
  destruct n as [i|i|i|k]; simpl in H; try (injection H as <-; solve [destruct I | destruct (RM _ I)]).
  destruct (negb (has_dir (DFinal i) (st_fs s))); [discriminate|].
  destruct (has_file (DFinal i) FFlag (st_fs s)).
  - destruct (read_file (DFinal i) FFlag (st_fs s)) as [d|]; [|discriminate].
    destruct (flag_index d) as [j'|]; [|discriminate].
    destruct ((st_rec s =? 0) || negb (st_rec s =? j')) eqn:R; injection H as <-; [destruct (RM _ I)|].
    destruct I as [[= ->]|[]]. apply orb_false_iff in R as [R1 R2]. apply N.eqb_neq in R1.
    apply negb_false_iff, N.eqb_eq in R2. split; congruence.
  - destruct ((st_rec s =? 0) || negb (i =? st_rec s)); injection H as <-; [destruct (RM _ I) | destruct I].
Qed.

Lemma has_dir_rm_sync : forall d l, has_dir d (fs_syncroot (fs_removeall d l)) = false.
Proof.
  intros d l. destruct (has_dir d _) eqn:E; auto. apply has_dir_in in E as (o & Ho & V).
  apply In_alive_map in Ho as (x & Hx & <- & _). apply In_alive_map in Hx as (y & _ & <- & _).
  simpl in V. unfold d_unbind in V. destruct (d_is (d_vn y) d) eqn:E2; simpl in V; [discriminate|].
  apply d_is_neq in E2. contradiction.
Qed.

(* a local save and an incoming snapshot of the same index: the second one
   to finalize gets ErrSnapshotOutOfDate, removes its own temporary directory
   and touches nothing else *)
Lemma finalize_loser : forall tmp i tail s,
  has_dir tmp (st_fs s) = true -> has_dir (DFinal i) (st_fs s) = true ->
  exists t, finalize tmp i tail s = (t, flagfile_ops tmp FFlag i ++ rmdir_ops tmp, OutOfDate) /\
            has_dir tmp (st_fs t) = false /\ st_rec t = st_rec s.
Proof.
  intros tmp i tail [l r] HT HF. simpl in *. unfold finalize, finalize_pre.
  rewrite exec_flagfile by exact HT. unfold seq. cbn [st_fs]. rewrite has_dir_in_dir, HF, exec_rmdir.
  eexists. split; [reflexivity|]. simpl. split; auto. apply has_dir_rm_sync.
Qed.

Lemma finalize_winner : forall tmp i tail s t tr oc,
  has_dir tmp (st_fs s) = true -> has_dir (DFinal i) (st_fs s) = false ->
  finalize tmp i tail s = (t, tr, oc) ->
  exists rest, tr = flagfile_ops tmp FFlag i ++ OFs (FRenameDir tmp (DFinal i)) :: OFs FSyncRoot :: rest /\
               oc <> OutOfDate.
Proof.
  intros tmp i tail [l r] t tr oc HT HF H. simpl in *. unfold finalize, finalize_pre in H.
  rewrite exec_flagfile in H by exact HT. unfold seq in H. cbn [st_fs] in H. rewrite has_dir_in_dir, HF in H.
  unfold finalize_rename in H. cbn [app exec step fs_step st_fs st_rec] in H.
  rewrite has_dir_in_dir, HT in H. cbn [st_fs st_rec] in H.
  destruct (exec _ tail) as [[u tr2] ok2]. cbv beta iota zeta in H. unfold fin in H.
  apply triple_eq in H. destruct H as (<- & <- & <-). exists tr2. split; auto. destruct ok2; discriminate.
Qed.

(* every snapshot file of index i, in either view, holds the full image *)
Definition FullAt (i : N) (s : state) : Prop :=
  Forall (fun o => d_dn o = Some (DFinal i) ->
            Forall (fun f => f_dn f = Some (FSnap i) -> is_partial (f_dd f) = false) (d_files o)) (st_fs s).

Lemma drun_app : forall a s b, drun s (a ++ b) = drun (drun s a) b.
Proof. intros. unfold drun. apply fold_left_app. Qed.

Lemma drun_base : forall tr s,
  ~ In OCrash tr ->
  drun s (map DBase tr) = mkDS (run (ds_st s) tr) (ds_smv s) (ds_smd s).
Proof.
  induction tr as [|o r IH]; intros [st v d] NC.
  - reflexivity.
  - cbn [map]. unfold drun in *. cbn [fold_left]. rewrite IH.
    + destruct o; simpl; try reflexivity. exfalso. apply NC. left. reflexivity.
    + intro X. apply NC. right. exact X.
Qed.

(* the traces of Shrink, Commit and Compact record at most the index b, and do not crash *)
Definition opb (b : N) (o : op) : bool :=
  match o with OCrash => false | ORecord j => j =? b | OFs _ => true end.

Lemma opb_run_rec : forall b ops s, forallb (opb b) ops = true -> st_rec s <= b -> st_rec (run s ops) <= b.
Proof.
  intros b ops. induction ops as [|o r IH]; intros s F L; [exact L|].
  simpl in F. apply andb_true_iff in F. destruct F as [F1 F2]. rewrite run_cons. apply IH; auto.
  unfold step'. destruct o as [f|j|]; simpl in *.
  - destruct (fs_step (st_fs s) f); simpl; auto.
  - apply N.eqb_eq in F1. subst j. lia.
  - discriminate.
Qed.

Lemma forallb_incl : forall {A} (p : A -> bool) l l', incl l l' -> forallb p l' = true -> forallb p l = true.
Proof. intros A p l l' S F. rewrite forallb_forall in *. auto. Qed.

Lemma forallb_firstn : forall {A} (p : A -> bool) k l, forallb p l = true -> forallb p (firstn k l) = true.
Proof.
  intros A p k l F. rewrite <- (firstn_skipn k l), forallb_app in F. apply andb_true_iff in F. tauto.
Qed.

Lemma fin_incl : forall ops s t tr oc, fin (exec s ops) = (t, tr, oc) -> incl tr ops.
Proof.
  intros ops s t tr oc H. destruct (exec s ops) as [[u tr'] ok] eqn:E. apply triple_eq in H as (_ & <- & _).
  apply (exec_incl _ _ _ _ _ E).
Qed.

Lemma seq_incl : forall s a k b t tr oc,
  (forall s1 tr2, k s1 = (t, tr2, oc) -> incl tr2 b) ->
  seq (exec s a) k = (t, tr, oc) -> incl tr (a ++ b).
Proof.
  intros s a k b t tr oc K H. unfold seq in H. destruct (exec s a) as [[s1 tr1] ok1] eqn:E.
  pose proof (exec_incl _ _ _ _ _ E) as I1. destruct ok1.
  - destruct (k s1) as [[u tr2] oc2] eqn:E2. apply triple_eq in H as (<- & <- & <-).
    apply incl_app; [apply incl_appl, I1 | apply incl_appr, (K _ _ E2)].
  - apply triple_eq in H as (_ & <- & _). apply incl_appl, I1.
Qed.

Lemma finalize_incl : forall tmp i tail s t tr oc, finalize tmp i tail s = (t, tr, oc) ->
  incl tr (finalize_pre tmp i ++ rmdir_ops tmp ++ finalize_rename tmp i ++ tail).
Proof.
  intros tmp i tail s t tr oc. unfold finalize. apply seq_incl. intros s1 tr2 H.
  destruct (has_dir (DFinal i) (st_fs s1)).
  - destruct (exec s1 (rmdir_ops tmp)) as [[u tr3] ok3] eqn:E. apply triple_eq in H as (_ & <- & _).
    apply incl_appl, (exec_incl _ _ _ _ _ E).
  - apply incl_appr, (fin_incl _ _ _ _ _ H).
Qed.

Lemma ndigits_ge1 : forall fuel base n, (1 <= ndigits fuel base n)%nat.
Proof. destruct fuel; intros; simpl; [lia|]. destruct (n <? base); lia. Qed.

Lemma ndigits_le : forall fuel base k n,
  2 <= base -> (1 <= k)%nat -> n < base ^ N.of_nat k -> (ndigits fuel base n <= k)%nat.
Proof.
  induction fuel as [|f IH]; intros base k n HB HK HN; simpl; [lia|].
  destruct (n <? base) eqn:E; [lia|]. apply N.ltb_ge in E.
  destruct k as [|k]; [lia|]. destruct k as [|k].
  - change (N.of_nat 1) with 1 in HN. rewrite N.pow_1_r in HN. lia.
  - apply le_n_S. apply IH; auto; [lia|].
    replace (N.of_nat (S (S k))) with (N.succ (N.of_nat (S k))) in HN by lia.
    rewrite N.pow_succ_r' in HN. apply N.div_lt_upper_bound; lia.
Qed.

Lemma printed_len_dec : forall n, n < 2 ^ 64 -> 1 <= printed_len 10 0 n <= 20.
Proof.
  intros n H. unfold printed_len. pose proof (ndigits_ge1 64 10 n).
  assert (ndigits 64 10 n <= 20)%nat.
  { apply ndigits_le; [lia | lia |]. eapply N.lt_trans; [exact H|]. reflexivity. }
  lia.
Qed.

Lemma printed_len_hex16 : forall n, n < 2 ^ 64 -> printed_len 16 16 n = 16.
Proof.
  intros n H. unfold printed_len.
  assert (ndigits 64 16 n <= 16)%nat.
  { apply ndigits_le; [lia | lia |]. eapply N.lt_le_trans; [exact H|]. vm_compute. discriminate. }
  lia.
Qed.

Lemma temp_names_recognised_proved : forall idx id,
  idx < 2 ^ 64 -> id < 2 ^ 64 ->
  final_name_recognised idx = true /\ gen_name_recognised idx id = true /\ recv_name_recognised idx id = true.
Proof.
  intros idx id HI HD.
  pose proof (printed_len_dec id HD) as [D1 D2]. pose proof (printed_len_hex16 idx HI) as X.
  unfold final_name_recognised, gen_name_recognised, recv_name_recognised, part_ok.
  change name_index_width with 16. change tmp_id_base with 10. rewrite X.
  unfold final_re_idx_min, final_re_idx_max, final2_re_idx_min, final2_re_idx_max,
    gen_re_idx_min, gen_re_idx_max, gen_re_id_min, gen_re_id_max,
    recv_re_idx_min, recv_re_idx_max, recv_re_id_min, recv_re_id_max.
  assert (L1 : 1 <=? printed_len 10 0 id = true) by (apply N.leb_le; lia).
  assert (L2 : printed_len 10 0 id <=? 18446744073709551616 = true) by (apply N.leb_le; lia).
  rewrite L1, L2. repeat split; reflexivity.
Qed.

Lemma fK_writeat : forall n off d l, Forall fK l -> Forall fK (fl_writeat n off d l).
Proof. intros n off d. apply (fK_local (FWriteAt (DFinal 0) n off d)). Qed.

Lemma in_dir_ext : forall d g g' l, (forall x, g x = g' x) -> in_dir d g l = in_dir d g' l.
Proof. intros. unfold in_dir. apply map_ext. intros o. rewrite H. reflexivity. Qed.

Lemma flag_fn_fK : forall n i fl, Forall fK (flag_fn n i fl).
Proof. intros. apply fK_syncdir. Qed.

(* the invariant, for a notion [Vok] of "complete snapshot file content":
   instantiated below with [valid_snap] (any complete file, shrunk ones included)
   and with [full_snap] (complete and carrying the state machine's image) *)
Section Validity.
Variable Vok : data -> bool.
Hypothesis HV1 : forall d, Vok d = true -> valid_snap d = true.
Hypothesis HV2 : forall n, Vok (T_HDR :: repeat T_BODY n ++ [T_TAIL]) = true.

(* a shrunk / a metadata-only file counts as complete content (not for [full_snap]) *)
Definition shrunk_ok : Prop := Vok (T_HDR :: [T_EMPTY] ++ [T_TAIL]) = true.
Definition dummy_ok : Prop := Vok (T_HDR :: [T_DUMMY] ++ [T_TAIL]) = true.

(* the files of a (volatile or durable) final directory of index i *)
Definition fgood (i : N) (l : list fobj) : Prop :=
  Exists (fun f => f_dn f = Some (FSnap i)) l /\
  Exists (fun f => f_vn f = Some (FSnap i)) l /\
  Forall (fun f => ((f_vn f = Some (FSnap i) \/ f_dn f = Some (FSnap i)) -> Vok (f_dd f) = true) /\
                   (f_vn f = Some (FSnap i) -> f_vd f = f_dd f)) l /\
  Forall (fun f => ((f_vn f = Some FFlag \/ f_dn f = Some FFlag) -> f_dd f = flag_data i) /\
                   (f_vn f = Some FFlag -> f_vd f = flag_data i)) l.

Definition dinv (o : dobj) : Prop :=
  dK o /\ Forall fK (d_files o) /\
  forall i, (d_vn o = Some (DFinal i) \/ d_dn o = Some (DFinal i)) -> fgood i (d_files o).

Definition Inv (s : state) : Prop := Forall dinv (st_fs s) /\ recorded_dir s.

(* the guards: what the programs respect *)
Definition allowed (s : state) (o : op) : Prop :=
  match o with
  | OFs (FMkdir d) => is_tmp d = true
  | OFs FSyncRoot => True
  | OFs (FCreate d f) => file_ok d f
  | OFs (FWrite d f _) => file_ok d f
  | OFs (FWriteAt d f _ _) => file_ok d f
  | OFs (FSyncFile d f) => file_ok d f
  | OFs (FSyncDir d) => True
  | OFs (FRenameDir a b) =>
      exists i, i <> 0 /\ tmp_of a i /\ b = DFinal i /\ has_dir b (st_fs s) = false /\
                Forall (fun o => d_vn o = Some a -> fgood i (d_files o)) (st_fs s)
  | OFs (FRenameFile d a b) =>
      exists i, d = DFinal i /\ a = FShrunk i /\ b = FSnap i /\
        Forall (fun o => d_vn o = Some d ->
                  Exists (fun f => f_vn f = Some a) (d_files o) /\
                  Forall (fun f => f_vn f = Some a -> Vok (f_dd f) = true /\ f_vd f = f_dd f) (d_files o)) (st_fs s)
  | OFs (FRemove d f) => match d with DFinal _ => f = FFlag | _ => True end
  | OFs (FRemoveAll d) => match d with DFinal j => j <> st_rec s | _ => True end
  | ORecord i =>
      i <> 0 /\ Exists (fun o => d_vn o = Some (DFinal i) /\ d_dn o = Some (DFinal i)) (st_fs s)
  | OCrash => True
  end.

Definition cF (i : N) (f : fobj) : Prop :=
  ((f_vn f = Some (FSnap i) \/ f_dn f = Some (FSnap i)) -> Vok (f_dd f) = true) /\
  (f_vn f = Some (FSnap i) -> f_vd f = f_dd f).

Definition gen_ok (i : N) (l : list fobj) : Prop :=
  Exists (fun f => f_dn f = Some (FSnap i)) l /\ Exists (fun f => f_vn f = Some (FSnap i)) l /\ Forall (cF i) l.

Definition vok (d : data) : Prop := Vok d = true.

Lemma gen_ok_held : forall i l, gen_ok i l <-> named (FSnap i) l /\ Forall (held (FSnap i) vok) l.
Proof. intros i l. unfold gen_ok, named. change (cF i) with (held (FSnap i) vok). tauto. Qed.

Lemma fgood_split : forall i l, fgood i l <-> gen_ok i l /\ Forall (cG i) l.
Proof.
  intros i l.
  assert (G : forall f, ((f_vn f = Some FFlag \/ f_dn f = Some FFlag) -> f_dd f = flag_data i) /\
                        (f_vn f = Some FFlag -> f_vd f = flag_data i) <-> cG i f).
  { intros f. unfold cG, held. intuition congruence. }
  split.
  - intros (Ed & Ev & F & C). repeat split; auto. revert C. apply Forall_impl. intros f. apply G.
  - intros ((Ed & Ev & F) & C). repeat split; auto. revert C. apply Forall_impl. intros f. apply G.
Qed.

Lemma gen_ok_local : forall i n o l,
  about n o -> n <> FSnap i -> Forall fK l -> gen_ok i l -> gen_ok i (local_fn o l).
Proof.
  intros i n o l AB NE K G. apply gen_ok_held in G as [N F]. apply gen_ok_held.
  split; [apply (named_local _ n) | apply (held_local _ _ n)]; auto. discriminate.
Qed.

Lemma fgood_local : forall i n o l,
  about n o -> n <> FSnap i -> n <> FFlag -> Forall fK l -> fgood i l -> fgood i (local_fn o l).
Proof.
  intros i n o l AB N1 N2 K H. apply fgood_split in H as [G C]. apply fgood_split.
  split; [eapply gen_ok_local | eapply held_local]; eauto. discriminate.
Qed.

Lemma fgood_remove : forall i n l, n <> FSnap i -> fgood i l -> fgood i (fl_remove n l).
Proof.
  intros i n l NE H. apply fgood_split in H as [G C]. apply gen_ok_held in G as [N F]. apply fgood_split.
  rewrite gen_ok_held. split; [split|]; [apply named_unbind | apply held_unbind_all..]; auto.
Qed.

Lemma fgood_crash : forall i l, fgood i l -> fgood i (fl_crash l).
Proof.
  intros i l H. apply fgood_split in H as [G C]. apply gen_ok_held in G as [[Ed _] F]. apply fgood_split.
  rewrite gen_ok_held. split; [split; [split|]|]; try (apply held_crash; assumption);
    revert Ed; apply Exists_map_filter; intros f P; rewrite P; auto.
Qed.

Definition shrunk_ready (i : N) (l : list fobj) : Prop :=
  Exists (fun f => f_vn f = Some (FShrunk i)) l /\
  Forall (fun f => f_vn f = Some (FShrunk i) -> Vok (f_dd f) = true /\ f_vd f = f_dd f) l.

Lemma fgood_rename : forall i l,
  Forall fK l -> fgood i l -> shrunk_ready i l -> fgood i (fl_rename (FShrunk i) (FSnap i) l).
Proof.
  intros i l K H [Ex Va]. apply fgood_split in H as [(Ed & _ & F) C]. apply fgood_split.
  assert (R : forall Pd m, (forall k, m <> FShrunk k) ->
            Forall (fun f => f_vn f = Some (FShrunk i) -> m = FSnap i -> Pd (f_dd f) /\ f_vd f = f_dd f) l ->
            Forall (held m Pd) l -> Forall (held m Pd) (fl_rename (FShrunk i) (FSnap i) l)).
  { intros Pd m NS W. apply Forall_alive_map. intros f Hf Hh.
    destruct (f_is (f_vn f) (FShrunk i)) eqn:E; [|apply held_unbind, Hh]. apply f_is_eq in E.
    rewrite Forall_forall in K, W. split; simpl.
    - intros [A|A]; [injection A as <-; apply (W f Hf E eq_refl)|].
      destruct (K f Hf _ A) as [B|[B|[k [B _]]]]; [congruence | | destruct (NS k B)].
      rewrite E in B. injection B as <-. destruct (NS i eq_refl).
    - intros A. injection A as <-. apply (W f Hf E eq_refl). }
  repeat split.
  - revert Ed. apply Exists_alive_map. intros f P.
    assert (D : f_dn (if f_is (f_vn f) (FShrunk i) then mkF (Some (FSnap i)) (f_dn f) (f_vd f) (f_dd f)
                      else f_unbind (FSnap i) f) = Some (FSnap i))
      by (destruct (f_is (f_vn f) (FShrunk i)); [exact P | rewrite unbind_dn; exact P]).
    split; [exact D | eapply alive_dn, D].
  - revert Ex. apply Exists_alive_map. intros f P. apply f_is_eq in P. rewrite P. auto.
  - apply (R vok (FSnap i)); auto; [discriminate|]. revert Va. apply Forall_impl. auto.
  - apply (R (fun d => d = flag_data i) FFlag); auto; [discriminate|]. apply Forall_forall. intros f _ _ X. discriminate.
Qed.

Lemma dinv_in_dir : forall d g l,
  (forall fl, Forall fK fl -> Forall fK (g fl)) ->
  (forall o i, In o l -> d_vn o = Some (DFinal i) -> d = DFinal i ->
     Forall fK (d_files o) -> fgood i (d_files o) -> fgood i (g (d_files o))) ->
  Forall dinv l -> Forall dinv (in_dir d g l).
Proof.
  intros d g l H1 H2. apply Forall_in_dir. intros o Ho V (K & FK & GD). split; [exact K|]. split; [apply H1, FK|].
  simpl. intros i Hi. assert (d = DFinal i) by (eapply dinv_final_index; eauto). subst d. apply H2; auto.
Qed.

Lemma dinv_unbind : forall n o, dinv o -> dinv (d_unbind n o).
Proof.
  intros n o H. unfold d_unbind. destruct (d_is (d_vn o) n); [|exact H].
  destruct H as (K & FK & GD). split; [|split]; simpl; auto.
  - intros m Hm. left. reflexivity.
  - intros i [A|A]; [discriminate|]. apply GD. auto.
Qed.

Lemma dinv_synced : forall v o, (v = d_vn o \/ v = d_dn o) -> dinv o -> dinv (mkD v v (d_files o)).
Proof.
  intros v o Hv (K & FK & GD). split; [|split]; simpl; auto.
  - intros n Hn. auto.
  - intros i Hi. apply GD. destruct Hv; subst v; tauto.
Qed.

Lemma local_dinv : forall d o l r,
  allowed (mkS l r) (OFs o) -> local_to d o -> Forall dinv l -> Forall dinv (in_dir d (local_fn o) l).
Proof.
  intros d o l r A L. apply dinv_in_dir; [apply fK_local|]. intros x i _ _ -> K G.
  apply (fgood_local i (FShrunk i)); auto; try discriminate.
  destruct o; simpl in *; try contradiction; subst; auto.
Qed.

Lemma fs_step_dinv : forall l r f l',
  allowed (mkS l r) (OFs f) -> fs_step l f = Some l' -> Forall dinv l -> Forall dinv l'.
Proof.
  intros l r f l' A FS HI. apply fs_step_do in FS. subst l'.
  destruct f; try (apply (local_dinv d _ l r A eq_refl HI)); simpl in *.
  - unfold fs_mkdir. destruct (has_dir d l); [exact HI|]. constructor; [|exact HI].
    split; [|split]; simpl; [discriminate | constructor |]. intros i [X|X]; [|discriminate]. injection X as ->. discriminate.
  - revert HI. apply Forall_alive_map. intros o _. apply dinv_synced. auto.
  - (* a temporary directory becomes the final one; every other binding of that name goes *)
    destruct A as (i & NZ & T & -> & NB & GA).
    rewrite Forall_forall in GA. revert HI. apply Forall_alive_map. intros o Ho HI.
    destruct (d_is (d_vn o) a) eqn:E; [|apply dinv_unbind, HI]. apply d_is_eq in E.
    assert (DA : forall n, d_dn o = Some n -> n = a).
    { destruct HI as (K & _). intros n Hn. destruct (K _ Hn) as [B|[B|[j [_ B]]]]; [congruence | congruence |].
      rewrite E in B. destruct T as [T|T]; rewrite T in B; discriminate. }
    destruct HI as (K & FK & GD). split; [|split]; simpl; auto.
    + intros n Hn. right. right. exists i. rewrite (DA n Hn). auto.
    + intros j [X|X]; [injection X as <-; auto|]. apply DA in X. destruct T as [T|T]; rewrite T in X; discriminate.
  - destruct A as (i & -> & -> & -> & GA).
    rewrite Forall_forall in GA. revert HI. apply dinv_in_dir; [apply fK_rename|].
    intros o j Ho V Hj K G. injection Hj as <-. apply fgood_rename; auto. apply (GA o Ho V).
  - revert HI. apply dinv_in_dir; [intros fl; apply Forall_alive_map; intros x _; apply fK_unbind|].
    intros o i _ _ -> _. subst f. apply fgood_remove. discriminate.
  - revert HI. apply Forall_alive_map. intros o _. apply dinv_unbind.
Qed.

Lemma fs_step_rec : forall l r f l',
  allowed (mkS l r) (OFs f) -> fs_step l f = Some l' -> Exists (is_rec r) l -> Exists (is_rec r) l'.
Proof.
  intros l r f l' A FS HR. apply fs_step_do in FS. subst l'.
  assert (IND : forall d g, Exists (is_rec r) (in_dir d g l)) by (intros; apply Exists_in_dir; auto).
  destruct f; simpl in *; auto; revert HR.
  - intros HR. unfold fs_mkdir. destruct (has_dir d l); [exact HR | apply Exists_cons_tl, HR].
  - apply Exists_alive_map. intros o [V D]. unfold is_rec, d_alive. simpl. rewrite V. auto.
  - destruct A as (i & _ & T & -> & NB & _). intros HR.
    assert (NE : DFinal i <> DFinal r).
    { intros X. rewrite X in NB. rewrite Exists_exists in HR. destruct HR as [o [Ho [V _]]].
      assert (has_dir (DFinal r) l = true) by (apply has_dir_in; eauto). congruence. }
    revert HR. apply Exists_alive_map. intros o R. destruct (d_is (d_vn o) a) eqn:E; [|apply is_rec_unbind; auto].
    apply d_is_eq in E. destruct R as [V _]. destruct T as [T|T]; congruence.
  - apply Exists_alive_map. intros o. apply is_rec_unbind. destruct d; try discriminate. congruence.
Qed.

Lemma step_inv : forall s o t, Inv s -> allowed s o -> step s o = Some t -> Inv t.
Proof.
  intros [l r] o t [HI HR] A S. unfold recorded_dir in HR. simpl in HR. fold (is_rec r) in HR.
  destruct o as [f | i | ]; simpl in S.
  - destruct (fs_step l f) as [l'|] eqn:FS; [|discriminate]. injection S as <-. split; simpl.
    + eapply fs_step_dinv; eauto.
    + intros NZ. eapply fs_step_rec; eauto.
  - injection S as <-. destruct A as [Hi EX]. split; [exact HI|]. unfold recorded_dir. simpl. intros Hm.
    destruct (N.max_spec r i) as [[_ M]|[_ M]]; rewrite M in *; auto.
  - injection S as <-. split; simpl.
    + revert HI. apply Forall_map_filter. intros o _ (K & FK & GD). split; [|split]; simpl.
      * intros n Hn. auto.
      * apply Forall_map, Forall_forall. intros f _. apply fK_synced.
      * intros i Hi. apply fgood_crash, GD. tauto.
    + intros NZ. generalize (HR NZ). apply Exists_map_filter. intros o [V D]. unfold is_rec. simpl. rewrite D. auto.
Qed.

Lemma step_nozero : forall s o t, NoZero s -> allowed s o -> step s o = Some t -> NoZero t.
Proof.
  intros [l r] o t HZ A S. unfold NoZero in *. simpl in *.
  destruct o as [f | i | ]; simpl in S.
  - destruct (fs_step l f) as [l'|] eqn:FS; [|discriminate]. injection S as <-. apply fs_step_do in FS. subst l'.
    assert (IND : forall d g, Forall nz (in_dir d g l)) by (intros; apply Forall_in_dir; auto).
    destruct f; simpl in *; auto; revert HZ.
    + intros HZ. unfold fs_mkdir. destruct (has_dir d l); auto. constructor; auto.
      split; simpl; [|discriminate]. intros X. injection X as ->. discriminate.
    + apply Forall_alive_map. intros o _ [H1 H2]. split; auto.
    + destruct A as (i & NZ & _ & -> & _). apply Forall_alive_map. intros o _ H. destruct (d_is (d_vn o) a).
      * destruct H. split; simpl; congruence.
      * apply nz_unbind, H.
    + apply Forall_alive_map. intros o _. apply nz_unbind.
  - injection S as <-. exact HZ.
  - injection S as <-. simpl. revert HZ. apply Forall_map_filter. intros o _ [H1 H2]. split; auto.
Qed.

Fixpoint allowed_run (s : state) (ops : list op) : Prop :=
  match ops with
  | [] => True
  | o :: r => match step s o with
              | Some t => allowed s o /\ allowed_run t r
              | None => allowed_run s r
              end
  end.

Definition Good (s : state) : Prop := Inv s /\ NoZero s.

Lemma run_good : forall ops s, Good s -> allowed_run s ops -> Good (run s ops).
Proof.
  induction ops as [|o r IH]; intros s G A; [exact G|].
  rewrite run_cons. unfold step'. simpl in A. destruct (step s o) as [t|] eqn:E.
  - destruct A as [A1 A2]. apply IH; auto. destruct G as [G1 G2]. split.
    + eapply step_inv; eauto.
    + eapply step_nozero; eauto.
  - apply IH; auto.
Qed.

Lemma allowed_run_app : forall a s b, allowed_run s (a ++ b) <-> allowed_run s a /\ allowed_run (run s a) b.
Proof.
  induction a as [|o r IH]; intros s b.
  - simpl. tauto.
  - cbn [allowed_run app]. rewrite run_cons. unfold step'. destruct (step s o) as [t|].
    + rewrite IH. tauto.
    + apply IH.
Qed.

Lemma allowed_run_firstn : forall k ops s, allowed_run s ops -> allowed_run s (firstn k ops).
Proof.
  intros k ops s H. rewrite <- (firstn_skipn k ops) in H. apply allowed_run_app in H. tauto.
Qed.

Lemma good_init : Good init.
Proof. split; [split|]; simpl; try constructor. unfold recorded_dir. simpl. intros H; contradiction. Qed.

Definition static_ok (o : op) : Prop := forall s, allowed s o.

Lemma allowed_run_static : forall ops s, Forall static_ok ops -> allowed_run s ops.
Proof.
  induction ops as [|o r IH]; intros s H; simpl; auto. inversion H; subst.
  destruct (step s o); auto.
Qed.

Lemma read_flag : forall i l, Forall dinv l -> has_file (DFinal i) FFlag l = true ->
  read_file (DFinal i) FFlag l = Some (flag_data i).
Proof.
  intros i l HI HF. destruct (read_file_all (fun v => v = flag_data i) (DFinal i) FFlag l) as (v & R & ->); auto.
  - apply has_file_in in HF as (o & Ho & V & FH). apply existsb_exists in FH as (x & Hx & P).
    apply f_is_eq in P. eauto 6.
  - intros o x Ho V Hx W. rewrite Forall_forall in HI. destruct (HI o Ho) as (_ & _ & GD).
    destruct (GD i (or_introl V)) as (_ & _ & _ & G). rewrite Forall_forall in G. apply (G x Hx), W.
Qed.

Lemma allowed_rmdir : forall s n,
  (match n with DFinal j => j <> st_rec s | _ => True end) -> allowed_run s (rmdir_ops n).
Proof. intros [l r] n H. simpl. auto. Qed.

(* one iteration of the loop, on the name n: the directories of that name are
   all removed or all kept, nothing else changes *)
Definition po_post (n : dname) (s : state) (ops : list op) (t : state) : Prop :=
  exec s ops = (t, ops, true) /\ allowed_run s ops /\ st_rec t = st_rec s /\ DSynced t /\
  (forall o, In o (st_fs t) -> d_vn o = Some n -> kept (st_rec s) o) /\
  (forall o, d_vn o <> Some n -> (In o (st_fs t) <-> In o (st_fs s))).

Lemma po_post_rmdir : forall n s,
  DSynced s -> (match n with DFinal j => j <> st_rec s | _ => True end) ->
  po_post n s (rmdir_ops n) (mkS (fs_syncroot (fs_removeall n (st_fs s))) (st_rec s)).
Proof.
  intros n s HS AL. pose proof (fun o => rm_sync_in n (st_fs s) o HS) as IN.
  split; [apply exec_rmdir|]. split; [apply allowed_rmdir, AL|]. split; [reflexivity|].
  split; [apply syncroot_dsynced|]. simpl. split.
  - intros o Ho V. apply IN in Ho. tauto.
  - intros o V. rewrite IN. tauto.
Qed.

Lemma po_post_nop : forall n s,
  DSynced s -> (forall o, In o (st_fs s) -> d_vn o = Some n -> kept (st_rec s) o) -> po_post n s [] s.
Proof. intros n s HS K. split; [reflexivity|]. split; [exact I|]. split; [reflexivity|]. split; [exact HS|]. split; [exact K | tauto]. Qed.

Lemma po_post_rmflag : forall l r,
  r <> 0 -> Forall dsynced l -> has_file (DFinal r) FFlag l = true ->
  po_post (DFinal r) (mkS l r) [OFs (FRemove (DFinal r) FFlag)] (mkS (in_dir (DFinal r) (fl_remove FFlag) l) r).
Proof.
  intros l r NZ HS HF. unfold po_post. simpl. rewrite HF. simpl.
  split; [reflexivity|]. split; [auto|]. split; [reflexivity|]. split; [apply in_dir_dsynced, HS|].
  rewrite Forall_forall in HS. split.
  - intros o' IN V. apply In_in_dir in IN as (o & Ho & ->). destruct (HS o Ho) as [SD _].
    destruct (d_is (d_vn o) (DFinal r)) eqn:E; [|apply d_is_neq in E; contradiction].
    simpl in *. split; [exact SD|]. rewrite V. repeat split; auto. apply fl_has_remove.
  - intros o' V. rewrite In_in_dir. split.
    + intros (o & Ho & ->). destruct (d_is (d_vn o) (DFinal r)) eqn:E; [apply d_is_eq in E; simpl in V; contradiction | exact Ho].
    + intros Ho. exists o'. apply d_is_neq in V. rewrite V. auto.
Qed.

Lemma po_one_ok : forall n s,
  Good s -> DSynced s -> has_dir n (st_fs s) = true -> exists ops t, po_one n s = Some ops /\ po_post n s ops t.
Proof.
  intros n [l r] [[HI _] HZ] HS HD. pose proof HS as HS'. unfold DSynced in HS'. simpl in *.
  rewrite Forall_forall in HS'.
  destruct n as [i | i | i | k]; simpl; try rewrite HD; simpl.
  2, 3: eexists; eexists; split; [reflexivity | apply po_post_rmdir; simpl; auto].
  - assert (NZi : i <> 0).
    { apply has_dir_in in HD as (o & Ho & V). unfold NoZero in HZ. rewrite Forall_forall in HZ.
      destruct (HZ o Ho) as [Z _]. congruence. }
    destruct (N.eq_dec r i) as [<-|NE].
    + (* the recorded snapshot stays: with a flag file it is an orphan whose flag goes *)
      apply N.eqb_neq in NZi. destruct (has_file (DFinal r) FFlag l) eqn:HF.
      * rewrite read_flag, flag_index_data by (auto; apply N.eqb_neq, NZi). rewrite N.eqb_refl, NZi. simpl.
        eexists; eexists; split; [reflexivity | apply po_post_rmflag; auto]. apply N.eqb_neq, NZi.
      * rewrite N.eqb_refl, NZi. simpl. eexists; eexists; split; [reflexivity | apply po_post_nop; auto]. simpl.
        intros o Ho V. destruct (HS' o Ho). split; auto. rewrite V. repeat split; auto.
        -- apply N.eqb_neq, NZi.
        -- eapply has_file_false; eauto.
    + (* any other snapshot goes, flagged or not *)
      assert (E1 : (r =? i) = false) by (apply N.eqb_neq, NE).
      assert (E2 : (i =? r) = false) by (apply N.eqb_neq; congruence).
      destruct (has_file (DFinal i) FFlag l) eqn:HF; [rewrite read_flag, flag_index_data by auto|];
        rewrite ?E1, ?E2, orb_true_r; (eexists; eexists; split; [reflexivity | apply po_post_rmdir; auto]).
  - eexists; eexists; split; [reflexivity | apply po_post_nop; auto]. simpl. intros o Ho V.
    destruct (HS' o Ho). split; auto. rewrite V. exact I.
Qed.

Lemma po_loop_ok : forall names s,
  Good s -> DSynced s -> NoDup names ->
  Forall (fun n => has_dir n (st_fs s) = true) names ->
  exists u tr, po_loop names s = (u, tr, true) /\ allowed_run s tr /\ u = run s tr /\
               st_rec u = st_rec s /\ DSynced u /\
               Forall (fun o => kept (st_rec s) o \/ In o (st_fs s) /\ forall n, In n names -> d_vn o <> Some n) (st_fs u).
Proof.
  induction names as [|n R IH]; intros s G HS ND HD.
  - exists s, []. split; [reflexivity|]. split; [exact I|]. split; [reflexivity|]. split; [reflexivity|].
    split; [exact HS|]. apply Forall_forall. intros o Ho. right. split; [exact Ho | intros m []].
  - inversion ND as [|? ? NI ND']; subst. inversion HD as [|? ? HDn HDR]; subst.
    destruct (po_one_ok n s G HS HDn) as (ops & t & PO & EX & A & RR & St & Kn & Oth).
    pose proof (exec_run _ _ _ _ _ EX) as RT.
    assert (Gt : Good t) by (rewrite RT; apply run_good; auto).
    destruct (IH t Gt St ND') as (u & tr2 & P1 & P2 & P3 & P4 & P5 & P6).
    { rewrite Forall_forall in *. intros m Hm. specialize (HDR m Hm). apply has_dir_in in HDR as (o & Ho & V).
      apply has_dir_in. exists o. split; auto. apply Oth; auto. congruence. }
    exists u, (ops ++ tr2). split; [simpl; rewrite PO, EX, P1; reflexivity|].
    split; [apply allowed_run_app; split; auto; rewrite <- RT; exact P2|].
    split; [rewrite run_app, <- RT; exact P3|]. split; [congruence|]. split; [exact P5|]. rewrite RR in P6.
    revert P6. apply Forall_impl. intros o [K|[Ho NR]]; [left; exact K|].
    destruct (d_is (d_vn o) n) eqn:E; [apply d_is_eq in E; left; apply Kn; auto|]. apply d_is_neq in E.
    right. split; [apply Oth; auto | intros m [<-|Hm]; auto].
Qed.

Lemma process_orphans_ok : forall ord s,
  ord_ok ord -> Good s -> DSynced s ->
  exists u tr, process_orphans ord s = (u, tr, true) /\ allowed_run s tr /\ u = run s tr /\
               st_rec u = st_rec s /\ DSynced u /\ Forall (kept (st_rec s)) (st_fs u).
Proof.
  intros ord s HO G HS. unfold process_orphans. set (names := ord (dedup (vnames (st_fs s)))).
  assert (IN : forall n, In n names <-> exists o, In o (st_fs s) /\ d_vn o = Some n).
  { intros n. rewrite <- vnames_in, <- (dedup_in (vnames (st_fs s))). split; apply Permutation_in; [apply Permutation_sym|]; apply HO. }
  destruct (po_loop_ok names s G HS) as (u & tr & P1 & P2 & P3 & P4 & P5 & P6).
  - eapply Permutation_NoDup; [apply HO | apply dedup_nodup].
  - apply Forall_forall. intros n Hn. apply has_dir_in, IN, Hn.
  - exists u, tr. repeat split; auto. revert P6. apply Forall_impl. intros o [K|[Ho NN]]; [exact K|].
    (* every directory there was at the start has its name in the list *)
    unfold DSynced in HS. rewrite Forall_forall in HS. destruct (HS o Ho) as [_ SV].
    destruct (d_vn o) as [n|] eqn:V; [|contradiction]. destruct (NN n); [apply IN; eauto | reflexivity].
Qed.

Lemma fgood_goodb : forall i l, fgood i l -> files_goodb i l = true.
Proof.
  intros i l (Ed & Ev & F & _). unfold files_goodb. rewrite !andb_true_iff. repeat split.
  - apply existsb_exists. rewrite Exists_exists in Ed. destruct Ed as [f [Hf P]]. exists f. split; auto. apply f_is_eq; auto.
  - apply existsb_exists. rewrite Exists_exists in Ev. destruct Ev as [f [Hf P]]. exists f. split; auto. apply f_is_eq; auto.
  - apply forallb_forall. intros f Hf. rewrite Forall_forall in F. specialize (F f Hf).
    destruct (f_is (f_vn f) (FSnap i)) eqn:E1; destruct (f_is (f_dn f) (FSnap i)) eqn:E2; simpl; auto;
      apply HV1; apply F; try (left; apply f_is_eq; assumption); right; apply f_is_eq; assumption.
Qed.

Lemma kept_clean : forall s, Good s -> Forall (kept (st_rec s)) (st_fs s) -> cleanb s = true.
Proof.
  intros [l r] [[HI HR] _] HK. unfold cleanb. simpl in *. apply andb_true_iff. split.
  - apply forallb_forall. intros o Ho. rewrite Forall_forall in HK, HI. destruct (HK o Ho) as [D K].
    destruct (HI o Ho) as (_ & _ & GD).
    destruct (d_vn o) as [[i|i|i|k]|] eqn:V; auto; try contradiction.
    destruct K as (-> & NZ & NF). rewrite !andb_true_iff. repeat split.
    + apply negb_true_iff. apply N.eqb_neq. exact NZ.
    + apply N.eqb_refl.
    + apply fgood_goodb. apply GD. auto.
    + rewrite NF. reflexivity.
  - destruct (r =? 0) eqn:E; auto. apply N.eqb_neq in E. simpl. unfold recorded_dir in HR. simpl in HR.
    specialize (HR E). apply existsb_exists. rewrite Exists_exists in HR. destruct HR as [o [Ho [V D]]].
    exists o. split; auto. apply andb_true_iff. split; apply d_is_eq; auto.
Qed.

Lemma cleanup_after_crash : forall ord s,
  ord_ok ord -> Good s ->
  exists u tr, process_orphans ord (run s [OCrash]) = (u, tr, true) /\ cleanb u = true /\
               Good u /\ st_rec u = st_rec s.
Proof.
  intros ord s HO G.
  assert (GC : Good (run s [OCrash])) by (apply run_good; simpl; auto).
  destruct (process_orphans_ok ord _ HO GC (crash_dsynced (st_fs s))) as [u [tr (P1 & P2 & P3 & P4 & P5 & P6)]].
  exists u, tr. assert (GU : Good u) by (rewrite P3; apply run_good; auto).
  repeat split; auto; try apply GU.
  apply kept_clean; auto. rewrite P4. exact P6.
Qed.

Lemma good_recorded_complete : forall s, Good s -> st_rec s <> 0 -> durable_complete s (st_rec s).
Proof.
  intros s [[HI HR] _] NZ. specialize (HR NZ). rewrite Exists_exists in HR. destruct HR as [o [Ho [V D]]].
  exists o. repeat split; auto. rewrite Forall_forall in HI. destruct (HI o Ho) as (_ & _ & GD).
  destruct (GD _ (or_introl V)) as (Ed & _ & F & _). rewrite Exists_exists in Ed. destruct Ed as [f [Hf P]].
  exists f. repeat split; auto. rewrite Forall_forall in F. apply HV1. apply (F f Hf). auto.
Qed.

Lemma guarded_good : forall ops k, allowed_run init ops -> Good (run init (firstn k ops)).
Proof. intros ops k A. apply run_good; [apply good_init | apply allowed_run_firstn, A]. Qed.

Lemma guarded_recorded_implies_complete : forall ops k,
  allowed_run init ops ->
  let s := run init (firstn k ops) in st_rec s <> 0 -> durable_complete s (st_rec s).
Proof. intros ops k A s. apply good_recorded_complete, guarded_good, A. Qed.

Lemma guarded_cleanup : forall ord ops k,
  ord_ok ord -> allowed_run init ops ->
  exists u tr, process_orphans ord (run (run init (firstn k ops)) [OCrash]) = (u, tr, true) /\
               cleanb u = true /\ st_rec u = st_rec (run init (firstn k ops)).
Proof.
  intros ord ops k HO A.
  destruct (cleanup_after_crash ord _ HO (guarded_good ops k A)) as [u [tr (P1 & P2 & _ & P4)]]. exists u, tr. auto.
Qed.

(* a .generating directory holds a complete snapshot file; [GenGood s] is [Forall dgen (st_fs s)] *)
Definition dgen (o : dobj) : Prop := forall i, d_vn o = Some (DGen i) -> gen_ok i (d_files o).

Definition GenGood (s : state) : Prop :=
  Forall (fun o => forall i, d_vn o = Some (DGen i) -> gen_ok i (d_files o)) (st_fs s).

Definition J (s : state) : Prop := Good s /\ DSynced s /\ GenGood s.

Lemma dgen_in_dir : forall d g l,
  (forall i o, d = DGen i -> d_vn o = Some d -> dinv o -> dgen o -> gen_ok i (g (d_files o))) ->
  Forall dinv l -> Forall dgen l -> Forall dgen (in_dir d g l).
Proof.
  intros d g l H HI. rewrite Forall_forall in HI. apply Forall_in_dir. intros o Ho V G i Vi. simpl in *.
  apply H; auto. congruence.
Qed.

Lemma dgen_in_dir_other : forall d g l, (forall i, d <> DGen i) -> Forall dgen l -> Forall dgen (in_dir d g l).
Proof. intros d g l ND. apply Forall_in_dir. intros o _ V _ i Vi. destruct (ND i). simpl in Vi. congruence. Qed.

Lemma dgen_unbind : forall n o, dgen o -> dgen (d_unbind n o).
Proof. intros n o H. unfold d_unbind. destruct (d_is (d_vn o) n); [intros i X; discriminate | exact H]. Qed.

Lemma dgen_rm_sync : forall n l, Forall dgen l -> Forall dgen (fs_syncroot (fs_removeall n l)).
Proof.
  intros n l H. apply Forall_alive_map; [auto|]. revert H. apply Forall_alive_map. intros o _. apply dgen_unbind.
Qed.

Lemma dgen_rename_sync : forall a i l, Forall dgen l -> Forall dgen (fs_syncroot (fs_renamedir a (DFinal i) l)).
Proof.
  intros a i l H. apply Forall_alive_map; [auto|]. revert H. apply Forall_alive_map. intros o _ G.
  destruct (d_is (d_vn o) a); [intros j X; discriminate | apply dgen_unbind, G].
Qed.

Definition runs (s : state) (ops : list op) (t : state) : Prop :=
  exec s ops = (t, ops, true) /\ allowed_run s ops /\ J t.

Definition leads (s : state) (tr : list op) (t : state) : Prop :=
  allowed_run s tr /\ t = run s tr /\ J t.

Lemma runs_intro : forall s ops t,
  J s -> exec s ops = (t, ops, true) -> allowed_run s ops -> DSynced t -> GenGood t -> runs s ops t.
Proof.
  intros s ops t HJ E A D G. split; [exact E|]. split; [exact A|]. split; [|auto].
  rewrite (exec_run _ _ _ _ _ E). apply run_good; [apply HJ | exact A].
Qed.

Lemma runs_app : forall s a t b u, runs s a t -> runs t b u -> runs s (a ++ b) u.
Proof.
  intros s a t b u (E1 & A1 & _) (E2 & A2 & JU). split; [rewrite exec_app, E1, E2; reflexivity|].
  split; [|exact JU]. apply allowed_run_app; split; auto. rewrite <- (exec_run _ _ _ _ _ E1). exact A2.
Qed.

Lemma runs_leads : forall s ops t, runs s ops t -> leads s ops t.
Proof. intros s ops t (E & A & JT). split; [exact A|]. split; [apply (exec_run _ _ _ _ _ E) | exact JT]. Qed.

Lemma leads_nil : forall s, J s -> leads s [] s.
Proof. intros s HJ. split; [exact I|]. split; [reflexivity | exact HJ]. Qed.

Lemma leads_skip : forall s t tr (oc oc' : outcome), J s -> (s, @nil op, oc') = (t, tr, oc) -> leads s tr t.
Proof. intros s t tr oc oc' HJ H. apply triple_eq in H as (<- & <- & _). apply leads_nil, HJ. Qed.

Lemma fin_runs : forall s ops t' t tr oc, runs s ops t' -> fin (exec s ops) = (t, tr, oc) -> leads s tr t.
Proof.
  intros s ops t' t tr oc R H. destruct R as (E & R). rewrite E in H. apply triple_eq in H as (<- & <- & _).
  apply runs_leads. split; auto.
Qed.

Lemma seq_runs : forall s ops s1 k t tr oc,
  runs s ops s1 -> (forall tr2, k s1 = (t, tr2, oc) -> leads s1 tr2 t) ->
  seq (exec s ops) k = (t, tr, oc) -> leads s tr t.
Proof.
  intros s ops s1 k t tr oc R K H. destruct R as (E & R). rewrite E in H. unfold seq in H.
  destruct (k s1) as [[u tr2] oc2]. apply triple_eq in H as (<- & <- & <-).
  destruct R as (A & _). destruct (K _ eq_refl) as (A2 & R2 & JU). pose proof (exec_run _ _ _ _ _ E) as R1. subst s1.
  split; [apply allowed_run_app; split; auto|]. split; [rewrite run_app; exact R2 | exact JU].
Qed.

Lemma static_local_tmp : forall d ops, is_tmp d = true -> Forall (local_to d) ops -> Forall static_ok (map OFs ops).
Proof.
  intros d ops T H. apply Forall_map. revert H. apply Forall_impl. intros o L s.
  destruct o; simpl in L; try contradiction; subst; simpl; auto; destruct d; simpl; auto; discriminate.
Qed.

Lemma static_local_about : forall d n ops,
  file_ok d n -> Forall (local_to d) ops -> Forall (about n) ops -> Forall static_ok (map OFs ops).
Proof.
  intros d n ops FO L AB. apply Forall_map. rewrite Forall_forall in *. intros o Ho s.
  specialize (L o Ho). specialize (AB o Ho). destruct o; simpl in *; try contradiction; subst; auto.
Qed.

Lemma apply_local_frame : forall i n ops l,
  Forall (about n) ops -> n <> FSnap i -> Forall fK l -> gen_ok i l ->
  Forall fK (apply_local ops l) /\ gen_ok i (apply_local ops l).
Proof.
  intros i n ops. induction ops as [|o ops IH]; intros l AB NE K G; [auto|].
  inversion AB; subst. apply IH; auto; [apply fK_local, K | apply (gen_ok_local i n); auto].
Qed.

Lemma runs_local : forall d n ops l r,
  J (mkS l r) -> has_dir d l = true -> Forall (local_to d) ops -> Forall (about n) ops ->
  file_ok d n -> (forall i, n <> FSnap i) ->
  runs (mkS l r) (map OFs ops) (mkS (in_dir d (apply_local ops) l) r).
Proof.
  intros d n ops l r HJ HD L AB FO NS. apply runs_intro; auto.
  - apply exec_local; auto.
  - apply allowed_run_static. apply (static_local_about d n); auto.
  - apply in_dir_dsynced, HJ.
  - destruct HJ as ([[HI _] _] & _ & HG). revert HG. apply dgen_in_dir; auto.
    intros i o -> V (_ & K & _) G. apply (apply_local_frame i n); auto.
Qed.

Lemma runs_fill : forall d ops l r,
  J (mkS l r) -> is_tmp d = true -> Forall (local_to d) ops ->
  (forall i fl, d = DGen i -> gen_ok i (apply_local ops fl)) ->
  runs (mkS l r) (mktemp_ops d ++ map OFs ops)
       (mkS (in_dir d (apply_local ops) (fs_syncroot (fs_mkdir d l))) r).
Proof.
  intros d ops l r HJ T L G. set (l1 := fs_syncroot (fs_mkdir d l)). apply runs_intro; auto.
  - rewrite exec_app. change (exec (mkS l r) (mktemp_ops d)) with (mkS l1 r, mktemp_ops d, true). cbv beta iota.
    rewrite (exec_local _ l1 r d); [reflexivity | apply has_dir_mkdir_sync | exact L].
  - apply allowed_run_static, Forall_app. split; [|apply (static_local_tmp d); auto].
    repeat constructor; intros s; simpl; auto.
  - apply in_dir_dsynced, syncroot_dsynced.
  - destruct HJ as (_ & _ & HG). unfold GenGood in *. simpl in *. rewrite Forall_forall in HG.
    apply Forall_forall. intros o' Ho' i Vi. apply In_in_dir in Ho' as (o & Ho & ->).
    destruct (d_is (d_vn o) d) eqn:E; simpl in *.
    + apply d_is_eq in E. apply G. congruence.
    + apply d_is_neq in E. apply mkdir_sync_in in Ho as [V|[o0 [Ho0 ->]]]; [contradiction|]. apply (HG o0 Ho0), Vi.
Qed.

Lemma runs_rmdir : forall n s,
  J s -> (match n with DFinal j => j <> st_rec s | _ => True end) ->
  runs s (rmdir_ops n) (mkS (fs_syncroot (fs_removeall n (st_fs s))) (st_rec s)).
Proof.
  intros n s HJ AL. apply runs_intro;
    [exact HJ | apply exec_rmdir | apply allowed_rmdir, AL | apply syncroot_dsynced | apply dgen_rm_sync, HJ].
Qed.

Lemma runs_record : forall l r i, J (mkS l r) -> has_file (DFinal i) FFlag l = true ->
  runs (mkS l r) [ORecord i] (mkS l (N.max r i)).
Proof.
  intros l r i HJ HF. apply runs_intro; [exact HJ | reflexivity | | apply HJ | apply HJ].
  destruct HJ as ([_ HZ] & HS & _). apply has_file_in in HF as (o & Ho & V & _).
  unfold NoZero, DSynced in *. simpl in *. rewrite Forall_forall in HZ, HS. destruct (HZ o Ho) as [Z _]. destruct (HS o Ho) as [D _].
  split; [|exact I]. split; [congruence|]. apply Exists_exists. exists o. rewrite D. auto.
Qed.

Lemma runs_record_rmflag : forall l r i, J (mkS l r) -> has_file (DFinal i) FFlag l = true ->
  runs (mkS l r) [ORecord i; OFs (FRemove (DFinal i) FFlag)] (mkS (in_dir (DFinal i) (fl_remove FFlag) l) (N.max r i)).
Proof.
  intros l r i HJ HF. apply (runs_app _ [ORecord i] (mkS l (N.max r i)) [OFs (FRemove (DFinal i) FFlag)]); [apply runs_record; auto|].
  assert (J1 : J (mkS l (N.max r i))) by apply (runs_record l r i HJ HF).
  apply runs_intro; [exact J1 | | | apply in_dir_dsynced, J1 | apply dgen_in_dir_other; [discriminate | apply J1]].
  - simpl. rewrite HF. reflexivity.
  - simpl. rewrite HF. simpl. auto.
Qed.

Lemma cmd_restart : forall ord s t tr oc, ord_ok ord -> Good s -> DSynced s ->
  fin (process_orphans ord s) = (t, tr, oc) -> leads s tr t.
Proof.
  intros ord s t tr oc HO G HS H.
  destruct (process_orphans_ok ord s HO G HS) as [u [tr' (P1 & P2 & P3 & P4 & P5 & P6)]].
  rewrite P1 in H. apply triple_eq in H as (<- & <- & _). split; [exact P2|]. split; [exact P3|].
  split; [rewrite P3; apply run_good; auto|]. split; [exact P5|]. revert P6. apply Forall_impl.
  intros o [_ K] i V. rewrite V in K. contradiction.
Qed.

Lemma cmd_crash : forall ord s t tr oc, ord_ok ord -> J s ->
  seq (exec s [OCrash]) (fun s1 => fin (process_orphans ord s1)) = (t, tr, oc) -> leads s tr t.
Proof.
  intros ord s t tr oc HO (G & _) H. unfold seq in H. cbn [exec step] in H.
  destruct (fin _) as [[u tr2] oc2] eqn:E. apply triple_eq in H as (<- & <- & <-).
  assert (GC : Good (run s [OCrash])) by (apply run_good; simpl; auto).
  destruct (cmd_restart ord _ _ _ _ HO GC (crash_dsynced (st_fs s)) E) as (A & R & JU).
  split; [apply (allowed_run_app [OCrash]); simpl; auto|]. split; [exact R | exact JU].
Qed.

Lemma gen_ok_of_Tr : forall i v fl,
  Tr (FSnap i) v v fl -> Db (FSnap i) fl -> Vok v = true -> gen_ok i fl.
Proof.
  intros i v fl T D VS. pose proof (held_of_Tr _ _ _ T D) as H. destruct T as [E _]. destruct D as [DE _].
  split; [|split; [exact E|]].
  - revert DE. apply Exists_impl. tauto.
  - revert H. apply Forall_impl. intros x [H1 H2]. split; [|exact H2]. intros A. rewrite (H1 A). exact VS.
Qed.

Lemma cmd_save_body : forall s i body t tr oc, Vok (T_HDR :: body ++ [T_TAIL]) = true -> J s ->
  fin (exec s (save_ops_body i body)) = (t, tr, oc) -> leads s tr t.
Proof.
  intros [l r] i body t tr oc HB HJ. apply fin_runs with (t' := mkS (in_dir (DGen i) (apply_local (writer_fs (DGen i) (FSnap i) body)) (fs_syncroot (fs_mkdir (DGen i) l))) r).
  apply (runs_fill (DGen i) (writer_fs (DGen i) (FSnap i) body)); [exact HJ | reflexivity | repeat constructor|].
  intros j fl [= <-]. destruct (writer_Tr (DGen i) (FSnap i) body fl). eapply gen_ok_of_Tr; eauto.
Qed.

Lemma runs_flagfile : forall d n i l r,
  J (mkS l r) -> has_dir d l = true -> file_ok d n -> (forall j, n <> FSnap j) ->
  runs (mkS l r) (flagfile_ops d n i) (mkS (in_dir d (flag_fn n i) l) r).
Proof.
  intros d n i l r HJ HD FO NS. destruct (flag_about d n i). rewrite flagfile_ops_fs. apply (runs_local d n); auto.
Qed.

Lemma runs_rename : forall a i l r,
  J (mkS l r) -> i <> 0 -> tmp_of a i -> has_dir a l = true -> has_dir (DFinal i) l = false ->
  Forall (fun o => d_vn o = Some a -> fgood i (d_files o)) l ->
  runs (mkS l r) (finalize_rename a i) (mkS (fs_syncroot (fs_renamedir a (DFinal i) l)) r).
Proof.
  intros a i l r HJ NZ T HD NF FG. apply runs_intro; [exact HJ | | | apply syncroot_dsynced | apply dgen_rename_sync, HJ].
  - simpl. rewrite HD. reflexivity.
  - simpl. rewrite HD. split; [|simpl; auto]. exists i. auto 6.
Qed.

Lemma finalize_ok : forall tmp i tail s t tr oc,
  i <> 0 -> tmp_of tmp i ->
  (tail = [] \/ tail = [ORecord i; OFs (FRemove (DFinal i) FFlag)]) ->
  J s -> Forall (fun o => d_vn o = Some tmp -> gen_ok i (d_files o)) (st_fs s) ->
  finalize tmp i tail s = (t, tr, oc) -> leads s tr t.
Proof.
  intros tmp i tail [l r] t tr oc NZ TM TL HJ PRE H.
  assert (TMP : file_ok tmp FFlag /\ is_tmp tmp = true) by (destruct TM as [->| ->]; split; reflexivity).
  unfold finalize, finalize_pre in H. simpl in PRE. destruct (has_dir tmp l) eqn:HD.
  2:{ rewrite exec_flagfile_nodir in H by exact HD. eapply leads_skip; eauto. }
  set (l1 := in_dir tmp (flag_fn FFlag i) l).
  assert (R1 : runs (mkS l r) (flagfile_ops tmp FFlag i) (mkS l1 r))
    by (apply runs_flagfile; auto; [apply TMP | discriminate]).
  revert H. apply (seq_runs _ _ _ _ _ _ _ R1). cbn [st_fs]. assert (J1 : J (mkS l1 r)) by apply R1. intros tr2 H.
  (* the files of the temporary directory are now those of a complete snapshot directory *)
  assert (FG : Forall (fun o => d_vn o = Some tmp -> fgood i (d_files o) /\ fl_has FFlag (d_files o) = true) l1).
  { apply (in_dir_files (fun fl => fgood i fl /\ fl_has FFlag fl = true)). intros o Ho V. rewrite Forall_forall in PRE. destruct HJ as ([[HI _] _] & _).
    rewrite Forall_forall in HI. destruct (HI o Ho) as (_ & K & _). split; [|apply flag_fn_has_flag].
    apply fgood_split. split; [|apply flag_fn_cG].
    rewrite <- (apply_local_flag tmp). apply (apply_local_frame i FFlag); auto; [apply flag_about | discriminate]. }
  assert (HD1 : has_dir tmp l1 = true) by (unfold l1; rewrite has_dir_in_dir; exact HD).
  destruct (has_dir (DFinal i) l1) eqn:HF.
  - (* out of date: the temporary directory is removed *)
    rewrite exec_rmdir in H. apply triple_eq in H as (<- & <- & _). apply runs_leads, runs_rmdir; auto.
    destruct TM as [-> | ->]; exact I.
  - (* rename to the final directory *)
    assert (R3 : runs (mkS l1 r) (finalize_rename tmp i) (mkS (fs_syncroot (fs_renamedir tmp (DFinal i) l1)) r)).
    { apply runs_rename; auto. revert FG. apply Forall_impl. tauto. }
    destruct TL as [-> | ->]; (eapply fin_runs; [|exact H]); [rewrite app_nil_r; exact R3|].
    eapply runs_app; [exact R3|]. apply runs_record_rmflag; [apply R3|].
    apply has_dir_in in HD1 as (w & Hw & Vw). rewrite Forall_forall in FG. destruct (FG w Hw Vw) as [_ WF].
    apply has_file_in. eexists. split; [apply (rename_sync_witness tmp (DFinal i) l1 w Hw Vw)|]. auto.
Qed.

Lemma cmd_commit : forall s i t tr oc, i <> 0 -> J s ->
  seq (exec s (flagfile_ops (DGen i) FMeta i)) (finalize (DGen i) i (commit_tail i)) = (t, tr, oc) ->
  leads s tr t.
Proof.
  intros [l r] i t tr oc NZ HJ H. destruct (has_dir (DGen i) l) eqn:HD.
  2:{ rewrite exec_flagfile_nodir in H by exact HD. eapply leads_skip; eauto. }
  assert (R1 : runs (mkS l r) (flagfile_ops (DGen i) FMeta i) (mkS (in_dir (DGen i) (flag_fn FMeta i) l) r))
    by (apply runs_flagfile; auto; [exact I | discriminate]).
  revert H. apply (seq_runs _ _ _ _ _ _ _ R1). intros tr2.
  apply finalize_ok; [exact NZ | left; reflexivity | right; apply commit_tail_order | apply R1 |].
  destruct R1 as (_ & _ & _ & _ & G). revert G. apply Forall_impl. auto.
Qed.

(* one file received in nch chunks and fsynced at its last chunk: durable, full *)
Lemma recv_file_done : forall d f nch fl,
  exists v, Vok v = true /\
    Tr f v v (apply_local (recv_file_fs d f nch true) fl) /\ Db f (apply_local (recv_file_fs d f nch true) fl).
Proof.
  intros d f nch fl. unfold recv_file_fs. destruct (nch <=? 1).
  - exists [T_HDR; T_TAIL]. split; [apply (HV2 0%nat)|].
    destruct (tracked f d [FWrite d f [T_HDR; T_TAIL]; FSyncFile d f; FSyncDir d] fl) as [T D]; [repeat constructor|].
    split; [exact T | apply (D d); simpl; auto].
  - exists (T_HDR :: repeat T_BODY (N.to_nat (nch - 2)) ++ [T_TAIL]). split; [apply HV2|].
    destruct (tracked f d [FWrite d f [T_HDR]; FSyncDir d; FWrite d f (repeat T_BODY (N.to_nat (nch - 2)));
                           FWrite d f [T_TAIL]; FSyncFile d f] fl) as [T D]; [repeat constructor|].
    split; [exact T | apply (D d); simpl; auto].
Qed.

Lemma recv_ok : forall i ops s t tr oc, i <> 0 -> J s ->
  Forall (local_to (DRecv i)) ops -> (forall fl, gen_ok i (apply_local ops fl)) ->
  seq (exec s (mktemp_ops (DRecv i) ++ map OFs ops)) (finalize (DRecv i) i []) = (t, tr, oc) ->
  leads s tr t.
Proof.
  intros i ops [l r] t tr oc NZ HJ L G.
  assert (R1 : runs (mkS l r) (mktemp_ops (DRecv i) ++ map OFs ops)
                    (mkS (in_dir (DRecv i) (apply_local ops) (fs_syncroot (fs_mkdir (DRecv i) l))) r))
    by (apply runs_fill; auto; discriminate).
  apply (seq_runs _ _ _ _ _ _ _ R1). intros tr2.
  apply finalize_ok; [exact NZ | right; reflexivity | left; reflexivity | apply R1 |].
  apply (in_dir_files (gen_ok i)). auto.
Qed.

Lemma cmd_shrink : forall ord s i t tr oc, shrunk_ok -> J s ->
  do_cmd ord s (CShrink i) = (t, tr, oc) -> leads s tr t.
Proof.
  intros ord [l r] i t tr oc SOK HJ H. cbn [do_cmd st_rec st_fs] in H. destruct (r <? i); [eapply leads_skip; eauto|].
  destruct (read_file (DFinal i) (FSnap i) l) as [x|] eqn:RF; [|eapply leads_skip; eauto].
  destruct (valid_snap x); [|eapply leads_skip; eauto].
  set (d := DFinal i) in *. set (sh := FShrunk i) in *. set (wf := writer_fs d sh [T_EMPTY]).
  pose proof (read_file_has_dir _ _ _ _ RF) as HD.
  assert (R1 : runs (mkS l r) (map OFs wf) (mkS (in_dir d (apply_local wf) l) r))
    by (apply (runs_local d sh); auto; [repeat constructor | repeat constructor | reflexivity | discriminate]).
  set (l1 := in_dir d (apply_local wf) l) in *.
  (* every directory named d now holds a complete, durable shrunk file *)
  assert (TRK : Forall (fun o => d_vn o = Some d -> shrunk_ready i (d_files o)) l1).
  { apply (in_dir_files (shrunk_ready i)). intros o _ _. destruct (writer_Tr d sh [T_EMPTY] (d_files o)) as [[EX FA] _]. split; [exact EX|].
    revert FA. apply Forall_impl. intros f P V. destruct (P V) as [-> ->]. split; [exact SOK | reflexivity]. }
  assert (HD1 : has_dir d l1 = true) by (unfold l1; rewrite has_dir_in_dir; exact HD).
  assert (HF1 : has_file d sh l1 = true).
  { apply has_dir_in in HD1 as [o [Ho V]]. apply has_file_in. exists o. repeat split; auto.
    rewrite Forall_forall in TRK. destruct (TRK o Ho V) as [EX _]. apply existsb_exists.
    rewrite Exists_exists in EX. destruct EX as [f [Hf P]]. exists f. split; auto. apply f_is_eq, P. }
  set (l2 := in_dir d fl_syncdir (in_dir d (fl_rename sh (FSnap i)) l1)).
  assert (R2 : runs (mkS l1 r) [OFs (FRenameFile d sh (FSnap i)); OFs (FSyncDir d)] (mkS l2 r)).
  { assert (HD2 : has_dir d (in_dir d (fl_rename sh (FSnap i)) l1) = true) by (rewrite has_dir_in_dir; exact HD1).
    apply runs_intro; [apply R1 | | | |].
    - cbn [exec step fs_step st_fs st_rec]. rewrite HF1. cbn [st_fs st_rec]. rewrite HD2. reflexivity.
    - cbn [allowed_run step fs_step st_fs st_rec]. rewrite HF1. cbn [st_fs st_rec]. rewrite HD2.
      split; [|simpl; auto]. simpl. exists i. repeat split; auto.
    - do 2 apply in_dir_dsynced. apply R1.
    - do 2 (apply dgen_in_dir_other; [discriminate|]). apply R1. }
  eapply fin_runs; [|exact H]. change (shrink_ops i) with (map OFs wf ++ [OFs (FRenameFile d sh (FSnap i)); OFs (FSyncDir d)]).
  eapply runs_app; eauto.
Qed.

(* the snapshot file stays as it was written while the external file arrives *)
Lemma recvx_files : forall i n m fl,
  let fl' := apply_local (recvx_fs i n m) fl in
  gen_ok i fl' /\ durable_full (FSnap i) fl' /\ durable_full (FOther 1) fl'.
Proof.
  intros i n m fl. unfold recvx_fs. change chunk_save_syncs_each_file with true. cbv zeta.
  unfold apply_local. rewrite fold_left_app. fold (apply_local (recv_file_fs (DRecv i) (FSnap i) n true) fl).
  set (fl1 := apply_local (recv_file_fs (DRecv i) (FSnap i) n true) fl).
  fold (apply_local (recv_file_fs (DRecv i) (FOther 1) m true) fl1).
  destruct (recv_file_done (DRecv i) (FSnap i) n fl) as (v & VS & T & D). fold fl1 in T, D.
  destruct (recv_file_done (DRecv i) (FOther 1) m fl1) as (w & WS & T2 & D2).
  pose proof (recv_file_fK (DRecv i) (FSnap i) n fl) as K1. fold fl1 in K1.
  pose proof (recv_file_about (DRecv i) (FOther 1) m true) as AB.
  destruct (held_frame (FSnap i) (fun d => d = v) (FOther 1) _ fl1 AB) as [H B];
    [discriminate | discriminate | exact K1 | apply held_of_Tr; auto | apply D|].
  split; [|split].
  - apply (apply_local_frame i (FOther 1)); auto; [discriminate | eapply gen_ok_of_Tr; eauto].
  - exists v. split; [apply HV1, VS|]. split; [exact B|]. revert H. apply Forall_impl. intros x Hx. apply Hx.
  - apply (durable_full_of _ w); auto.
Qed.

Lemma received_files_durable_proved : forall i n m fl,
  let fl' := apply_local (recvx_fs i n m) fl in
  durable_full (FSnap i) fl' /\ durable_full (FOther 1) fl'.
Proof. intros i n m fl. apply recvx_files. Qed.

Lemma cmd_ok : forall ord s c t tr oc, ord_ok ord -> (is_shrink c -> shrunk_ok) -> J s ->
  do_cmd ord s c = (t, tr, oc) -> leads s tr t.
Proof.
  intros ord s c t tr oc HO HSK HJ H.
  destruct c as [i n | i | i n | i n m | i | i | i | i | | ]; cbn [do_cmd] in H;
    try (destruct (i =? 0) eqn:E; [eapply leads_skip; [exact HJ | exact H] | apply N.eqb_neq in E]).
  - unfold save_ops in H. eapply cmd_save_body; eauto.
  - eapply cmd_commit; eauto.
  - revert H. rewrite recv_ops_fs. apply recv_ok; auto; [apply recv_file_local|]. intros fl.
    destruct (recv_file_done (DRecv i) (FSnap i) n fl) as (v & VS & T & D). eapply gen_ok_of_Tr; eauto.
  - revert H. apply recv_ok; auto; [apply Forall_app; split; apply recv_file_local | apply recvx_files].
  - destruct s as [l r]. cbn [st_fs] in H. destruct (has_file (DFinal i) FFlag l) eqn:HF; [|eapply leads_skip; eauto].
    rewrite apply_ops_order in H. eapply fin_runs; [|exact H]. apply runs_record_rmflag; auto.
  - destruct s as [l r]. cbn [st_fs] in H. destruct (has_file (DFinal i) FFlag l) eqn:HF; [|eapply leads_skip; eauto].
    eapply fin_runs; [|exact H]. apply runs_record; auto.
  - apply (cmd_shrink ord s i t tr oc); auto. apply HSK. exact I.
  - destruct (st_rec s <=? i) eqn:E; [eapply leads_skip; eauto|]. apply N.leb_gt in E.
    eapply fin_runs; [|exact H]. apply runs_rmdir; auto. simpl. lia.
  - change startup_cleans with true in H. eapply cmd_restart; eauto; apply HJ.
  - change startup_cleans with true in H. eapply cmd_crash; eauto.
Qed.

Lemma cmds_ok : forall ord cs s t tr, ord_ok ord -> (Exists is_shrink cs -> shrunk_ok) -> J s ->
  do_cmds ord s cs = (t, tr) -> allowed_run s tr /\ t = run s tr /\ J t.
Proof.
  intros ord cs. induction cs as [|c r IH]; intros s t tr HO HSK HJ H; simpl in H.
  - injection H as <- <-. apply leads_nil, HJ.
  - destruct (do_cmd ord s c) as [[s1 tr1] oc] eqn:E1. destruct (do_cmds ord s1 r) as [u tr2] eqn:E2.
    injection H as <- <-.
    destruct (cmd_ok _ _ _ _ _ _ HO (fun X => HSK (Exists_cons_hd _ _ _ X)) HJ E1) as (A1 & R1 & J1).
    destruct (IH _ _ _ HO (fun X => HSK (Exists_cons_tl _ X)) J1 E2) as (A2 & R2 & J2). subst s1.
    split; [apply allowed_run_app; split; auto|]. split; [rewrite run_app; exact R2 | exact J2].
Qed.

Lemma trace_allowed : forall ord cs, ord_ok ord -> (Exists is_shrink cs -> shrunk_ok) ->
  allowed_run init (snd (do_cmds ord init cs)).
Proof.
  intros ord cs HO HSK. destruct (do_cmds ord init cs) as [t tr] eqn:E.
  apply (cmds_ok ord cs init t tr HO HSK (conj good_init (conj (Forall_nil _) (Forall_nil _))) E).
Qed.

(* the recorded snapshot file as the process sees it: complete, and with whatever
   holds of all the volatile snapshot files of the recorded directories *)
Lemma read_recorded_with : forall (P : data -> Prop) s,
  Good s -> st_rec s <> 0 ->
  Forall (fun o => d_vn o = Some (DFinal (st_rec s)) ->
            Forall (fun f => f_vn f = Some (FSnap (st_rec s)) -> P (f_vd f)) (d_files o)) (st_fs s) ->
  exists d, read_file (DFinal (st_rec s)) (FSnap (st_rec s)) (st_fs s) = Some d /\ Vok d = true /\ P d.
Proof.
  intros P [l i] [[HI HR] _] NZ HP. simpl in *. rewrite Forall_forall in HI, HP.
  apply (read_file_all (fun d => Vok d = true /\ P d)).
  - specialize (HR NZ). simpl in HR. rewrite Exists_exists in HR. destruct HR as (o & Ho & V & _).
    destruct (HI o Ho) as (_ & _ & GD). destruct (GD i (or_introl V)) as (_ & Ev & _).
    rewrite Exists_exists in Ev. destruct Ev as (g & Hg & Q). eauto 6.
  - intros o x Ho V Hx W. destruct (HI o Ho) as (_ & _ & GD). destruct (GD i (or_introl V)) as (_ & _ & F & _).
    rewrite Forall_forall in F. destruct (F x Hx) as [F1 F2]. split; [rewrite (F2 W); auto|].
    specialize (HP o Ho V). rewrite Forall_forall in HP. auto.
Qed.

Lemma read_recorded : forall s,
  Good s -> st_rec s <> 0 ->
  exists d, read_file (DFinal (st_rec s)) (FSnap (st_rec s)) (st_fs s) = Some d /\ Vok d = true.
Proof.
  intros s G NZ. destruct (read_recorded_with (fun _ => True) s G NZ) as (d & R & V & _); [|eauto].
  apply Forall_forall. intros o _ _. apply Forall_forall. auto.
Qed.

(* what makes a crash restartable: nothing recorded, or the recorded file is still
   the full image, or the state machine is durable up to the record *)
Lemma crash_ok : forall st v d,
  Good st -> (st_rec st = 0 \/ FullAt (st_rec st) st \/ st_rec st <= d) ->
  restart_okb (dstep (mkDS st v d) (DBase OCrash)) = true.
Proof.
  intros st v d G H. unfold restart_okb, recorded_file. simpl.
  destruct (st_rec st =? 0) eqn:Z; [reflexivity|]. apply N.eqb_neq in Z. simpl.
  assert (GC : Good (run st [OCrash])) by (apply run_good; simpl; auto).
  destruct H as [H|[FA|H]]; [contradiction| |].
  - destruct (read_recorded_with (fun x => is_partial x = false) _ GC Z) as (x & RF & VS & NP).
    { revert FA. apply Forall_map_filter. intros o _ Ho V. generalize (Ho V). apply Forall_map_filter.
      intros f _ Hf W. exact (Hf W). }
    simpl in RF. rewrite RF, (HV1 _ VS), NP. reflexivity.
  - destruct (read_recorded _ GC Z) as (x & RF & VS). simpl in RF. apply N.leb_le in H.
    rewrite RF, (HV1 _ VS), H. apply orb_true_r.
Qed.

(* once the state machine is durable at b and the run records at most b, every cut is restartable *)
Lemma synced_cuts : forall st tr b k v,
  Good st -> allowed_run st tr -> forallb (opb b) tr = true -> st_rec st <= b ->
  restart_okb (dstep (drun (mkDS st v b) (map DBase (firstn k tr))) (DBase OCrash)) = true.
Proof.
  intros st tr b k v G A OB L. rewrite drun_base
    by (intros X; apply (forallb_firstn _ k), forallb_forall with (x := OCrash) in OB; [discriminate | exact X]).
  cbn [ds_st ds_smv ds_smd]. apply crash_ok.
  - apply run_good; [exact G | apply allowed_run_firstn, A].
  - right. right. apply opb_run_rec; [apply forallb_firstn, OB | exact L].
Qed.

Lemma ondisk_recover_restartable_proved : forall s i load k,
  shrunk_ok -> J (ds_st s) -> st_rec (ds_st s) = i ->
  (FullAt i (ds_st s) \/ i <= ds_smd s) ->
  (load = false -> i <= ds_smv s) ->
  let '(_, tr, _) := recover_prog s i load in
  restart_okb (dstep (drun s (firstn k tr)) (DBase OCrash)) = true.
Proof.
  intros [st v d] i load k SOK HJ RE H3 HV. simpl in *. unfold recover_prog. cbn [ds_st].
  destruct (do_cmd (fun l => l) st (CShrink i)) as [[t shr] oc] eqn:E.
  destruct (cmd_ok _ _ _ _ _ _ (fun l => Permutation_refl l) (fun _ => SOK) HJ E) as (A & _ & _).
  change (recover_tail shr) with (DSmSync :: map DBase shr). rewrite firstn_app, drun_app. set (pre := if load then [DSmRecover i] else []).
  destruct (k - length pre)%nat as [|k2] eqn:K.
  - (* the crash precedes Sync *)
    assert (X : exists v', drun (mkDS st v d) (firstn k pre) = mkDS st v' d).
    { unfold pre. destruct load; destruct k; simpl; eauto. destruct k; simpl; eauto. }
    destruct X as [v' ->]. apply crash_ok; [apply HJ | rewrite RE; auto].
  - (* Sync is durable: whatever Shrink has done, the state machine is at least at i *)
    rewrite firstn_all2 by lia. cbn [firstn]. rewrite firstn_map.
    assert (X : exists v1, i <= v1 /\ drun (mkDS st v d) pre = mkDS st v1 d).
    { unfold pre. destruct load; simpl; eauto using N.le_refl. }
    destruct X as (v1 & L1 & ->).
    change (drun (mkDS st v1 d) (DSmSync :: ?l)) with (drun (mkDS st v1 v1) l).
    apply synced_cuts; [apply HJ | exact A | | lia].
    apply (forallb_incl _ _ (shrink_ops i)); [|reflexivity]. cbn [do_cmd] in E.
    destruct (st_rec st <? i); [inversion E; subst; intros o []|].
    destruct (read_file (DFinal i) (FSnap i) (st_fs st)) as [x|]; [|inversion E; subst; intros o []].
    destruct (valid_snap x); [|inversion E; subst; intros o []]. apply (fin_incl _ _ _ _ _ E).
Qed.

(* the outcome of a command: it leads to a state satisfying J, and its trace records at most b *)
Definition okb (b : N) (s : state) (r : state * list op * outcome) : Prop :=
  leads s (snd (fst r)) (fst (fst r)) /\ forallb (opb b) (snd (fst r)) = true.

Lemma okb_skip : forall b s oc, J s -> okb b s (s, [], oc).
Proof. intros b s oc HJ. split; [apply leads_nil, HJ | reflexivity]. Qed.

Lemma okb_commit : forall ord s i, ord_ok ord -> J s -> okb i s (do_cmd ord s (CCommit i)).
Proof.
  intros ord s i HO HJ. destruct (do_cmd ord s (CCommit i)) as [[t tr] oc] eqn:E.
  split; [apply (cmd_ok _ _ _ _ _ _ HO (fun X : is_shrink (CCommit i) => match X with end) HJ E)|].
  apply (forallb_incl _ _ (flagfile_ops (DGen i) FMeta i ++ (finalize_pre (DGen i) i ++ rmdir_ops (DGen i) ++
           finalize_rename (DGen i) i ++ commit_tail i))) ; [|rewrite commit_tail_order; simpl; rewrite N.eqb_refl; reflexivity].
  cbn [do_cmd] in E. destruct (i =? 0); [inversion E; subst; intros o []|].
  revert E. apply seq_incl. intros s1 tr2. apply finalize_incl.
Qed.

Lemma okb_compact : forall ord s j b, ord_ok ord -> J s -> okb b s (do_cmd ord s (CCompact j)).
Proof.
  intros ord s j b HO HJ. destruct (do_cmd ord s (CCompact j)) as [[t tr] oc] eqn:E.
  split; [apply (cmd_ok _ _ _ _ _ _ HO (fun X : is_shrink (CCompact j) => match X with end) HJ E)|].
  apply (forallb_incl _ _ (rmdir_ops (DFinal j))); [|reflexivity].
  cbn [do_cmd] in E. destruct (st_rec s <=? j); [inversion E; subst; intros o []|]. apply (fin_incl _ _ _ _ _ E).
Qed.

Lemma ondisk_save_restartable_proved : forall s lr ap k,
  dummy_ok -> J (ds_st s) ->
  (st_rec (ds_st s) = 0 \/ FullAt (st_rec (ds_st s)) (ds_st s) \/ st_rec (ds_st s) <= ds_smd s) ->
  let '(_, tr, _) := cmd_save_ondisk s lr ap in
  restart_okb (dstep (drun s (firstn k tr)) (DBase OCrash)) = true.
Proof.
  intros [st v d] lr ap k DOK HJ H0. cbn [ds_st ds_smd ds_smv] in *.
  assert (BASE : restart_okb (dstep (mkDS st v d) (DBase OCrash)) = true) by (apply crash_ok; [apply HJ | exact H0]).
  unfold cmd_save_ondisk. cbn [ds_st ds_smd ds_smv].
  destruct (negb (ap =? 0) && (st_rec st <? ap) && (ap =? v)) eqn:PRE; [|destruct k; exact BASE].
  apply andb_true_iff in PRE as [PRE P3]. apply andb_true_iff in PRE as [_ P2].
  apply N.eqb_eq in P3. subst v. apply N.ltb_lt in P2.
  pose proof (fun l : list dname => Permutation_refl l) as OK.
  destruct (exec st (save_ops_body ap [T_DUMMY])) as [[st1 tr1] ok1] eqn:E1.
  destruct (cmd_save_body st ap [T_DUMMY] st1 tr1 (if ok1 then Done else Failed) DOK HJ) as (A1 & R1 & J1);
    [rewrite E1; reflexivity|].
  (* Commit, when the save succeeded; then Compact of the snapshot the LogReader held *)
  assert (S2 : okb ap st1 (if ok1 then do_cmd (fun l => l) st1 (CCommit ap) else (st1, [], Failed)))
    by (destruct ok1; [apply okb_commit | apply okb_skip]; auto).
  destruct (if ok1 then _ else _) as [[st2 tr2] oc2]. destruct S2 as ((A2 & R2 & J2) & B2). cbn [fst snd] in *.
  assert (S3 : okb ap st2 (match oc2 with
            | Done => if negb (lr =? 0) && (lr <? ap) then do_cmd (fun l => l) st2 (CCompact lr) else (st2, [], Done)
            | _ => (st2, [], Done) end))
    by (destruct oc2; try (apply okb_skip, J2); destruct (negb (lr =? 0) && (lr <? ap)); [apply okb_compact | apply okb_skip]; auto).
  destruct (match oc2 with Done => _ | _ => _ end) as [[st3 tr3] oc3]. destruct S3 as ((A3 & _) & B3). cbn [fst snd] in *.
  change ondisk_save_syncs with true. cbn [app].
  destruct k as [|k]; [exact BASE|]. cbn [firstn]. rewrite firstn_map.
  change (drun (mkDS st ap d) (DSmSync :: ?l)) with (drun (mkDS st ap ap) l).
  apply synced_cuts; [apply HJ | | | lia].
  - apply allowed_run_app; split; auto. rewrite <- R1. apply allowed_run_app; split; auto. rewrite <- R2. exact A3.
  - rewrite !forallb_app, B2, B3, (forallb_incl _ _ _ (exec_incl _ _ _ _ _ E1)); reflexivity.
Qed.

(* after any crash cut of any command sequence and the start-up cleanup, the
   recorded snapshot file read by the restarting replica is complete *)
Lemma restart_reads_recorded : forall ord cs k,
  ord_ok ord -> (Exists is_shrink cs -> shrunk_ok) ->
  let s := run init (firstn k (snd (do_cmds ord init cs))) in
  exists u tr, process_orphans ord (run s [OCrash]) = (u, tr, true) /\ st_rec u = st_rec s /\
    (st_rec s <> 0 ->
     exists d, read_file (DFinal (st_rec u)) (FSnap (st_rec u)) (st_fs u) = Some d /\ Vok d = true).
Proof.
  intros ord cs k HO HSK s.
  destruct (cleanup_after_crash ord s HO (guarded_good _ k (trace_allowed ord cs HO HSK))) as [u [tr (P1 & _ & GU & P4)]].
  exists u, tr. split; auto. split; auto. intros NZ. apply read_recorded; auto. congruence.
Qed.

Lemma gen_ok_writeat : forall i n off d l, n <> FSnap i -> gen_ok i l -> gen_ok i (fl_writeat n off d l).
Proof.
  intros i n off d l NE G. apply gen_ok_held in G as [N F]. apply gen_ok_held.
  split; [apply (named_local _ n (FWriteAt (DFinal i) n off d)); auto; reflexivity|].
  revert F. apply Forall_map_same. intros f _. apply (held_set_vd _ _ n (overwrite off d)), NE.
Qed.

Lemma exec_allowed_static : forall ops s u tr ok,
  Forall static_ok ops -> exec s ops = (u, tr, ok) -> allowed_run s tr.
Proof.
  intros ops s u tr ok H E. destruct (exec_prefix _ _ _ _ _ E) as [rest ->].
  apply allowed_run_static. apply Forall_app in H. tauto.
Qed.

End Validity.

(* any complete file, shrunk and metadata-only ones included *)
Lemma vs_hv1 : forall d, valid_snap d = true -> valid_snap d = true.
Proof. auto. Qed.
Lemma vs_hv2 : forall n, valid_snap (T_HDR :: repeat T_BODY n ++ [T_TAIL]) = true.
Proof. intros. apply valid_writer. Qed.
Lemma vs_shrunk : shrunk_ok valid_snap.
Proof. reflexivity. Qed.
Lemma vs_dummy : dummy_ok valid_snap.
Proof. reflexivity. Qed.

(* complete files that carry the state machine's image *)
Lemma fs_hv1 : forall d, full_snap d = true -> valid_snap d = true.
Proof. intros d H. unfold full_snap in H. apply andb_true_iff in H. tauto. Qed.

Lemma fs_hv2 : forall n, full_snap (T_HDR :: repeat T_BODY n ++ [T_TAIL]) = true.
Proof.
  intros n. unfold full_snap. rewrite valid_writer. simpl.
  destruct n as [|[|[|n]]]; reflexivity.
Qed.

(* a regular state machine comes back at the recorded (= acknowledged) snapshot *)
Lemma restart_state_ge_recorded_proved : forall ord cs k sv sd,
  ord_ok ord -> ~ Exists is_shrink cs ->
  let s := run init (firstn k (snd (do_cmds ord init cs))) in
  exists u tr, process_orphans ord (run s [OCrash]) = (u, tr, true) /\ st_rec u = st_rec s /\
    exists t ops, init_recover_reg (mkDS u sv sd) = (t, ops, Done) /\
                  ds_st t = u /\ (st_rec s <> 0 -> ds_smv t = st_rec s).
Proof.
  intros ord cs k sv sd HO NS s.
  destruct (restart_reads_recorded full_snap fs_hv1 fs_hv2 ord cs k HO (fun X => match NS X with end))
    as [u [tr (P1 & P2 & P3)]]. fold s in P1, P2, P3.
  exists u, tr. split; auto. split; auto. unfold init_recover_reg, recorded_file. cbn [ds_st].
  destruct (st_rec u =? 0) eqn:Z.
  - apply N.eqb_eq in Z. exists (mkDS u sv sd), []. repeat split; auto. intros NZ. congruence.
  - apply N.eqb_neq in Z. assert (NZ : st_rec s <> 0) by congruence.
    destruct (P3 NZ) as [d [RF FU]]. rewrite RF, FU.
    eexists. eexists. split; [reflexivity|]. split; [reflexivity|]. intros _. simpl. exact P2.
Qed.
