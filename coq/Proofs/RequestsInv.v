(* The main invariant of Model/Requests.v (property C12).
   Heap: [HI] ties the channels of every object to what its owner got; [ok_slot] is a slot that may
   still be notified. A heap update is an event for the owner of an ok slot ([push]), one no ok slot
   notices ([quiet]), or a free object installed for a new request ([HI_install]).
   Tables: [live] is everything still referenced, [LI] says it is ok; a step rewrites the heap and
   at most one table ([touches]); what it does to the references is [EF]. *)
From Coq Require Import NArith List Bool Lia Permutation.
From DB Require Import Proofs.ListFacts Gen.GenC12 Model.Requests Proofs.Requests.
Import ListNotations.
Open Scope N_scope.

Definition shape (l : list ev) : Prop :=
  match map is_committed l with
  | [] | [true] | [false] | [true; false] => True
  | _ => False
  end.

Lemma nterm_app : forall a b, nterm (a ++ b) = (nterm a + nterm b)%nat.
Proof. intros. unfold nterm. rewrite filter_app, app_length. reflexivity. Qed.
Lemma ncomm_app : forall a b, ncomm (a ++ b) = (ncomm a + ncomm b)%nat.
Proof. intros. unfold ncomm. rewrite filter_app, app_length. reflexivity. Qed.

(* [shape], [nterm] and [ncomm] look at the list of is_committed flags only *)
Lemma shape_inv : forall l, shape l -> let bs := map is_committed l in
  bs = [] \/ bs = [true] \/ bs = [false] \/ bs = [true; false].
Proof.
  intros l. unfold shape. destruct (map is_committed l) as [|[] [|[] [|? ?]]]; intros Hs; auto; contradiction.
Qed.
Lemma count_flags : forall l, nterm l = length (filter negb (map is_committed l)) /\
                              ncomm l = length (filter (fun b => b) (map is_committed l)).
Proof.
  unfold nterm, ncomm, is_term. induction l as [|e l [IH1 IH2]]; [split; reflexivity|]. cbn.
  destruct (is_committed e); cbn; rewrite IH1, IH2; split; reflexivity.
Qed.

Lemma shape_nterm_le1 : forall l, shape l -> (nterm l <= 1)%nat.
Proof.
  intros l Hs. rewrite (proj1 (count_flags l)). destruct (shape_inv l Hs) as [E|[E|[E|E]]]; rewrite E; cbn; lia.
Qed.
Lemma shape_ncomm_le1 : forall l, shape l -> (ncomm l <= 1)%nat.
Proof.
  intros l Hs. rewrite (proj2 (count_flags l)). destruct (shape_inv l Hs) as [E|[E|[E|E]]]; rewrite E; cbn; lia.
Qed.
Lemma shape_add_term : forall l e, shape l -> nterm l = 0%nat -> is_term e = true -> shape (l ++ [e]).
Proof.
  intros l e Hs Hn He. apply negb_true_iff in He. rewrite (proj1 (count_flags l)) in Hn.
  unfold shape. rewrite map_app. cbn [map]. rewrite He.
  destruct (shape_inv l Hs) as [E|[E|[E|E]]]; rewrite E in *; try discriminate Hn; exact I.
Qed.
Lemma shape_add_comm : forall l e, shape l -> nterm l = 0%nat -> ncomm l = 0%nat -> is_committed e = true -> shape (l ++ [e]).
Proof.
  intros l e Hs Hn Hc He. rewrite (proj1 (count_flags l)) in Hn. rewrite (proj2 (count_flags l)) in Hc.
  unfold shape. rewrite map_app. cbn [map]. rewrite He.
  destruct (shape_inv l Hs) as [E|[E|[E|E]]]; rewrite E in *; try discriminate Hn; try discriminate Hc; exact I.
Qed.
(* nothing is delivered before a Committed notification *)
Lemma shape_committed_first : forall l a b e, shape l -> l = a ++ e :: b -> is_committed e = true -> a = [].
Proof.
  intros l a b e Hs -> He. apply shape_inv in Hs. cbv zeta in Hs. rewrite map_app in Hs. cbn [map] in Hs. rewrite He in Hs.
  destruct a as [|x a]; [reflexivity|]. exfalso. cbn in Hs.
  destruct Hs as [E|[E|[E|E]]]; try discriminate E; injection E as _ E;
    destruct (map is_committed a) as [|c [|d l']]; discriminate E.
Qed.

Record HI (h : heap) : Prop := mkHI {
  hi_shape : forall r, shape (hgot h r);
  hi_to : forall r e, In e (hgot h r) -> e_to e = r;
  hi_comp : forall o, o < h_nobj h -> (o_comp (h_objs h o) <> [] \/ o_rtr (h_objs h o) = true) ->
            nterm (hgot h (o_owner (h_objs h o))) <> 0%nat;
  hi_comm : forall o, o < h_nobj h -> o_comm (h_objs h o) <> [] ->
            ncomm (hgot h (o_owner (h_objs h o))) <> 0%nat;
  hi_nc : forall o, o < h_nobj h -> o_nc (h_objs h o) = true -> o_hascomm (h_objs h o) = true;
  hi_pool : forall o, In o (h_pool h) ->
            o < h_nobj h /\ r_rel (h_reqs h (o_owner (h_objs h o))) = true /\ o_rtr (h_objs h o) = false;
  hi_pool_nd : NoDup (h_pool h);
  hi_own : forall r, r < h_nreq h -> r_rel (h_reqs h r) = false ->
           o_owner (h_objs h (r_obj (h_reqs h r))) = r /\ r_obj (h_reqs h r) < h_nobj h;
  hi_owner_lt : forall o, o < h_nobj h -> o_owner (h_objs h o) < h_nreq h }.

Definition ok_slot (h : heap) (sl : slot) : Prop :=
  sr sl < h_nreq h /\ so sl < h_nobj h /\ o_owner (h_objs h (so sl)) = sr sl /\
  r_obj (h_reqs h (sr sl)) = so sl /\ nterm (hgot h (sr sl)) = 0%nat /\ r_rel (h_reqs h (sr sl)) = false.

Lemma ok_obj_lt : forall h x, ok_slot h x -> so x < h_nobj h.
Proof. intros h x Hx. apply Hx. Qed.
Lemma ok_owner : forall h x, ok_slot h x -> o_owner (h_objs h (so x)) = sr x.
Proof. intros h x Hx. apply Hx. Qed.
Lemma ok_fresh : forall h x, ok_slot h x -> nterm (hgot h (sr x)) = 0%nat.
Proof. intros h x Hx. apply Hx. Qed.
Lemma ok_held : forall h x, ok_slot h x -> r_rel (h_reqs h (sr x)) = false.
Proof. intros h x Hx. apply Hx. Qed.
Lemma ok_slot_comp_empty : forall h sl, HI h -> ok_slot h sl ->
  o_comp (h_objs h (so sl)) = [] /\ o_rtr (h_objs h (so sl)) = false.
Proof.
  intros h sl Hi (A & B & C & D & E & F).
  pose proof (hi_comp h Hi (so sl) B) as Hc. rewrite C in Hc.
  destruct (o_comp (h_objs h (so sl))) eqn:E1; destruct (o_rtr (h_objs h (so sl))) eqn:E2; auto;
    exfalso; apply Hc; auto; left; discriminate.
Qed.
Lemma ok_slot_inj : forall h x y, ok_slot h x -> ok_slot h y -> so x = so y -> sr x = sr y.
Proof. intros h x y Hx Hy E. rewrite <- (ok_owner h x Hx), <- (ok_owner h y Hy), E. reflexivity. Qed.

Lemma nterm_snoc : forall l e, nterm (l ++ [e]) = (nterm l + if is_term e then 1 else 0)%nat.
Proof. intros. rewrite nterm_app. unfold nterm at 2. cbn. destruct (is_term e); reflexivity. Qed.
Lemma ncomm_snoc : forall l e, ncomm (l ++ [e]) = (ncomm l + if is_committed e then 1 else 0)%nat.
Proof. intros. rewrite ncomm_app. unfold ncomm at 2. cbn. destruct (is_committed e); reflexivity. Qed.

Definition terminal (f : obj -> res) : Prop := forall o, rc (f o) =? cCommitted = false.

(* what [finish_heap] promises of the heap after notifications; the lemmas below read the panic
   flag, h_nreq and the request part of it *)
Definition frame (h h' : heap) : Prop :=
  h_err h' = 0 /\ h_broken h' = h_broken h /\ h_clock h' = h_clock h /\ h_nreq h' = h_nreq h /\
  h_nobj h' = h_nobj h /\ h_pool h' = h_pool h /\
  (forall r, r_status (h_reqs h' r) = r_status (h_reqs h r) /\ r_kind (h_reqs h' r) = r_kind (h_reqs h r) /\
             r_key (h_reqs h' r) = r_key (h_reqs h r)) /\
  (forall o, o_dl (h_objs h' o) = o_dl (h_objs h o) /\ o_key (h_objs h' o) = o_key (h_objs h o) /\
             o_cid (h_objs h' o) = o_cid (h_objs h o) /\ o_sid (h_objs h' o) = o_sid (h_objs h o)).

Lemma frame_refl : forall h, h_err h = 0 -> frame h h.
Proof. intros h He. unfold frame. repeat split; auto. Qed.
Lemma frame_trans : forall a b c, frame a b -> frame b c -> frame a c.
Proof.
  intros a b c (A1 & A2 & A3 & A4 & A5 & A6 & A7 & A8) (B1 & B2 & B3 & B4 & B5 & B6 & B7 & B8).
  unfold frame. repeat (split; [congruence|]). split.
  - intros r. destruct (A7 r) as (X & Y & Z), (B7 r) as (X' & Y' & Z'). repeat split; congruence.
  - intros o. destruct (A8 o) as (X & Y & Z & W), (B8 o) as (X' & Y' & Z' & W'). repeat split; congruence.
Qed.

(* Both kinds of notification have this shape: the object of a referenced slot gets its channels
   rewritten by [g], and the request that owns it one more event. *)
Definition push (h : heap) (x : slot) (g : obj -> obj) (e : ev) : heap :=
  updR (updO h (so x) g) (sr x) (fun q => r_add_got q e).

Lemma hgot_push : forall h x g e r, hgot (push h x g e) r = if r =? sr x then hgot h r ++ [e] else hgot h r.
Proof.
  intros. unfold push. rewrite hgot_updR. destruct (r =? sr x) eqn:E; [|reflexivity].
  apply N.eqb_eq in E. subst r. reflexivity.
Qed.

Lemma frame_push : forall h x g e, h_err h = 0 ->
  (forall o, o_dl (g o) = o_dl o /\ o_key (g o) = o_key o /\ o_cid (g o) = o_cid o /\ o_sid (g o) = o_sid o) ->
  frame h (push h x g e).
Proof.
  intros h x g e He Hg. unfold frame, push. cbn. repeat (split; [assumption || reflexivity|]). split.
  - intros r. destruct (r =? sr x) eqn:E; [apply N.eqb_eq in E; subst r|]; repeat split; reflexivity.
  - intros o. destruct (o =? so x) eqn:E; [apply N.eqb_eq in E; subst o; apply Hg|]; repeat split; reflexivity.
Qed.

(* the two updates that keep who owns what: a request gets events (and may be released), an
   object's channels are rewritten *)
Lemma HI_updR : forall h r f l, HI h ->
  (forall q, r_got (f q) = r_got q ++ l /\ (r_rel q = true -> r_rel (f q) = true) /\ r_obj (f q) = r_obj q) ->
  shape (hgot h r ++ l) -> (forall e, In e l -> e_to e = r) ->
  HI (updR h r f) /\
  (forall y, ok_slot h y -> (sr y = r -> nterm l = 0%nat /\ r_rel (f (h_reqs h r)) = false) -> ok_slot (updR h r f) y).
Proof.
  intros h r f l Hi Hf Hsh Hto.
  assert (Hq : forall x, h_reqs (updR h r f) x = if x =? r then f (h_reqs h r) else h_reqs h x) by reflexivity.
  assert (Hg : forall x, hgot (updR h r f) x = if x =? r then hgot h r ++ l else hgot h x).
  { intros x. rewrite hgot_updR. destruct (x =? r); [apply Hf | reflexivity]. }
  assert (Hro : forall x, r_obj (h_reqs (updR h r f) x) = r_obj (h_reqs h x)).
  { intros x. rewrite Hq. destruct (x =? r) eqn:E; [apply N.eqb_eq in E; subst x; apply Hf | reflexivity]. }
  assert (Hrl : forall x, r_rel (h_reqs h x) = true -> r_rel (h_reqs (updR h r f) x) = true).
  { intros x. rewrite Hq. destruct (x =? r) eqn:E; [apply N.eqb_eq in E; subst x; apply Hf | auto]. }
  assert (Hnt : forall x, nterm (hgot h x) <> 0%nat -> nterm (hgot (updR h r f) x) <> 0%nat).
  { intros x Hx. rewrite Hg. destruct (x =? r) eqn:E; [apply N.eqb_eq in E; subst x; rewrite nterm_app; lia | exact Hx]. }
  assert (Hnc : forall x, ncomm (hgot h x) <> 0%nat -> ncomm (hgot (updR h r f) x) <> 0%nat).
  { intros x Hx. rewrite Hg. destruct (x =? r) eqn:E; [apply N.eqb_eq in E; subst x; rewrite ncomm_app; lia | exact Hx]. }
  split.
  - constructor.
    + intros x. rewrite Hg. destruct (x =? r); [exact Hsh | apply Hi].
    + intros x e. rewrite Hg. destruct (x =? r) eqn:E; [|apply Hi]. apply N.eqb_eq in E. subst x.
      intros Hin. apply in_app_or in Hin. destruct Hin as [Hin|Hin]; [apply Hi | apply Hto]; exact Hin.
    + intros o Ho Hp. apply Hnt. exact (hi_comp h Hi o Ho Hp).
    + intros o Ho Hp. apply Hnc. exact (hi_comm h Hi o Ho Hp).
    + apply Hi.
    + intros o Hin. destruct (hi_pool h Hi o Hin) as (Q1 & Q2 & Q3). repeat split; auto.
    + apply Hi.
    + intros x Hx Hf'. rewrite Hro. apply (hi_own h Hi x Hx). destruct (r_rel (h_reqs h x)) eqn:E; [|reflexivity].
      apply Hrl in E. congruence.
    + apply Hi.
  - intros y (A & B & C & D & E & F) Hy. unfold ok_slot. rewrite Hro, Hg, Hq. repeat split; auto;
      (destruct (sr y =? r) eqn:Ey; [apply N.eqb_eq in Ey; destruct (Hy Ey) as [Y1 Y2] | assumption]).
    + rewrite nterm_app, Y1, <- Ey, E. reflexivity.
    + exact Y2.
Qed.
Lemma HI_updR_same : forall h r f,
  (forall q, r_got (f q) = r_got q /\ r_rel (f q) = r_rel q /\ r_obj (f q) = r_obj q) ->
  HI h -> HI (updR h r f) /\ (forall y, ok_slot h y -> ok_slot (updR h r f) y).
Proof.
  intros h r f Hf Hi. destruct (HI_updR h r f [] Hi) as [Hi' Hok].
  - intros q. rewrite app_nil_r. destruct (Hf q) as (A & B & C). repeat split; auto. congruence.
  - rewrite app_nil_r. apply Hi.
  - intros e [].
  - split; [exact Hi'|]. intros y Hy. apply Hok; [exact Hy|]. intros <-. split; [reflexivity|].
    rewrite (proj1 (proj2 (Hf _))). apply Hy.
Qed.

Lemma HI_updO : forall h o g, HI h -> let ob := h_objs h o in
  o_owner (g ob) = o_owner ob ->
  (o < h_nobj h -> o_nc (g ob) = true -> o_hascomm (g ob) = true) ->
  (o < h_nobj h -> o_comp (g ob) <> [] \/ o_rtr (g ob) = true -> nterm (hgot h (o_owner ob)) <> 0%nat) ->
  (o < h_nobj h -> o_comm (g ob) <> [] -> ncomm (hgot h (o_owner ob)) <> 0%nat) ->
  (In o (h_pool h) -> o_rtr (g ob) = false) ->
  HI (updO h o g) /\ (forall y, ok_slot h y -> ok_slot (updO h o g) y).
Proof.
  intros h o g Hi ob Go Gn Gp Gm Gr.
  assert (Hobj : forall x, h_objs (updO h o g) x = if x =? o then g ob else h_objs h x) by reflexivity.
  assert (Hown : forall x, o_owner (h_objs (updO h o g) x) = o_owner (h_objs h x)).
  { intros x. rewrite Hobj. destruct (x =? o) eqn:E; [apply N.eqb_eq in E; subst x; exact Go | reflexivity]. }
  split.
  - constructor; try apply Hi.
    + intros x Hx. rewrite Hown, Hobj. destruct (x =? o) eqn:E; [apply N.eqb_eq in E; subst x; apply Gp, Hx | apply (hi_comp h Hi x Hx)].
    + intros x Hx. rewrite Hown, Hobj. destruct (x =? o) eqn:E; [apply N.eqb_eq in E; subst x; apply Gm, Hx | apply (hi_comm h Hi x Hx)].
    + intros x Hx. rewrite Hobj. destruct (x =? o) eqn:E; [apply N.eqb_eq in E; subst x; apply Gn, Hx | apply (hi_nc h Hi x Hx)].
    + intros x Hin. destruct (hi_pool h Hi x Hin) as (Q1 & Q2 & Q3). rewrite Hown, Hobj. repeat split; auto.
      destruct (x =? o) eqn:E; [apply N.eqb_eq in E; subst x; apply Gr, Hin | exact Q3].
    + intros r Hr Hrel. rewrite Hown. apply (hi_own h Hi r Hr Hrel).
    + intros x Hx. rewrite Hown. apply (hi_owner_lt h Hi x Hx).
  - intros y (A & B & C & D & E & F). unfold ok_slot. rewrite Hown. repeat split; auto.
Qed.

Lemma HI_push : forall h x g e, HI h -> ok_slot h x ->
  let ob := h_objs h (so x) in
  o_owner (g ob) = o_owner ob -> o_nc (g ob) = o_nc ob -> o_hascomm (g ob) = o_hascomm ob ->
  e_to e = sr x -> shape (hgot h (sr x) ++ [e]) ->
  (o_comp (g ob) <> [] \/ o_rtr (g ob) = true -> nterm (hgot h (sr x) ++ [e]) <> 0%nat) ->
  (o_comm (g ob) <> [] -> ncomm (hgot h (sr x) ++ [e]) <> 0%nat) ->
  HI (push h x g e) /\
  (forall y, ok_slot h y -> (sr y = sr x -> is_term e = false) -> ok_slot (push h x g e) y).
Proof.
  intros h x g e Hi Hx ob Go Gn Gh Hto Hsh Hcp Hcm. pose proof Hx as (A & B & C & D & E & F).
  destruct (HI_updR h (sr x) (fun q => r_add_got q e) [e] Hi) as [Hi1 Hok1];
    [intros q; cbn; auto | exact Hsh | intros e0 [<-|[]]; exact Hto |].
  assert (Hg : hgot (updR h (sr x) (fun q => r_add_got q e)) (o_owner ob) = hgot h (sr x) ++ [e]).
  { unfold ob. rewrite C, hgot_updR, N.eqb_refl. reflexivity. }
  destruct (HI_updO (updR h (sr x) (fun q => r_add_got q e)) (so x) g Hi1) as [Hi2 Hok2].
  - exact Go.
  - intros _. change (o_nc (g ob) = true -> o_hascomm (g ob) = true). rewrite Gn, Gh. apply (hi_nc h Hi (so x) B).
  - intros _ Hp. change (nterm (hgot (updR h (sr x) (fun q => r_add_got q e)) (o_owner ob)) <> 0%nat). rewrite Hg. exact (Hcp Hp).
  - intros _ Hp. change (ncomm (hgot (updR h (sr x) (fun q => r_add_got q e)) (o_owner ob)) <> 0%nat). rewrite Hg. exact (Hcm Hp).
  - intros Hin. destruct (hi_pool h Hi (so x) Hin) as (_ & P2 & _). rewrite C in P2. congruence.
  - split; [exact Hi2|]. intros y Hy Hyt. apply Hok2, Hok1; [exact Hy|]. intros Ey. split; [|exact F].
    unfold nterm. cbn. rewrite (Hyt Ey). reflexivity.
Qed.

Lemma notifyf_ok : forall sc f h x, HI h -> h_err h = 0 -> ok_slot h x -> terminal f ->
  let h' := notifyf sc f h x in
  HI h' /\ frame h h' /\ (forall y, ok_slot h y -> sr y <> sr x -> ok_slot h' y) /\
  nterm (hgot h' (sr x)) = 1%nat /\ (forall r, r <> sr x -> h_reqs h' r = h_reqs h r).
Proof.
  intros sc f h x Hi He Hx Hf. destruct (ok_slot_comp_empty h x Hi Hx) as [Hc _].
  set (e := mkEv (f (h_objs h (so x))) (sr x) (sc (h_objs h (so x)))).
  assert (Eq : notifyf sc f h x = push h x (fun o => o_notified o (f o)) e).
  { unfold notifyf. rewrite He, Hc, (ok_owner h x Hx). reflexivity. }
  cbv zeta. rewrite Eq.
  assert (Het : is_term e = true) by (unfold is_term, is_committed; cbn; rewrite Hf; reflexivity).
  pose proof (ok_obj_lt h x Hx) as B. pose proof (ok_owner h x Hx) as C. pose proof (ok_fresh h x Hx) as E.
  destruct (HI_push h x (fun o => o_notified o (f o)) e Hi Hx) as [Hi' Hok]; try reflexivity.
  - apply shape_add_term; [apply Hi | exact E | exact Het].
  - intros _. rewrite nterm_snoc, Het. lia.
  - intros Hp. rewrite ncomm_app, <- C. pose proof (hi_comm h Hi (so x) B Hp). lia.
  - split; [exact Hi'|]. split; [apply frame_push; [exact He | repeat split]|]. split; [|split].
    + intros y Hy Hne. apply Hok; [exact Hy | contradiction].
    + rewrite hgot_push, N.eqb_refl, nterm_snoc, E, Het. reflexivity.
    + intros r Hr. apply N.eqb_neq in Hr. cbn. rewrite Hr. reflexivity.
Qed.

(* heap updates that no reference notices *)
Definition quiet (h h' : heap) : Prop :=
  HI h' /\ (forall y, ok_slot h y -> ok_slot h' y) /\ h_nreq h' = h_nreq h /\
  (forall r, nterm (hgot h' r) = nterm (hgot h r) /\ r_key (h_reqs h' r) = r_key (h_reqs h r) /\
             r_status (h_reqs h' r) = r_status (h_reqs h r)).
Lemma has_committed_false : forall l, has_committed l = false -> ncomm l = 0%nat.
Proof.
  induction l as [|e l IH]; [reflexivity|]. unfold has_committed, ncomm in *. cbn.
  fold (is_committed e). destruct (is_committed e); cbn; [discriminate | exact IH].
Qed.

Lemma quiet_commit : forall h x, HI h -> h_err h = 0 -> ok_slot h x ->
  h_err (notify_commit h x) = 0 -> h_broken (notify_commit h x) = false -> quiet h (notify_commit h x).
Proof.
  intros h x Hi He Hx. pose proof (ok_obj_lt h x Hx) as B. pose proof (ok_owner h x Hx) as C. pose proof (ok_fresh h x Hx) as E.
  set (e := mkEv (mkRes cCommitted 0 0) (sr x) SCommit).
  unfold notify_commit. rewrite He. cbn [N.eqb negb].
  destruct (o_nc (h_objs h (so x))); cbn [negb]; [|cbn; discriminate].
  destruct (o_hascomm (h_objs h (so x))); cbn [negb]; [|cbn; discriminate].
  destruct (o_comm (h_objs h (so x))) eqn:Ecm; [|cbn; discriminate].
  rewrite C. destruct (has_committed (r_got (h_reqs h (sr x)))) eqn:Ehas; [cbn; discriminate|].
  apply has_committed_false in Ehas. fold (hgot h (sr x)) in Ehas.
  intros _ _. change (quiet h (push h x (fun o => o_committed o (mkRes cCommitted 0 0)) e)).
  destruct (HI_push h x (fun o => o_committed o (mkRes cCommitted 0 0)) e Hi Hx) as [Hi' Hok]; try reflexivity.
  - apply shape_add_comm; [apply Hi | exact E | exact Ehas | reflexivity].
  - intros Hp. rewrite nterm_app, <- C. pose proof (hi_comp h Hi (so x) B Hp). lia.
  - intros _. rewrite ncomm_snoc. cbn. lia.
  - split; [exact Hi'|]. split; [intros y Hy; apply Hok; [exact Hy | reflexivity]|]. split; [reflexivity|].
    intros r. rewrite hgot_push. cbn. destruct (r =? sr x) eqn:Er; [apply N.eqb_eq in Er; subst r; rewrite nterm_snoc|]; cbn; auto.
Qed.

Lemma quiet_ext : forall h h', h_objs h' = h_objs h -> h_reqs h' = h_reqs h -> h_nobj h' = h_nobj h ->
  h_nreq h' = h_nreq h -> h_pool h' = h_pool h -> HI h -> quiet h h'.
Proof.
  intros h h' E1 E2 E3 E4 E5 Hi. split; [constructor; unfold hgot; rewrite ?E1, ?E2, ?E3, ?E4, ?E5; apply Hi|].
  split; [intros y; unfold ok_slot, hgot; rewrite E1, E2, E3, E4; auto|]. split; [exact E4|].
  intros r. unfold hgot. rewrite E2. auto.
Qed.
Lemma quiet_drain : forall h o, HI h -> quiet h (updO h o o_drained).
Proof.
  intros h o Hi. destruct (HI_updO h o o_drained Hi) as [Hi' Hok]; try reflexivity.
  - apply (hi_nc h Hi).
  - intros Ho [X|X]; [contradiction | apply (hi_comp h Hi o Ho); auto].
  - intros _ X. contradiction.
  - apply (hi_pool h Hi).
  - split; [exact Hi'|]. split; [exact Hok|]. repeat split.
Qed.
Lemma HI_set_pool : forall h p, HI h -> NoDup p ->
  (forall o, In o p -> o < h_nobj h /\ r_rel (h_reqs h (o_owner (h_objs h o))) = true /\ o_rtr (h_objs h o) = false) ->
  HI (set_pool h p).
Proof. intros h p Hi Hn Hp. constructor; try apply Hi; assumption. Qed.

(* RequestState.Release of a request that has its result: the object goes to the pool *)
Lemma quiet_release : forall h i, HI h -> i < h_nreq h -> r_rel (h_reqs h i) = false ->
  o_rtr (h_objs h (r_obj (h_reqs h i))) = true ->
  quiet h (set_pool (updR (updO h (r_obj (h_reqs h i)) o_released) i r_set_rel) (r_obj (h_reqs h i) :: h_pool h)).
Proof.
  intros h i Hi Hlt Hrel Hrtr. destruct (hi_own h Hi i Hlt Hrel) as [Hown Hob]. set (o := r_obj (h_reqs h i)) in *.
  assert (Hnt : nterm (hgot h i) <> 0%nat) by (rewrite <- Hown; apply (hi_comp h Hi o Hob); auto).
  destruct (HI_updO h o o_released Hi) as [Hi1 Hok1]; try reflexivity; try discriminate.
  { intros Ho [X|X]; [apply (hi_comp h Hi o Ho); auto | discriminate X]. }
  { apply (hi_comm h Hi). }
  destruct (HI_updR (updO h o o_released) i r_set_rel [] Hi1) as [Hi2 Hok2];
    [intros q; rewrite app_nil_r; cbn; auto | rewrite app_nil_r; apply Hi | intros e []|].
  set (h2 := updR _ i r_set_rel) in *.
  assert (Hoi : forall x, o_owner (h_objs h2 x) = i -> r_rel (h_reqs h2 (o_owner (h_objs h2 x))) = true).
  { intros x ->. cbn. rewrite N.eqb_refl. reflexivity. }
  split; [|split; [|split; [reflexivity|]]].
  - apply HI_set_pool; [exact Hi2 | |].
    + constructor; [|apply Hi]. intros Hin. destruct (hi_pool h Hi o Hin) as (_ & Q2 & _). rewrite Hown in Q2. congruence.
    + intros x [<-|Hx]; [|apply (hi_pool h2 Hi2 x Hx)]. split; [exact Hob|]. split; [apply Hoi|]; cbn; rewrite N.eqb_refl; auto.
  - intros y Hy. apply Hok2; [apply Hok1, Hy|]. intros Ey. apply ok_fresh in Hy. rewrite Ey in Hy. contradiction.
  - intros r. unfold hgot. cbn. destruct (r =? i) eqn:E; [apply N.eqb_eq in E; subst r|]; repeat split; reflexivity.
Qed.
(* pendingReadIndex.applied tags the results of each batch with the batch's index: a sequence of
   notifications is a list of (source, result, slot); elsewhere source and result are the same
   for the whole list ([LX_notified]) *)
Fixpoint nseq (l : list ((obj -> src) * (obj -> res) * slot)) (h : heap) : heap :=
  match l with
  | [] => h
  | (sc, f, x) :: l => nseq l (notifyf sc f h x)
  end.
Lemma nseq_app : forall a b h, nseq (a ++ b) h = nseq b (nseq a h).
Proof. induction a as [|[[sc f] x] a IH]; intros; cbn; [reflexivity | apply IH]. Qed.
Lemma notifyf_all_nseq : forall sc f xs h, notifyf_all sc f h xs = nseq (map (fun x => (sc, f, x)) xs) h.
Proof. intros sc f xs. induction xs as [|x xs IH]; intros h; cbn; [reflexivity | apply IH]. Qed.
Lemma map_snd_triples : forall (sc : obj -> src) (f : obj -> res) (xs : list slot),
  map snd (map (fun x => (sc, f, x)) xs) = xs.
Proof. intros. rewrite map_map. cbn. apply map_id. Qed.
Lemma Forall_triples : forall (sc : obj -> src) (f : obj -> res) (xs : list slot), terminal f ->
  Forall (fun t : (obj -> src) * (obj -> res) * slot => terminal (snd (fst t))) (map (fun x => (sc, f, x)) xs).
Proof. intros sc f xs Hf. apply Forall_forall. intros t Ht. apply in_map_iff in Ht. destruct Ht as (x & <- & _). exact Hf. Qed.

(* notifying distinct referenced slots one after the other: none panics, each gets its one result,
   and what else is referenced stays so *)
Lemma finish_seq : forall l rest h, HI h -> h_err h = 0 ->
  Forall (fun t => terminal (snd (fst t))) l ->
  Forall (ok_slot h) (map snd l ++ rest) -> NoDup (map sr (map snd l ++ rest)) ->
  let h' := nseq l h in
  HI h' /\ frame h h' /\ Forall (ok_slot h') rest /\
  (forall x, In x (map snd l) -> nterm (hgot h' (sr x)) = 1%nat) /\
  (forall r, ~ In r (map sr (map snd l)) -> h_reqs h' r = h_reqs h r).
Proof.
  induction l as [|[[sc f] x] l IH]; intros rest h Hi He Hf Hok Hnd.
  - cbn. split; [exact Hi|]. split; [apply frame_refl; exact He|]. split; [exact Hok|]. split; [intros x []|reflexivity].
  - cbn [nseq]. cbn in Hok, Hnd. inversion Hok as [|? ? Hx Hok']; subst. inversion Hnd as [|? ? Hnx Hnd']; subst.
    inversion Hf as [|? ? Hfx Hf']; subst. cbn in Hfx.
    destruct (notifyf_ok sc f h x Hi He Hx Hfx) as (Hi1 & Hfr1 & Hoth & Hn1 & Hsame).
    assert (Hok1 : Forall (ok_slot (notifyf sc f h x)) (map snd l ++ rest)).
    { rewrite Forall_forall in *. intros y Hy. apply Hoth; [apply Hok'; exact Hy|].
      intros Eq. apply Hnx. rewrite <- Eq. apply in_map. exact Hy. }
    destruct (IH rest (notifyf sc f h x) Hi1 (proj1 Hfr1) Hf' Hok1 Hnd') as (Hi2 & Hfr & Hr2 & Hn2 & Hs2).
    split; [exact Hi2|]. split; [exact (frame_trans _ _ _ Hfr1 Hfr)|]. split; [exact Hr2|]. split.
    + intros y [<-|Hy]; [|apply Hn2; exact Hy].
      unfold hgot. rewrite Hs2; [exact Hn1|].
      intros Hin. apply Hnx. rewrite map_app. apply in_or_app. left. exact Hin.
    + intros r Hr. rewrite Hs2; [apply Hsame|]; intros Eq; apply Hr; cbn; auto.
Qed.

Lemma finish_heap : forall sc f, terminal f -> forall xs rest h, HI h -> h_err h = 0 ->
  Forall (ok_slot h) (xs ++ rest) -> NoDup (map sr (xs ++ rest)) ->
  let h' := notifyf_all sc f h xs in
  HI h' /\ frame h h' /\ Forall (ok_slot h') rest /\
  (forall x, In x xs -> nterm (hgot h' (sr x)) = 1%nat) /\
  (forall r, ~ In r (map sr xs) -> h_reqs h' r = h_reqs h r).
Proof.
  intros sc f Hf xs rest h Hi He Hok Hnd. cbv zeta. rewrite notifyf_all_nseq.
  pose proof (finish_seq (map (fun x => (sc, f, x)) xs) rest h Hi He (Forall_triples sc f xs Hf)) as Hs.
  rewrite map_snd_triples in Hs. exact (Hs Hok Hnd).
Qed.

Lemma remove_nth_split : forall A (l : list A) n x, nth_error l n = Some x ->
  exists l1 l2, l = l1 ++ x :: l2 /\ remove_nth n l = l1 ++ l2.
Proof.
  induction l as [|a l IH]; destruct n; cbn; intros x Hx; try discriminate.
  - inversion Hx; subst. exists [], l. split; reflexivity.
  - destruct (IH n x Hx) as (l1 & l2 & E1 & E2). exists (a :: l1), l2. split; [cbn; rewrite <- E1; reflexivity|].
    unfold remove_nth in *. cbn [firstn app]. rewrite <- E2. reflexivity.
Qed.

(* A free object - in no pool, not held by a request that was not released - is given to the new
   request [q]; it lies below [h_nobj] (reuse) or is the next one (pool.New) *)
Lemma HI_install : forall h o ob q n', HI h -> ~ In o (h_pool h) ->
  (forall r, r < h_nreq h -> r_rel (h_reqs h r) = false -> r_obj (h_reqs h r) <> o) ->
  (n' = h_nobj h /\ o < n') \/ (o = h_nobj h /\ n' = o + 1) ->
  o_owner ob = h_nreq h -> o_comp ob = [] -> o_comm ob = [] -> o_rtr ob = false ->
  (o_nc ob = true -> o_hascomm ob = true) ->
  r_obj q = o -> r_got q = [] -> r_rel q = false ->
  let h' := add_req (set_nobj (updO h o (fun _ => ob)) n') q in
  HI h' /\ ok_slot h' (mkSlot o (h_nreq h)) /\ (forall y, ok_slot h y -> ok_slot h' y).
Proof.
  intros h o ob q n' Hi Hnp Hfree Hn Oo Oc Om Or On Q1 Q2 Q3 h'. set (rid := h_nreq h) in *.
  assert (Ho : o < n') by lia.
  assert (Hlt : forall x, x < n' -> x <> o -> x < h_nobj h) by (intros x; lia).
  assert (Hle' : forall x, x < h_nobj h -> x < n') by (intros x; lia).
  assert (Hs1 : forall x, x < rid -> x < rid + 1 /\ x <> rid) by (intros x; lia).
  assert (Hs0 : rid < rid + 1) by lia.
  clear Hn.
  assert (Hobj : forall x, h_objs h' x = if x =? o then ob else h_objs h x) by reflexivity.
  assert (Hreq : forall r, h_reqs h' r = if r =? rid then q else h_reqs h r) by reflexivity.
  assert (Hn1 : h_nobj h' = n') by reflexivity.
  assert (Hn2 : h_nreq h' = rid + 1) by reflexivity.
  assert (Hn3 : h_pool h' = h_pool h) by reflexivity.
  clearbody h'.
  assert (Hr : forall r, r < rid -> h_reqs h' r = h_reqs h r).
  { intros r Hr. rewrite Hreq. destruct (r =? rid) eqn:E; [apply N.eqb_eq in E; destruct (Hs1 r Hr); contradiction | reflexivity]. }
  assert (Hr0 : h_reqs h' rid = q) by (rewrite Hreq, N.eqb_refl; reflexivity).
  assert (Ho0 : h_objs h' o = ob) by (rewrite Hobj, N.eqb_refl; reflexivity).
  assert (Hox : forall x, x <> o -> h_objs h' x = h_objs h x).
  { intros x Hx. rewrite Hobj. apply N.eqb_neq in Hx. rewrite Hx. reflexivity. }
  assert (Hle : forall x, x < h_nobj h -> x < n' /\ o_owner (h_objs h x) < rid).
  { intros x Hx. split; [apply Hle', Hx | apply (hi_owner_lt h Hi x Hx)]. }
  assert (Hold : forall x, x < n' -> x <> o -> h_objs h' x = h_objs h x /\ x < h_nobj h /\
                   hgot h' (o_owner (h_objs h x)) = hgot h (o_owner (h_objs h x))).
  { intros x Hx Hne. split; [apply Hox, Hne|]. split; [apply Hlt; assumption|]. unfold hgot. rewrite Hr; [reflexivity|].
    apply Hle, Hlt; assumption. }
  split; [|split].
  - constructor; rewrite ?Hn1, ?Hn2, ?Hn3.
    + intros r. unfold hgot. rewrite Hreq. destruct (r =? rid); [rewrite Q2; exact I | apply Hi].
    + intros r e. unfold hgot. rewrite Hreq. destruct (r =? rid); [rewrite Q2; intros [] | apply Hi].
    + intros x Hx. destruct (N.eq_dec x o) as [->|Hne].
      * rewrite Ho0, Oc, Or. intros [X|X]; [contradiction | discriminate].
      * destruct (Hold x Hx Hne) as (E1 & E2 & E3). rewrite E1, E3. apply (hi_comp h Hi x E2).
    + intros x Hx. destruct (N.eq_dec x o) as [->|Hne].
      * rewrite Ho0, Om. intros X. contradiction.
      * destruct (Hold x Hx Hne) as (E1 & E2 & E3). rewrite E1, E3. apply (hi_comm h Hi x E2).
    + intros x Hx. destruct (N.eq_dec x o) as [->|Hne]; [rewrite Ho0; exact On|].
      destruct (Hold x Hx Hne) as (E1 & E2 & _). rewrite E1. apply (hi_nc h Hi x E2).
    + intros x Hin. destruct (hi_pool h Hi x Hin) as (P1 & P2 & P3).
      assert (Hne : x <> o) by (intros ->; contradiction). destruct (Hle x P1) as [L1 L2].
      rewrite (Hox x Hne), (Hr _ L2). auto.
    + apply Hi.
    + intros r Hlt0. rewrite Hreq. destruct (r =? rid) eqn:E.
      * intros _. rewrite Q1, Ho0. split; [rewrite Oo; symmetry; apply N.eqb_eq, E | exact Ho].
      * apply N.eqb_neq in E. assert (Hr1 : r < rid) by (clear - Hlt0 E; lia). intros Hf. destruct (hi_own h Hi r Hr1 Hf) as [O1 O2].
        rewrite (Hox _ (Hfree r Hr1 Hf)). split; [exact O1 | apply Hle, O2].
    + intros x Hx. destruct (N.eq_dec x o) as [->|Hne]; [rewrite Ho0, Oo; exact Hs0|].
      destruct (Hold x Hx Hne) as (E1 & E2 & _). rewrite E1. apply Hs1, Hle, E2.
  - unfold ok_slot, hgot. cbn [so sr]. rewrite Hn1, Hn2, Ho0, Hr0, Q1, Q2. repeat split; auto.
  - intros y (A & B & C & D & E & F). assert (Hne : so y <> o) by (rewrite <- D; apply Hfree; assumption).
    unfold ok_slot, hgot in *. rewrite Hn1, Hn2, (Hox _ Hne), (Hr _ A). repeat split; auto. apply Hs1, A.
Qed.

(* allocation of a request: pool.Get / pool.New + reuse, then the new request record *)
Lemma alloc_ok : forall pick ncf key cid sid dl h q, HI h ->
  let h1 := fst (get_obj pick ncf (h_nreq h) key cid sid dl h) in
  let o := snd (get_obj pick ncf (h_nreq h) key cid sid dl h) in
  r_obj q = o -> r_got q = [] -> r_rel q = false ->
  let h' := add_req h1 q in
  HI h' /\ ok_slot h' (mkSlot o (h_nreq h)) /\ (forall y, ok_slot h y -> ok_slot h' y) /\
  h_nreq h' = h_nreq h + 1 /\ h_reqs h' (h_nreq h) = q /\
  (forall r, r <> h_nreq h -> hgot h' r = hgot h r /\ r_status (h_reqs h' r) = r_status (h_reqs h r) /\
                              r_key (h_reqs h' r) = r_key (h_reqs h r)).
Proof.
  intros pick ncf key cid sid dl h q Hi. unfold get_obj.
  destruct (nth_error (h_pool h) (N.to_nat pick)) as [o|] eqn:Ep; cbn [fst snd]; intros Hq1 Hq2 Hq3.
  - (* a pooled object: its last user keeps what was left in its channels *)
    assert (Hin : In o (h_pool h)) by (eapply nth_error_In; exact Ep).
    destruct (hi_pool h Hi o Hin) as (P1 & P2 & P3).
    set (ob := h_objs h o) in *. set (prev := o_owner ob) in *.
    destruct (remove_nth_split _ _ _ _ Ep) as (l1 & l2 & El & Er). rewrite Er.
    pose proof (hi_pool_nd h Hi) as Hnd. rewrite El in Hnd. apply NoDup_remove in Hnd. destruct Hnd as [Hnd Hnot].
    destruct (HI_updR_same h prev (fun q0 => r_set_left q0 (o_comp ob) (o_comm ob)) ltac:(intros; cbn; auto) Hi) as [Hi1 Hok1].
    set (h1 := updR h prev _) in *.
    assert (Hi2 : HI (set_pool h1 (l1 ++ l2))).
    { apply HI_set_pool; [exact Hi1 | exact Hnd|]. intros x Hx. apply (hi_pool h1 Hi1 x). cbn. rewrite El.
      apply in_app_or in Hx. apply in_or_app. destruct Hx; [left | right; right]; assumption. }
    destruct (HI_install (set_pool h1 (l1 ++ l2)) o (mkObj key cid sid dl ncf [] [] ncf (o_rtr ob) (h_nreq h)) q (h_nobj h) Hi2)
      as (Hi' & Hnew & Hold); auto.
    + intros r Hr Hrel Eo. change (r_obj (h_reqs h1 r) = o) in Eo. change (r_rel (h_reqs h1 r) = false) in Hrel.
      destruct (hi_own h1 Hi1 r Hr Hrel) as [O1 _]. rewrite Eo in O1. change (prev = r) in O1. subst r.
      unfold h1 in Hrel. cbn in Hrel. rewrite N.eqb_refl in Hrel. cbn in Hrel. congruence.
    + split; [exact Hi'|]. split; [exact Hnew|]. split; [intros y Hy; apply Hold, Hok1, Hy|].
      split; [reflexivity|]. split; [cbn; rewrite N.eqb_refl; reflexivity|].
      intros r Hr. apply N.eqb_neq in Hr. unfold hgot. cbn. rewrite Hr.
      destruct (r =? prev) eqn:E; [apply N.eqb_eq in E; subst r|]; auto.
  -    destruct (HI_install h (h_nobj h) (mkObj key cid sid dl ncf [] [] ncf false (h_nreq h)) q (h_nobj h + 1) Hi)
      as (Hi' & Hnew & Hold); auto.
    + intros Hin. apply (hi_pool h Hi) in Hin. lia.
    + intros r Hr Hrel. apply (hi_own h Hi r Hr) in Hrel. lia.
    + split; [exact Hi'|]. split; [exact Hnew|]. split; [exact Hold|].
      split; [reflexivity|]. split; [cbn; rewrite N.eqb_refl; reflexivity|].
      intros r Hr. apply N.eqb_neq in Hr. unfold hgot. cbn. rewrite Hr. auto.
Qed.

Lemma new_obj_eq : forall ncf rid key dl h,
  new_obj ncf rid key dl h = get_obj (N.of_nat (length (h_pool h))) ncf rid key 0 0 dl h.
Proof.
  intros. unfold new_obj, get_obj. rewrite Nat2N.id.
  assert (E : nth_error (h_pool h) (length (h_pool h)) = None) by (apply nth_error_None; lia).
  rewrite E. reflexivity.
Qed.

Definition olist {A} (o : option A) : list A := match o with Some x => [x] | None => [] end.
Definition alive (s : st) (kv : N * slot) : bool := negb (p_stop (P s) (fst kv mod cps s)).
Definition live_pend (s : st) : list slot := map snd (filter (alive s) (pend (P s))).
Definition live_reads (s : st) : list slot :=
  rq (R s) ++ taken (R s) ++ (if rd_stop (R s) then [] else batch_slots (batches (R s))).
Definition live (s : st) : list slot :=
  live_pend s ++ live_reads s ++ olist (x_pend (C s)) ++ olist (x_pend (S s)) ++ olist (lq_pend s).

Record LI (s : st) : Prop := mkLI {
  li_h : HI (H s);
  li_ok : Forall (ok_slot (H s)) (live s);
  li_nd : NoDup (map sr (live s));
  li_keys : NoDup (map fst (pend (P s)));
  li_cm : cm_b (P s) = None }.

Lemma ok_of_live : forall s sl, LI s -> In sl (live s) -> ok_slot (H s) sl.
Proof. intros s sl Li Hin. pose proof (li_ok s Li) as Hok. rewrite Forall_forall in Hok. apply Hok. exact Hin. Qed.

Definition pinv (p : ptab) : Prop := NoDup (map fst (pend p)) /\ cm_b p = None.
Lemma LI_pinv : forall s, LI s -> pinv (P s).
Proof. intros s Li. split; apply Li. Qed.

Definition stop_closed (p : ptab) : Prop := forall k, p_stop p k = true -> q_stop p = true.
Definition inflight_keys (s : st) : Prop := forall i kv, i < h_nreq (H s) ->
  r_status (h_reqs (H s) i) = 0 -> In kv (pend (P s)) -> fst kv = r_key (h_reqs (H s) i) -> sr (snd kv) = i.

Lemma NoDup_app_r : forall A (a b : list A), NoDup (a ++ b) -> NoDup b.
Proof. induction a as [|x a IH]; cbn; intros b Hn; [exact Hn|]. inversion Hn; subst. apply IH. assumption. Qed.
Lemma filter_implies : forall A (p q : A -> bool) l, (forall x, p x = true -> q x = true) ->
  filter q (filter p l) = filter p l.
Proof.
  intros A p q l Hi. induction l as [|a l IH]; [reflexivity|]. cbn. destruct (p a) eqn:E; [|exact IH].
  cbn. rewrite (Hi a E), IH. reflexivity.
Qed.
Lemma NoDup_map_filter : forall A B (g : A -> B) p l, NoDup (map g l) -> NoDup (map g (filter p l)).
Proof.
  intros A B g p. induction l as [|a l IH]; cbn; intros Hn; [constructor|]. inversion Hn; subst.
  destruct (p a); cbn; [constructor|]; auto. intros Hin. apply H1. apply in_map_iff in Hin.
  destruct Hin as (x & E & Hx). apply filter_In in Hx. apply in_map_iff. exists x. split; [exact E | apply Hx].
Qed.

(* [live] is a concatenation of one list per table; a step changes one of them *)
Lemma perm_skip : forall A (a t t' g : list A), Permutation t (g ++ t') -> Permutation (a ++ t) (g ++ a ++ t').
Proof. intros A a t t' g Hp. rewrite Hp. apply Permutation_app_swap_app. Qed.
Lemma perm_here : forall A (b b' t g : list A), Permutation b (g ++ b') -> Permutation (b ++ t) (g ++ b' ++ t).
Proof. intros A b b' t g Hp. rewrite app_assoc. apply Permutation_app_tail. exact Hp. Qed.

Lemma live_P : forall s h p g, Permutation (live_pend s) (g ++ live_pend (setHP s h p)) ->
  Permutation (live s) (g ++ live (setHP s h p)).
Proof. intros s h p g Hp. unfold live. apply perm_here, Hp. Qed.
Lemma live_R : forall s h r g, Permutation (live_reads s) (g ++ live_reads (setHR s h r)) ->
  Permutation (live s) (g ++ live (setHR s h r)).
Proof. intros s h r g Hp. unfold live. apply perm_skip, perm_here, Hp. Qed.
Lemma in_live : forall s sl, In sl (live s) ->
  In sl (live_pend s) \/ In sl (live_reads s) \/ x_pend (C s) = Some sl \/ x_pend (S s) = Some sl \/ lq_pend s = Some sl.
Proof.
  assert (Ho : forall (o : option slot) x, In x (olist o) -> o = Some x) 
    by (intros [y|] x Hx; [destruct Hx as [<-|[]]; reflexivity | destruct Hx]).
  intros s sl Hin. unfold live in Hin.
  apply in_app_or in Hin. destruct Hin as [Hin|Hin]; [auto|right]. apply in_app_or in Hin. destruct Hin as [Hin|Hin]; [auto|right].
  apply in_app_or in Hin. destruct Hin as [Hin|Hin]; [auto|right]. apply in_app_or in Hin. destruct Hin as [Hin|Hin]; auto.
Qed.
Lemma live_L : forall s h l b g, Permutation (olist (lq_pend s)) (g ++ olist l) ->
  Permutation (live s) (g ++ live (setHL s h l b)).
Proof. intros s h l b g Hp. unfold live. do 4 apply perm_skip. exact Hp. Qed.

Lemma find_key_none : forall key l, find_key key l = None -> remove_key key l = l.
Proof.
  intros key. induction l as [|kv l IH]; [reflexivity|]. unfold find_key, remove_key in *. cbn.
  destruct (fst kv =? key) eqn:E; cbn; [discriminate|]. intros Hn. f_equal. apply IH. exact Hn.
Qed.
Lemma find_key_in : forall key l sl, find_key key l = Some sl -> In (key, sl) l.
Proof.
  intros key. induction l as [|kv l IH]; intros sl; [discriminate|]. unfold find_key in *. cbn.
  destruct (fst kv =? key) eqn:E.
  - intros Hs. inversion Hs; subst. left. apply N.eqb_eq in E. destruct kv; cbn in *; subst; reflexivity.
  - intros Hs. right. apply IH. exact Hs.
Qed.
Lemma filter_key_notin : forall key (l : list (N * slot)), ~ In key (map fst l) -> filter (fun kv => fst kv =? key) l = [].
Proof.
  intros key. induction l as [|a l IH]; [reflexivity|]. cbn. intros Hni. destruct (fst a =? key) eqn:Ea.
  - apply N.eqb_eq in Ea. exfalso. apply Hni. left. exact Ea.
  - apply IH. intros Hin. apply Hni. right. exact Hin.
Qed.
Lemma find_key_some : forall key l sl, NoDup (map fst l) -> find_key key l = Some sl ->
  filter (fun kv => fst kv =? key) l = [(key, sl)].
Proof.
  intros key. induction l as [|kv l IH]; intros sl Hnd Hf; [discriminate|]. unfold find_key in *. cbn in *.
  inversion Hnd; subst. destruct (fst kv =? key) eqn:E; [|apply IH; assumption].
  inversion Hf; subst. apply N.eqb_eq in E. destruct kv as [k v]. cbn in *. subst k. f_equal.
  apply filter_key_notin. assumption.
Qed.
Lemma remove_key_notin : forall key l, ~ In key (map fst (remove_key key l)).
Proof.
  intros key l Hin. apply in_map_iff in Hin. destruct Hin as (kv & E & Hkv). apply filter_In in Hkv.
  rewrite E, N.eqb_refl in Hkv. destruct Hkv as [_ X]. discriminate X.
Qed.

(* A step rewrites the heap and at most one table.  [touches] carries every fact about the table
   that needs no heap: the keys stay distinct, the stop flags only rise, a closed table is empty;
   the pending map gains an entry only under a key that no proposal in flight has (or
   [h_broken] is raised). *)
Record pstep (p p' : ptab) : Prop := mkPstep {
  ps_inv : pinv p -> pinv p';
  ps_sc : stop_closed p -> stop_closed p';
  ps_q : q_stop p = true -> q_stop p' = true;
  ps_stop : forall k, p_stop p k = true -> p_stop p' k = true }.
Definition rinv (r : rtab) : Prop := rd_stop r = true -> rq r = [] /\ rq_stop r = true.
Definition xinv (x : otab) : Prop := x_open x = false -> x_pend x = None.
Definition linv (l : option slot) (b : bool) : Prop := b = true -> l = None.
Definition xstep (x x' : otab) : Prop := (x_open x = false -> x_open x' = false) /\ (xinv x -> xinv x').

Inductive touches (s : st) : st -> Prop :=
| t_id : touches s s
| t_H h : touches s (setH s h)
| t_P h p : pstep (P s) p ->
    (forall kv, In kv (pend p) -> In kv (pend (P s)) \/ (h_broken h = false -> key_in_flight (H s) (fst kv) = false)) ->
    touches s (setHP s h p)
| t_R h r : (rd_stop (R s) = true -> rd_stop r = true) -> (rinv (R s) -> rinv r) -> touches s (setHR s h r)
| t_C h x : xstep (C s) x -> touches s (setHC s h x)
| t_S h x : xstep (S s) x -> touches s (setHS s h x)
| t_L h l b : (lq_stop s = true -> b = true) -> (linv (lq_pend s) (lq_stop s) -> linv l b) -> touches s (setHL s h l b).

Lemma pstep_flags : forall p p', p_stop p' = p_stop p -> q_stop p' = q_stop p -> cm_b p' = cm_b p ->
  (NoDup (map fst (pend p)) -> NoDup (map fst (pend p'))) -> pstep p p'.
Proof.
  intros p p' E1 E2 E3 Hn. constructor; unfold pinv, stop_closed; rewrite ?E1, ?E2, ?E3; auto.
  intros [A B]. auto.
Qed.
Lemma pstep_trans : forall a b c, pstep a b -> pstep b c -> pstep a c.
Proof. intros a b c [A1 A2 A3 A4] [B1 B2 B3 B4]. constructor; auto. Qed.
Lemma t_P_sub : forall s h p, p_stop p = p_stop (P s) -> q_stop p = q_stop (P s) -> cm_b p = cm_b (P s) ->
  (NoDup (map fst (pend (P s))) -> NoDup (map fst (pend p))) -> incl (pend p) (pend (P s)) -> touches s (setHP s h p).
Proof. intros s h p E1 E2 E3 Hn Hi. apply t_P; [apply pstep_flags; assumption | intros kv Hk; left; apply Hi, Hk]. Qed.
Create HintDb pend.
#[local] Hint Resolve incl_refl incl_filter NoDup_map_filter : pend.

Lemma t_R_sub : forall s h r, rd_stop r = rd_stop (R s) -> rq_stop r = rq_stop (R s) -> (rq (R s) = [] -> rq r = []) ->
  touches s (setHR s h r).
Proof.
  intros s h r E1 E2 E3. apply t_R; unfold rinv; rewrite E1; [auto|]. rewrite E2. intros Hr Hs. destruct (Hr Hs). auto.
Qed.
Lemma xstep_sub : forall x x', x_open x' = x_open x -> (x_pend x = None -> x_pend x' = None) -> xstep x x'.
Proof. intros x x' E1 E2. unfold xstep, xinv. rewrite E1. auto. Qed.

Lemma x_gc_xstep : forall h x, xstep x (snd (x_gc h x)).
Proof.
  intros h x. unfold x_gc. destruct (x_pend x) eqn:E; [|apply xstep_sub; auto].
  destruct (_ <? gc_tick); [apply xstep_sub; auto|]. destruct (_ <? _); apply xstep_sub; cbn; congruence.
Qed.
Lemma x_close_xstep : forall h x, xstep x (snd (x_close h x)).
Proof. intros h x. unfold x_close, xstep, xinv. destruct (x_pend x); cbn; auto. Qed.
Lemma x_outcome_open : forall x to, x_outcome x to = 0 -> x_pend x = None /\ x_open x = true.
Proof.
  intros x to. unfold x_outcome. destruct (to =? 0); [discriminate|]. destruct (x_pend x); [discriminate|].
  destruct (x_open x); [auto | discriminate].
Qed.
Lemma x_request_xstep : forall ncf kind h x key to, xstep x (snd (x_request ncf kind h x key to)).
Proof.
  intros. unfold x_request. destruct (x_outcome x to =? 0) eqn:Eo; [|apply xstep_sub; auto].
  apply N.eqb_eq, x_outcome_open in Eo. split; cbn; [destruct Eo; congruence | discriminate].
Qed.
Lemma read_outcome_open : forall s to, read_outcome s to = 0 -> rq_stop (R s) = false.
Proof.
  intros s to. unfold read_outcome. destruct (to =? 0); [discriminate|].
  destruct (rq_size (R s) <=? _); destruct (rq_stop (R s)); intros X; try discriminate X; reflexivity.
Qed.

Lemma gc_at_shape : forall s k now, exists h p,
  gc_at s k now = setHP s h p /\ pstep (P s) p /\ incl (pend p) (pend (P s)).
Proof.
  intros s k now. unfold gc_at.
  assert (Hid : exists h p, s = setHP s h p /\ pstep (P s) p /\ incl (pend p) (pend (P s))).
  { exists (H s), (P s). split; [destruct s; reflexivity|]. split; [apply pstep_flags; auto | apply incl_refl]. }
  destruct (p_stop (P s) k); [exact Hid|]. destruct (_ <? gc_tick); [exact Hid|].
  eexists _, _. split; [reflexivity|]. split; [apply pstep_flags; cbn; auto with pend | apply incl_filter].
Qed.
Lemma reads_applied_touches : forall s a, touches s (reads_applied s a).
Proof.
  intros s a. unfold reads_applied. destruct (_ || _); [constructor|].
  destruct (_ <? gc_tick); [|unfold reads_gc]; apply t_R_sub; auto.
Qed.

Lemma step0_touches : forall s o, touches s (step0 s o).
Proof.
  intros s o. destruct o; cbn [step0 proposal_committed_under_lock read_add_terminates_when_stopped];
    rewrite ?let_pair; unfold remove_key. (* cases in the order of [op] *)
  - destruct (to =? 0); [constructor|]. apply t_P.
    + apply pstep_flags; try reflexivity. intros Hn. cbn. constructor; [apply remove_key_notin | apply NoDup_map_filter, Hn].
    + cbn [pend p_set_pend]. intros kv [<-|Hk]; [right | left; exact (incl_filter _ _ _ Hk)]. cbn [fst].
      destruct (find_key key _); [cbn; discriminate|]. destruct (key_in_flight _ key); [cbn; discriminate | reflexivity].
  - destruct (_ && _); [|constructor]. destruct (_ =? 0); apply t_P_sub; cbn; auto with pend.
  - destruct (to =? 0); [constructor|]. destruct (read_outcome s to =? 0) eqn:Eo; [|constructor].
    apply N.eqb_eq, read_outcome_open in Eo. apply t_R; [auto|]. intros Hr Hs. destruct (Hr Hs) as [_ X]. cbn in X. congruence.
  - apply t_C, x_request_xstep.
  - apply t_S, x_request_xstep.
  - unfold lq_outcome. cbn [logquery_add_refuses_when_stopped andb].
    destruct (lq_stop s) eqn:El; [constructor|]. destruct (lq_pend s); cbn; [constructor|]. apply t_L; [congruence | discriminate].
  - destruct (_ && _); [|constructor]. destruct (_ =? i); constructor.
  - destruct (_ && _); constructor.
  - apply t_P_sub; cbn; auto with pend.
  - destruct (taken (R s)); [apply t_R_sub; auto | constructor].
  - destruct (taken (R s)); [constructor|]. destruct (rd_stop (R s)); [apply t_R_sub; auto|].
    destruct (existsb _ _); [constructor | apply t_R_sub; auto].
  - apply t_R_sub; auto.
  - apply reads_applied_touches.
  - destruct (rd_stop (R s)); [constructor | apply t_R_sub; auto].
  - constructor.
  - destruct (gc_at_shape s (k mod cps s) (h_clock (H s))) as (h & p & -> & Hp & Hi).
    apply t_P; [exact Hp | intros kv Hk; left; apply Hi, Hk].
  - apply t_C, x_gc_xstep.
  - apply t_S, x_gc_xstep.
  - destruct (take _ _ _ _ _); [apply t_P_sub; cbn; auto with pend | constructor].
  - destruct (x_match _ _ _); [apply t_C, xstep_sub; auto | constructor].
  - apply t_C, xstep_sub; auto.
  - apply t_S, xstep_sub; auto.
  - destruct (lq_pend s); [apply t_L; unfold linv; auto|]. destruct (_ && _); constructor.
  - destruct (take _ _ _ _ _); apply t_P_sub; cbn; auto with pend.
  - destruct (ap_now (P s)) as [[k now]|]; [|constructor].
    destruct (now =? _); [apply t_P_sub; cbn; auto with pend|].
    destruct (gc_at_shape (setHP s (H s) (p_set_ap (P s) None)) k now) as (h & p & -> & Hp & Hi).
    apply (t_P s h (p_set_expn p (fupd (p_expn p) k now))).
    + apply (pstep_trans _ (p_set_ap (P s) None)); [apply pstep_flags; auto|].
      apply (pstep_trans _ p); [exact Hp | apply pstep_flags; auto].
    + intros kv Hk. left. apply Hi, Hk.
  - destruct (x_match _ _ _); [apply t_C, xstep_sub; auto | constructor].
  - destruct (ign && abo); [constructor|]. destruct (x_match _ _ _); [apply t_S, xstep_sub; auto | constructor].
  - destruct (take _ _ _ _ _); constructor.
  - constructor.
  - constructor.
  - destruct (x_match _ _ _); constructor.
  - apply t_R; [reflexivity|]. intros _ _. split; reflexivity.
  - apply t_P; [|intros kv Hk; left; exact Hk].
    constructor; cbn; auto; [intros _ k1 _; reflexivity|]. intros k1 Hk1. unfold fupd. destruct (k1 =? _); auto.
  - destruct (x_open (C s)); [apply t_C, x_close_xstep | constructor].
  - apply t_S, x_close_xstep.
  - destruct (lq_pend s); apply t_L; unfold linv; auto.
Qed.

Lemma step_touches : forall s o, touches s (step s o).
Proof.
  intros s o. unfold step. destruct (negb _); [constructor|]. destruct (_ =? 0); [apply step0_touches | constructor].
Qed.

Lemma touches_P : forall s s', touches s s' -> pstep (P s) (P s').
Proof.
  assert (Hr : forall p, pstep p p) by (intros p; apply pstep_flags; auto).
  intros s s' []; cbn; auto.
Qed.
Lemma step0_pinv : forall s o, LI s -> pinv (P (step0 s o)).
Proof. intros s o Li. exact (ps_inv _ _ (touches_P _ _ (step0_touches s o)) (LI_pinv s Li)). Qed.

(* the status of a request stays, or an in-flight proposal is refused, or accepted by an open queue *)
Definition status_step (q_closed : bool) (a b : N) : Prop := b = a \/ (a = 0 /\ (b = 2 \/ (b = 1 /\ q_closed = false))).
#[local] Hint Unfold status_step : core.

(* What a step did to the references, seen from outside; from it RequestsLive derives that an
   accepted request without a result stays referenced *)
Definition EF (s s' : st) : Prop :=
  h_nreq (H s) <= h_nreq (H s') /\
  (forall sl, In sl (live s) -> In sl (live s') \/ nterm (hgot (H s') (sr sl)) <> 0%nat \/
                              r_status (h_reqs (H s') (sr sl)) = 2) /\
  (forall r, r < h_nreq (H s) -> nterm (hgot (H s') r) = 0%nat -> nterm (hgot (H s) r) = 0%nat) /\
  (forall r, r < h_nreq (H s) -> r_key (h_reqs (H s') r) = r_key (h_reqs (H s) r) /\
       status_step (q_stop (P s)) (r_status (h_reqs (H s) r)) (r_status (h_reqs (H s') r))) /\
  (forall r, h_nreq (H s) <= r -> r < h_nreq (H s') ->
       (r_status (h_reqs (H s') r) = 1 -> In r (map sr (live s'))) /\
       (r_status (h_reqs (H s') r) = 0 ->
          (In r (map sr (live s')) \/ q_stop (P s') = true) /\
          forall kv, In kv (pend (P s')) -> fst kv = r_key (h_reqs (H s') r) -> sr (snd kv) = r)).
Definition LX (s s' : st) : Prop := LI s' /\ EF s s'.

Lemma LX_refl : forall s, LI s -> LX s s.
Proof.
  intros s Li. split; [exact Li|]. unfold EF. split; [lia|]. split; [auto|]. split; [auto|]. split; [auto|]. intros r A B. lia.
Qed.
(* LI and EF look at the heap, the live list and the proposal table's keys and queue flag only *)
Lemma LX_ext : forall s1 s1' s2 s2', H s2 = H s1 -> live s2 = live s1 -> q_stop (P s2) = q_stop (P s1) ->
  H s2' = H s1' -> live s2' = live s1' -> q_stop (P s2') = q_stop (P s1') -> pend (P s2') = pend (P s1') ->
  cm_b (P s2') = cm_b (P s1') -> LX s1 s1' -> LX s2 s2'.
Proof.
  intros s1 s1' s2 s2' A B C D E F G K [[L1 L2 L3 L4 L5] Ef]. split.
  - constructor; rewrite ?D, ?E, ?G, ?K; assumption.
  - revert Ef. unfold EF. rewrite A, B, C, D, E, F, G. auto.
Qed.

Lemma LX_nseq : forall s s' l, LI s -> h_err (H s) = 0 -> pinv (P s') ->
  Forall (fun t => terminal (snd (fst t))) l ->
  Permutation (live s) (map snd l ++ live s') -> H s' = nseq l (H s) ->
  LX s s' /\ frame (H s) (H s') /\ (forall x, In x (map snd l) -> nterm (hgot (H s') (sr x)) = 1%nat).
Proof.
  intros s s' l Li He [Hk Hc] Hf Hp Hh.
  assert (Hok : Forall (ok_slot (H s)) (map snd l ++ live s')).
  { eapply Permutation_Forall; [exact Hp | apply Li]. }
  assert (Hnd : NoDup (map sr (map snd l ++ live s'))).
  { eapply Permutation_NoDup; [apply Permutation_map; exact Hp | apply Li]. }
  destruct (finish_seq l (live s') (H s) (li_h s Li) He Hf Hok Hnd) as (Hi' & Hfr & Hok' & Hone & Hsame).
  rewrite <- Hh in *. split; [|split; [exact Hfr | exact Hone]]. split.
  - constructor; auto. rewrite map_app in Hnd. apply NoDup_app_r in Hnd. exact Hnd.
  - destruct Hfr as (_ & _ & _ & Hnq & _ & _ & Hst & _). unfold EF. rewrite Hnq.
    split; [lia|]. split; [|split; [|split]].
    + intros sl Hsl. apply (Permutation_in _ Hp) in Hsl. apply in_app_or in Hsl. destruct Hsl as [Hsl|Hsl]; [|auto].
      right. left. rewrite (Hone sl Hsl). discriminate.
    + intros r Hr Hn. destruct (in_dec N.eq_dec r (map sr (map snd l))) as [Hin|Hnin].
      * apply in_map_iff in Hin. destruct Hin as (x & <- & Hx). rewrite (Hone x Hx) in Hn. discriminate.
      * unfold hgot in *. rewrite (Hsame r Hnin) in Hn. exact Hn.
    + intros r Hr. destruct (Hst r) as (S1 & _ & S3). auto.
    + intros r A B. lia.
Qed.
Lemma LX_notified : forall s s' sc f xs, LI s -> h_err (H s) = 0 -> pinv (P s') -> terminal f ->
  Permutation (live s) (xs ++ live s') -> H s' = notifyf_all sc f (H s) xs ->
  LX s s' /\ h_err (H s') = 0 /\ (forall x, In x xs -> nterm (hgot (H s') (sr x)) = 1%nat).
Proof.
  intros s s' sc f xs Li He Hp Hf Hl Hh.
  pose proof (LX_nseq s s' (map (fun x => (sc, f, x)) xs) Li He Hp (Forall_triples sc f xs Hf)) as Hs.
  rewrite map_snd_triples, <- notifyf_all_nseq in Hs. destruct (Hs Hl Hh) as (Lx & Fr & Hone).
  split; [exact Lx|]. split; [apply Fr | exact Hone].
Qed.
Lemma LX_notify_all : forall s s' sc r xs, LI s -> h_err (H s) = 0 -> pinv (P s') -> rc r =? cCommitted = false ->
  Permutation (live s) (xs ++ live s') -> H s' = notify_all sc r (H s) xs ->
  LX s s' /\ h_err (H s') = 0 /\ (forall x, In x xs -> nterm (hgot (H s') (sr x)) = 1%nat).
Proof. intros s s' sc r xs Li He Hp Hr. apply LX_notified; auto. intros o. exact Hr. Qed.

(* the references [drop] are given up, their requests refused *)
Lemma LX_heap : forall s s' drop, LI s -> HI (H s') -> pinv (P s') ->
  (forall y, ok_slot (H s) y -> ok_slot (H s') y) ->
  Permutation (live s) (drop ++ live s') ->
  h_nreq (H s') = h_nreq (H s) ->
  (forall r, nterm (hgot (H s') r) = nterm (hgot (H s) r)) ->
  (forall r, r_key (h_reqs (H s') r) = r_key (h_reqs (H s) r) /\
       status_step (q_stop (P s)) (r_status (h_reqs (H s) r)) (r_status (h_reqs (H s') r))) ->
  (forall y, In y drop -> r_status (h_reqs (H s') (sr y)) = 2) ->
  LX s s'.
Proof.
  intros s s' drop Li Hi [Hk Hc] Hold Hp Hnq Hg Hst Hdrop. split.
  - constructor; auto.
    + pose proof (Permutation_Forall Hp (li_ok s Li)) as Hf. apply Forall_app in Hf. destruct Hf as [_ Hf].
      eapply Forall_impl; [|exact Hf]. exact Hold.
    + pose proof (Permutation_NoDup (Permutation_map sr Hp) (li_nd s Li)) as Hn. rewrite map_app in Hn.
      apply NoDup_app_r in Hn. exact Hn.
  - unfold EF. rewrite Hnq. split; [lia|]. split; [|split; [|split; [auto|intros r A B; lia]]].
    + intros sl Hsl. apply (Permutation_in _ Hp) in Hsl. apply in_app_or in Hsl. destruct Hsl as [Hsl|Hsl]; auto.
    + intros r _. rewrite Hg. auto.
Qed.
Lemma LX_same : forall s s', LI s -> pinv (P s') -> H s' = H s -> Permutation (live s) (live s') -> LX s s'.
Proof. intros s s' Li Hp Hh Hl. apply (LX_heap s s' [] Li); rewrite ?Hh; auto; [apply Li | intros y []]. Qed.
Lemma LI_drop : forall s s' drop, LI s -> H s' = H s -> Permutation (live s) (drop ++ live s') ->
  NoDup (map fst (pend (P s'))) -> cm_b (P s') = None -> LI s'.
Proof.
  intros s s' drop Li Hh Hp Hk Hc. constructor; auto; rewrite ?Hh.
  - apply Li.
  - pose proof (Permutation_Forall Hp (li_ok s Li)) as Hf. apply Forall_app in Hf. apply Hf.
  - pose proof (Permutation_NoDup (Permutation_map sr Hp) (li_nd s Li)) as Hn. rewrite map_app in Hn.
    apply NoDup_app_r in Hn. exact Hn.
Qed.

Lemma LX_quiet : forall s h', LI s -> quiet (H s) h' -> LX s (setH s h').
Proof.
  intros s h' Li (Hi & Hok & Hn & Hr).
  apply (LX_heap s (setH s h') [] Li Hi (LI_pinv s Li) Hok (Permutation_refl _) Hn); [apply Hr | | intros y []].
  intros r. destruct (Hr r) as (_ & K & St). auto.
Qed.


(* the state after an allocation: the new slot is referenced ([b]) or not; an accepted request must
   be, a proposal in flight must be unless the queue is closed, and it owns its key *)
Lemma alloc_LX : forall s s' (b : bool) pick ncf key cid sid dl q, LI s ->
  let go := get_obj pick ncf (h_nreq (H s)) key cid sid dl (H s) in
  let new := mkSlot (snd go) (h_nreq (H s)) in
  H s' = add_req (fst go) q -> r_obj q = snd go -> r_got q = [] -> r_rel q = false -> pinv (P s') ->
  Permutation (live s') ((if b then [new] else []) ++ live s) ->
  match r_status q with
  | 0 => (b = true \/ q_stop (P s') = true) /\
         forall kv, In kv (pend (P s')) -> fst kv = r_key q -> sr (snd kv) = h_nreq (H s)
  | 1 => b = true
  | _ => True
  end ->
  LX s s'.
Proof.
  intros s s' b pick ncf key cid sid dl q Li go new Hh Hq1 Hq2 Hq3 [Hk Hc] Hperm Hst.
  destruct (alloc_ok pick ncf key cid sid dl (H s) q (li_h s Li) Hq1 Hq2 Hq3) as (Hi' & Hnew & Hold & Hnq & Hq & Hrq).
  fold go in Hi', Hnew, Hold, Hnq, Hq, Hrq. rewrite <- Hh in *.
  assert (Hlt : forall y, In y (live s) -> sr y < h_nreq (H s)) by (intros y Hy; apply (ok_of_live s y Li Hy)).
  assert (Hin : b = true -> In (h_nreq (H s)) (map sr (live s'))).
  { intros ->. apply (Permutation_in _ (Permutation_map sr (Permutation_sym Hperm))). left. reflexivity. }
  split.
  - constructor; auto.
    + apply (Permutation_Forall (Permutation_sym Hperm)). apply Forall_app. split.
      * destruct b; constructor; [exact Hnew | constructor].
      * eapply Forall_impl; [exact Hold | apply Li].
    + apply (Permutation_NoDup (Permutation_map sr (Permutation_sym Hperm))). destruct b; [|apply Li].
      cbn. constructor; [|apply Li]. intros Hx. apply in_map_iff in Hx. destruct Hx as (y & E & Hy). apply Hlt in Hy. lia.
  - unfold EF. rewrite Hnq. split; [lia|]. split; [|split; [|split]].
    + intros sl Hsl. left. apply (Permutation_in _ (Permutation_sym Hperm)). apply in_or_app. right. exact Hsl.
    + intros r Hr Hn. destruct (Hrq r ltac:(lia)) as (G & _). rewrite G in Hn. exact Hn.
    + intros r Hr. destruct (Hrq r ltac:(lia)) as (_ & S1 & S3). auto.
    + intros r A B. assert (r = h_nreq (H s)) as -> by lia. rewrite Hq.
      destruct (r_status q) as [|[p|p|]]; (split; intros X; try discriminate X).
      * destruct Hst as [[->|Y] K]; auto.
      * auto.
Qed.

Lemma terminal_const : forall c v w, c =? cCommitted = false -> terminal (fun _ => mkRes c v w).
Proof. intros c v w Hc o. exact Hc. Qed.

Lemma pend_split_alive : forall s (p : N * slot -> bool),
  Permutation (live_pend s) (map snd (filter (alive s) (filter p (pend (P s)))) ++
                             map snd (filter (alive s) (filter (fun kv => negb (p kv)) (pend (P s))))).
Proof.
  intros s p. unfold live_pend. rewrite <- map_app. apply Permutation_map.
  rewrite (filter_comm (alive s) p). rewrite (filter_comm (alive s) (fun kv => negb (p kv))).
  apply perm_filter_split.
Qed.
Lemma pend_split : forall s (p : N * slot -> bool),
  (forall kv, p kv = true -> alive s kv = true) ->
  Permutation (live_pend s)
    (map snd (filter p (pend (P s))) ++ map snd (filter (alive s) (filter (fun kv => negb (p kv)) (pend (P s))))).
Proof. intros s p Hp. rewrite <- (filter_implies _ p (alive s) (pend (P s)) Hp). apply pend_split_alive. Qed.

Lemma gc_at_LX : forall s k now, LI s -> h_err (H s) = 0 ->
  LX s (gc_at s k now) /\ h_err (H (gc_at s k now)) = 0 /\
  (p_stop (P s) k = false -> (sub64 now (p_lastgc (P s) k) <? gc_tick) = false ->
   forall kv, In kv (pend (P s)) -> fst kv mod cps s = k -> o_dl (h_objs (H s) (so (snd kv))) < now ->
   nterm (hgot (H (gc_at s k now)) (sr (snd kv))) = 1%nat).
Proof.
  intros s k now Li He. remember (gc_at s k now) as s' eqn:Es. unfold gc_at in Es.
  destruct (p_stop (P s) k) eqn:Est; [subst s'; split; [apply (LX_refl _ Li) | split; [exact He | discriminate]]|].
  destruct (sub64 now (p_lastgc (P s) k) <? gc_tick);
    [subst s'; split; [apply (LX_refl _ Li) | split; [exact He | intros _ X; discriminate X]]|].
  set (expired := fun kv : N * slot => (fst kv mod cps s =? k) && (o_dl (h_objs (H s) (so (snd kv))) <? now)) in *.
  set (sc := fun o : obj => SGc now (o_dl o)) in *. set (f := fun _ : obj => mkRes cTimeout 0 0) in *.
  destruct (LX_notified s s' sc f (map snd (filter expired (pend (P s)))) Li He) as (Lx & E & Hone); subst s'.
  - split; [apply NoDup_map_filter|]; apply Li.
  - apply terminal_const. reflexivity.
  - apply live_P, (pend_split s expired). intros kv Hk. apply andb_true_iff in Hk.
    destruct Hk as [Hk _]. apply N.eqb_eq in Hk. unfold alive. rewrite Hk, Est. reflexivity.
  - reflexivity.
  - split; [exact Lx|]. split; [exact E|]. intros _ _ kv Hkv Hk Hd. apply Hone.
    apply in_map, filter_In. split; [exact Hkv|]. unfold expired. rewrite Hk, N.eqb_refl. apply N.ltb_lt. exact Hd.
Qed.

Lemma take_some : forall s cid sid key now sl, LI s -> take s cid sid key now = Some sl ->
  p_stop (P s) (key mod cps s) = false /\
  filter (fun kv => fst kv =? key) (pend (P s)) = [(key, sl)] /\ In sl (live s).
Proof.
  intros s cid sid key now sl Li. unfold take, shard.
  destruct (p_stop (P s) (key mod cps s)) eqn:Est; [discriminate|].
  destruct (find_key key (pend (P s))) as [sl'|] eqn:Ef; [|discriminate].
  destruct (_ && _); [|discriminate]. intros Hs. inversion Hs; subst sl'.
  repeat split; auto.
  - apply find_key_some; [apply Li | exact Ef].
  - unfold live. apply in_or_app. left. unfold live_pend. apply in_map_iff. exists (key, sl). split; [reflexivity|].
    apply filter_In. split; [apply find_key_in; exact Ef|]. unfold alive. cbn. rewrite Est. reflexivity.
Qed.

(* takeProposal followed by the notification of what it took *)
Lemma take_notify_LX : forall s sc r cid sid key now sl p', LI s -> h_err (H s) = 0 ->
  rc r =? cCommitted = false -> take s cid sid key now = Some sl ->
  p_stop p' = p_stop (P s) -> pend p' = remove_key key (pend (P s)) -> cm_b p' = cm_b (P s) ->
  LX s (setHP s (notify sc r (H s) sl) p').
Proof.
  intros s sc r cid sid key now sl p' Li He Hr Ht E1 E2 E3.
  destruct (take_some s _ _ _ _ _ Li Ht) as (Est & Hf & _).
  apply (LX_notify_all s _ sc r [sl] Li He); [| exact Hr | | reflexivity].
  - unfold pinv. cbn [P setHP]. rewrite E2, E3. split; [apply NoDup_map_filter|]; apply Li.
  - apply live_P. unfold live_pend at 2, alive. cbn [P setHP cps]. rewrite E1, E2.
    pose proof (pend_split s (fun kv => fst kv =? key)) as Hp. rewrite Hf in Hp. apply Hp.
    intros kv Hk. apply N.eqb_eq in Hk. unfold alive. rewrite Hk, Est. reflexivity.
Qed.

Lemma proposeB_outcome_open : forall s, proposeB_outcome s = 0 -> q_stop (P s) = false.
Proof.
  intros s. unfold proposeB_outcome. destruct (q_paused (P s) || _); destruct (q_stop (P s)); intros X; try discriminate X; reflexivity.
Qed.

Lemma proposeA_LX : forall s cid sid key to pick, LI s -> stop_closed (P s) ->
  h_broken (H (step0 s (ProposeA cid sid key to pick))) = false -> LX s (step0 s (ProposeA cid sid key to pick)).
Proof.
  intros s cid sid key to pick Li Hsc.
  generalize (step0_pinv s (ProposeA cid sid key to pick) Li).
  cbn [step0]. rewrite let_pair.
  destruct (to =? 0); [intros; apply (LX_refl _ Li)|].
  destruct (find_key key (pend (P s))) eqn:Ef; [cbn; intros _ Hb; discriminate|].
  destruct (key_in_flight (H s) key); [cbn; intros _ Hb; discriminate|]. intros Hp _.
  set (go := get_obj pick (cnc s) (h_nreq (H s)) key cid sid (add64 (h_clock (H s)) to) (H s)) in *.
  set (new := mkSlot (snd go) (h_nreq (H s))) in *.
  eapply (alloc_LX s _ (alive s (key, new)) _ _ _ _ _ _ _ Li); try reflexivity; [exact Hp | |].
  - unfold live, live_pend. cbn [P setHP p_set_pend pend filter]. rewrite (find_key_none _ _ Ef).
    change (alive (setHP s _ _) (key, new)) with (alive s (key, new)).
    destruct (alive s (key, new)); apply Permutation_refl.
  - cbn. split.
    + destruct (alive s (key, new)) eqn:Ea; [left; reflexivity|]. right.
      unfold alive in Ea. apply negb_false_iff in Ea. apply (Hsc _ Ea).
    + intros kv [<-|Hkv] Hk; [reflexivity|]. apply filter_In in Hkv. rewrite Hk, N.eqb_refl in Hkv. destruct Hkv as [_ X]. discriminate X.
Qed.

Lemma proposeB_LX : forall s i, LI s -> inflight_keys s -> LX s (step0 s (ProposeB i)).
Proof.
  intros s i Li Hif. generalize (step0_pinv s (ProposeB i) Li).
  cbn [step0]. destruct (_ && _) eqn:Ec; [|intros; apply (LX_refl _ Li)].
  apply andb_true_iff in Ec. destruct Ec as [Ec Es0]. apply andb_true_iff in Ec. destruct Ec as [Elt _].
  apply N.ltb_lt in Elt. apply N.eqb_eq in Es0.
  assert (Hup : forall st, HI (updR (H s) i (fun q => r_set_status q st)) /\
                  (forall y, ok_slot (H s) y -> ok_slot (updR (H s) i (fun q => r_set_status q st)) y) /\
                  (forall r, nterm (hgot (updR (H s) i (fun q => r_set_status q st)) r) = nterm (hgot (H s) r))).
  { intros st. destruct (HI_updR_same (H s) i (fun q => r_set_status q st) ltac:(intros; cbn; auto) (li_h s Li)) as [A B].
    split; [exact A|]. split; [exact B|]. intros r. rewrite hgot_updR. destruct (r =? i) eqn:E; [apply N.eqb_eq in E; subst r|]; reflexivity. }
  destruct (proposeB_outcome s =? 0) eqn:Eo; intros Hp.
  - apply N.eqb_eq, proposeB_outcome_open in Eo. destruct (Hup 1) as (Hi' & Hold & Hg).
    apply (LX_heap s _ [] Li); [exact Hi' | exact Hp | exact Hold | apply Permutation_refl | reflexivity | exact Hg | | intros y []].
    intros r. cbn [H setHP updR set_reqs h_reqs]. destruct (r =? i) eqn:E; [apply N.eqb_eq in E; subst r; cbn|]; auto 7.
  - destruct (Hup 2) as (Hi' & Hold & Hg). set (key := r_key (h_reqs (H s) i)).
    apply (LX_heap s _ (map snd (filter (alive s) (filter (fun kv => fst kv =? key) (pend (P s))))) Li);
      [exact Hi' | exact Hp | exact Hold | | reflexivity | exact Hg | |].
    + apply live_P, (pend_split_alive s (fun kv => fst kv =? key)).
    + intros r. cbn [H setHP updR set_reqs h_reqs]. destruct (r =? i) eqn:E; [apply N.eqb_eq in E; subst r; cbn|]; auto 7.
    + intros y Hy. apply in_map_iff in Hy. destruct Hy as (kv & <- & Hkv). apply filter_In in Hkv. destruct Hkv as [Hkv _].
      apply filter_In in Hkv. destruct Hkv as [Hkv Hk]. apply N.eqb_eq in Hk.
      rewrite (Hif i kv Elt Es0 Hkv Hk). cbn [H setHP updR set_reqs h_reqs]. rewrite N.eqb_refl. reflexivity.
Qed.

Lemma broken_notify_all : forall sc r xs h, h_broken (notify_all sc r h xs) = h_broken h.
Proof.
  intros sc r xs. unfold notify_all. induction xs as [|x xs IH]; intros h; [reflexivity|]. cbn [fold_left]. rewrite IH.
  unfold notify, notifyf. destruct (negb _); [reflexivity|]. destruct (o_comp _); reflexivity.
Qed.

Lemma closeP_LX : forall s k0, LI s -> h_err (H s) = 0 ->
  h_broken (H (step0 s (CloseP k0))) = false -> LX s (step0 s (CloseP k0)).
Proof.
  intros s k0 Li He. cbn [step0]. set (k := k0 mod cps s).
  set (inK := fun kv : N * slot => fst kv mod cps s =? k).
  destruct (p_stop (P s) k) eqn:Est.
  - cbn [H setHP]. rewrite broken_notify_all. cbn. discriminate.
  - intros _. apply (LX_notify_all s _ SClose terminated (map snd (filter inK (pend (P s)))) Li He); [exact (LI_pinv s Li) | reflexivity | | reflexivity].
    + apply live_P.
      etransitivity; [apply (pend_split s inK)|].
      * intros kv Hk. apply N.eqb_eq in Hk. unfold alive. rewrite Hk, Est. reflexivity.
      * apply Permutation_app_head. unfold live_pend. cbn [P setHP p_set_stop pend].
        rewrite <- (filter_and (alive s) (fun kv => negb (inK kv))).
        erewrite filter_ext; [apply Permutation_refl|].
        intros kv. unfold alive, inK, fupd. cbn. destruct (fst kv mod cps s =? k) eqn:E; cbn.
        -- apply N.eqb_eq in E. rewrite E, Est. reflexivity.
        -- rewrite andb_true_r. reflexivity.
Qed.

Lemma batch_slots_app : forall a b, batch_slots (a ++ b) = batch_slots a ++ batch_slots b.
Proof. intros. unfold batch_slots. apply flat_map_app. Qed.
Lemma batch_split : forall (p : (N * N) * (N * list slot) -> bool) bs,
  Permutation (batch_slots bs) (batch_slots (filter p bs) ++ batch_slots (filter (fun b => negb (p b)) bs)).
Proof.
  intros p bs. rewrite <- batch_slots_app. unfold batch_slots. apply Permutation_flat_map. apply perm_filter_split.
Qed.
Lemma batch_slots_map_filter : forall (q : slot -> bool) bs,
  batch_slots (map (fun b : (N * N) * (N * list slot) => (fst b, (fst (snd b), filter q (snd (snd b))))) bs)
  = filter q (batch_slots bs).
Proof.
  intros q. induction bs as [|b bs IH]; [reflexivity|]. unfold batch_slots in *. cbn. rewrite filter_app, IH. reflexivity.
Qed.
Lemma batch_slots_filter_empty : forall (keep : (N * N) * (N * list slot) -> bool) bs,
  (forall b, keep b = false -> snd (snd b) = []) -> batch_slots (filter keep bs) = batch_slots bs.
Proof.
  intros keep bs Hk. induction bs as [|b bs IH]; [reflexivity|]. unfold batch_slots in *. cbn.
  destruct (keep b) eqn:E; cbn; [rewrite IH; reflexivity | rewrite (Hk b E), IH; reflexivity].
Qed.
Lemma batch_slots_map_idx : forall (g : (N * N) * (N * list slot) -> (N * N) * (N * list slot)) bs,
  (forall b, snd (snd (g b)) = snd (snd b)) -> batch_slots (map g bs) = batch_slots bs.
Proof.
  intros g bs Hg. induction bs as [|b bs IH]; [reflexivity|]. unfold batch_slots in *. cbn. rewrite Hg, IH. reflexivity.
Qed.

Lemma closeR_LX : forall s, LI s -> h_err (H s) = 0 ->
  h_broken (H (step0 s CloseR)) = false -> LX s (step0 s CloseR).
Proof.
  intros s Li He. cbn [step0]. destruct (rd_stop (R s)) eqn:Est.
  - cbn [H setHR]. rewrite !broken_notify_all. cbn. discriminate.
  - intros _. apply (LX_notify_all s _ SClose terminated (rq (R s) ++ batch_slots (batches (R s))) Li He); [exact (LI_pinv s Li) | reflexivity | |].
    + apply live_R. unfold live_reads. cbn [R setHR r_closed rq taken batches rd_stop app].
      rewrite Est, app_nil_r, <- app_assoc. apply Permutation_app_head, Permutation_app_comm.
    + cbn [H setHR]. unfold notify_all. rewrite fold_left_app. reflexivity.
Qed.

Lemma fold_batches_nseq : forall (scb : (N * N) * (N * list slot) -> obj -> src) (fr : obj -> res) bsl h,
  fold_left (fun h b => notifyf_all (scb b) fr h (snd (snd b))) bsl h
  = nseq (flat_map (fun b => map (fun x => (scb b, fr, x)) (snd (snd b))) bsl) h.
Proof.
  intros scb fr. induction bsl as [|b bsl IH]; intros h; [reflexivity|]. cbn [fold_left flat_map].
  rewrite nseq_app, <- notifyf_all_nseq. apply IH.
Qed.
Lemma map_snd_flat_triples : forall (scb : (N * N) * (N * list slot) -> obj -> src) (fr : obj -> res) bsl,
  map snd (flat_map (fun b => map (fun x => (scb b, fr, x)) (snd (snd b))) bsl) = batch_slots bsl.
Proof.
  intros scb fr. induction bsl as [|b bsl IH]; [reflexivity|]. unfold batch_slots in *. cbn [flat_map].
  rewrite map_app, IH, map_snd_triples. reflexivity.
Qed.
Lemma Forall_flat_triples : forall (scb : (N * N) * (N * list slot) -> obj -> src) (fr : obj -> res) bsl, terminal fr ->
  Forall (fun t : (obj -> src) * (obj -> res) * slot => terminal (snd (fst t)))
         (flat_map (fun b => map (fun x => (scb b, fr, x)) (snd (snd b))) bsl).
Proof.
  intros scb fr bsl Hf. apply Forall_forall. intros t Ht. apply in_flat_map in Ht. destruct Ht as (b & _ & Ht).
  apply in_map_iff in Ht. destruct Ht as (x & <- & _). exact Hf.
Qed.
Lemma nseq_odl : forall l h o, o_dl (h_objs (nseq l h) o) = o_dl (h_objs h o).
Proof.
  induction l as [|[[sc f] x] l IH]; intros h o; [reflexivity|]. cbn [nseq]. rewrite IH.
  destruct (objs_notifyf sc f h x o) as [E|[r E]]; rewrite E; reflexivity.
Qed.

(* pendingReadIndex.gc: what has its deadline behind it gets Timeout and leaves its batch *)
Lemma reads_gc_spec : forall h bs now,
  let gone := filter (fun sl => o_dl (h_objs h (so sl)) <? now) (batch_slots bs) in
  fst (reads_gc h bs now) = nseq (map (fun x => (fun o : obj => SGc now (o_dl o), fun _ : obj => mkRes cTimeout 0 0, x)) gone) h /\
  Permutation (batch_slots bs) (gone ++ batch_slots (snd (reads_gc h bs now))).
Proof.
  intros h bs now. unfold reads_gc. cbn [fst snd]. split; [apply notifyf_all_nseq|].
  rewrite batch_slots_filter_empty.
  - rewrite (batch_slots_map_filter (fun sl => negb (o_dl (h_objs h (so sl)) <? now))). apply perm_filter_split.
  - intros b Hk. apply negb_false_iff, andb_true_iff in Hk. destruct (snd (snd b)); [reflexivity | destruct Hk; discriminate].
Qed.

(* pendingReadIndex.applied: the confirmed batches get their result; when the gc is due, whatever
   is left in a batch with its deadline behind it gets Timeout *)
Lemma readsApplied_LX : forall s a, LI s -> h_err (H s) = 0 ->
  LX s (reads_applied s a) /\ h_err (H (reads_applied s a)) = 0 /\
  (rd_stop (R s) = false -> (sub64 (h_clock (H s)) (rd_lastgc (R s)) <? gc_tick) = false ->
   forall sl, In sl (batch_slots (batches (R s))) -> o_dl (h_objs (H s) (so sl)) < h_clock (H s) ->
   nterm (hgot (H (reads_applied s a)) (sr sl)) = 1%nat).
Proof.
  intros s a Li He. remember (reads_applied s a) as s' eqn:Es. unfold reads_applied in Es.
  destruct (rd_stop (R s)) eqn:Est; [subst s'; split; [apply (LX_refl _ Li) | split; [exact He | discriminate]]|].
  cbn [orb] in Es.
  destruct (batches (R s)) as [|b0 bs0] eqn:Eb; [subst s'; split; [apply (LX_refl _ Li) | split; [exact He | intros _ _ sl []]]|].
  rewrite <- Eb in *. clear Eb b0 bs0.
  set (now := h_clock (H s)) in *.
  set (ready := fun b : (N * N) * (N * list slot) => (0 <? fst (snd b)) && (fst (snd b) <=? a)) in Es.
  set (scb := fun (b : (N * N) * (N * list slot)) (o : obj) => SReadApplied a (fst (snd b)) now (o_dl o)).
  set (fr := fun o : obj => if now <? o_dl o then mkRes cCompleted 0 0 else mkRes cTimeout 0 0).
  assert (Hfr : terminal fr) by (intros o; unfold fr; destruct (now <? o_dl o); reflexivity).
  change (fold_left _ (filter ready (batches (R s))) (H s))
    with (fold_left (fun h b => notifyf_all (scb b) fr h (snd (snd b))) (filter ready (batches (R s))) (H s)) in Es.
  rewrite fold_batches_nseq in Es.
  set (L1 := flat_map (fun b => map (fun x => (scb b, fr, x)) (snd (snd b))) (filter ready (batches (R s)))) in *.
  set (bs1 := filter (fun b => negb (ready b)) (batches (R s))) in *.
  assert (Hf1 : Forall (fun t => terminal (snd (fst t))) L1) by (apply Forall_flat_triples, Hfr).
  assert (Hp1 : Permutation (batch_slots (batches (R s))) (map snd L1 ++ batch_slots bs1)).
  { unfold L1. rewrite map_snd_flat_triples. apply (batch_split ready). }
  destruct (sub64 now (rd_lastgc (R s)) <? gc_tick).
  - destruct (LX_nseq s s' L1 Li He) as (Lx & Fr & _); subst s'; [exact (LI_pinv s Li) | exact Hf1 | | reflexivity |].
    + apply live_R. unfold live_reads. cbn [R setHR r_set_b rq taken batches rd_stop]. rewrite Est.
      do 2 apply perm_skip. exact Hp1.
    + split; [exact Lx|]. split; [apply Fr | intros _ X; discriminate X].
  - rewrite let_pair in Es. change (reads_gc (nseq L1 (H s)) _ now) with (reads_gc (nseq L1 (H s)) bs1 now) in Es.
    destruct (reads_gc_spec (nseq L1 (H s)) bs1 now) as [Eh Hp2]. rewrite Eh in Es.
    set (gone := filter _ (batch_slots bs1)) in *.
    set (L2 := map (fun x => (fun o : obj => SGc now (o_dl o), fun _ : obj => mkRes cTimeout 0 0, x)) gone) in *.
    destruct (LX_nseq s s' (L1 ++ L2) Li He) as (Lx & Fr & Hone); subst s'; [exact (LI_pinv s Li) | | | |].
    + apply Forall_app. split; [exact Hf1 | apply Forall_triples, terminal_const; reflexivity].
    + apply live_R. unfold live_reads. cbn [R setHR r_set_bg rq taken batches rd_stop]. rewrite Est.
      do 2 apply perm_skip. unfold L2. rewrite map_app, map_snd_triples, <- app_assoc, Hp1.
      apply Permutation_app_head, Hp2.
    + cbn [H setHR]. rewrite nseq_app. reflexivity.
    + split; [exact Lx|]. split; [apply Fr|]. intros _ _ sl Hin Hd. apply Hone.
      apply (Permutation_in _ Hp1) in Hin. rewrite map_app. unfold L2. rewrite map_snd_triples.
      apply in_app_or in Hin. apply in_or_app. destruct Hin as [Hin|Hin]; [left; exact Hin | right].
      apply filter_In. split; [exact Hin|]. rewrite nseq_odl. apply N.ltb_lt. exact Hd.
Qed.

(* pendingReadIndex.add on a stopped table terminates the requests it is handed *)
Lemma addReads_stopped_LX : forall s lo hi, LI s -> h_err (H s) = 0 -> rd_stop (R s) = true ->
  let s' := step0 s (AddReads lo hi) in
  LX s s' /\ h_err (H s') = 0 /\ taken (R s') = [] /\
  (forall sl, In sl (taken (R s)) -> nterm (hgot (H s') (sr sl)) = 1%nat).
Proof.
  intros s lo hi Li He Est. cbn [step0 read_add_terminates_when_stopped]. rewrite Est.
  destruct (taken (R s)) as [|t0 tk] eqn:Et; [split; [apply (LX_refl _ Li) | repeat split; auto; intros sl []]|].
  match goal with |- LX s ?s1 /\ _ =>
    destruct (LX_notify_all s s1 SClose terminated (t0 :: tk) Li He (LI_pinv s Li) eq_refl) as (Lx & E & Hone) end; [|reflexivity|].
  - apply live_R. unfold live_reads. cbn [R setHR r_set_tb rq taken batches rd_stop].
    rewrite Et, Est. apply perm_skip. rewrite !app_nil_r. apply Permutation_refl.
  - split; [exact Lx|]. split; [exact E|]. split; [reflexivity | exact Hone].
Qed.

(* pendingConfigChange ([c] = true) and pendingSnapshot are the same code over two tables *)
Definition xt (c : bool) (s : st) : otab := if c then C s else S s.
Definition setHX (c : bool) (s : st) (h : heap) (x : otab) : st := if c then setHC s h x else setHS s h x.

Lemma H_setHX : forall c s h x, H (setHX c s h x) = h.
Proof. intros []; reflexivity. Qed.
Lemma pinv_setHX : forall c s h x, LI s -> pinv (P (setHX c s h x)).
Proof. intros [] s h x Li; exact (LI_pinv s Li). Qed.
Lemma live_X : forall c s h x g, Permutation (olist (x_pend (xt c s))) (g ++ olist (x_pend x)) ->
  Permutation (live s) (g ++ live (setHX c s h x)).
Proof. intros [] s h x g Hp; unfold live; [do 2 apply perm_skip | do 3 apply perm_skip]; apply perm_here, Hp. Qed.

Lemma x_keep_LX : forall c s x, LI s -> x_pend x = x_pend (xt c s) -> LX s (setHX c s (H s) x).
Proof.
  intros c s x Li Hx. apply (LX_same _ _ Li (pinv_setHX c s _ x Li) (H_setHX c s _ x)).
  apply (live_X c s _ x []). rewrite Hx. apply Permutation_refl.
Qed.
Lemma x_clear_LX : forall c s sc f sl x, LI s -> h_err (H s) = 0 -> terminal f ->
  x_pend (xt c s) = Some sl -> x_pend x = None ->
  LX s (setHX c s (notifyf sc f (H s) sl) x) /\ h_err (notifyf sc f (H s) sl) = 0 /\
  nterm (hgot (notifyf sc f (H s) sl) (sr sl)) = 1%nat.
Proof.
  intros c s sc f sl x Li He Hf Hs Hx.
  destruct (LX_notified s (setHX c s (notifyf sc f (H s) sl) x) sc f [sl] Li He (pinv_setHX c s _ x Li) Hf) as (Lx & E & Hone).
  - apply live_X. rewrite Hs, Hx. apply Permutation_refl.
  - apply H_setHX.
  - rewrite H_setHX in E, Hone. split; [exact Lx|]. split; [exact E | apply Hone; left; reflexivity].
Qed.

Lemma x_gc_LX : forall c s, LI s -> h_err (H s) = 0 ->
  let hx := x_gc (H s) (xt c s) in
  LX s (setHX c s (fst hx) (snd hx)) /\ h_err (fst hx) = 0 /\
  (forall sl, x_pend (xt c s) = Some sl -> (sub64 (h_clock (H s)) (x_lastgc (xt c s)) <? gc_tick) = false ->
     o_dl (h_objs (H s) (so sl)) < h_clock (H s) -> nterm (hgot (fst hx) (sr sl)) = 1%nat).
Proof.
  intros c s Li He. unfold x_gc. destruct (x_pend (xt c s)) as [sl|] eqn:Ex; cbv zeta;
    [|split; [apply x_keep_LX; auto | split; [exact He | discriminate]]].
  destruct (sub64 _ _ <? gc_tick); [split; [apply x_keep_LX; auto | split; [exact He | intros sl' _ X; discriminate X]]|].
  destruct (o_dl _ <? _) eqn:Ed; cbn [fst snd].
  - destruct (x_clear_LX c s (fun o => SGc (h_clock (H s)) (o_dl o)) (fun _ => mkRes cTimeout 0 0) sl
                (mkO None (x_open (xt c s)) (x_chan (xt c s)) (h_clock (H s))) Li He) as (Lx & E & Hn);
      [apply terminal_const; reflexivity | exact Ex | reflexivity|].
    split; [exact Lx|]. split; [exact E|]. intros sl' Hs' _ _. inversion Hs'. subst sl'. exact Hn.
  - split; [apply x_keep_LX; auto|]. split; [exact He|]. intros sl' Hs' _ Hd. inversion Hs'. subst sl'.
    apply N.ltb_lt in Hd. congruence.
Qed.
Lemma x_close_LX : forall c s, LI s -> h_err (H s) = 0 ->
  LX s (setHX c s (fst (x_close (H s) (xt c s))) (snd (x_close (H s) (xt c s)))).
Proof.
  intros c s Li He. unfold x_close. destruct (x_pend (xt c s)) eqn:Ex; cbn [fst snd].
  - apply x_clear_LX; auto. apply terminal_const. reflexivity.
  - apply x_keep_LX; auto.
Qed.
Lemma x_request_LX : forall c ncf kind key to s, LI s -> h_err (H s) = 0 ->
  LX s (setHX c s (fst (x_request ncf kind (H s) (xt c s) key to)) (snd (x_request ncf kind (H s) (xt c s) key to))).
Proof.
  intros c ncf kind key to s Li He. unfold x_request. destruct (x_outcome (xt c s) to =? 0) eqn:Eo;
    [|apply x_keep_LX; auto].
  apply N.eqb_eq, x_outcome_open in Eo. destruct Eo as [Ex _]. rewrite new_obj_eq, let_pair. cbn [fst snd].
  eapply (alloc_LX s _ true _ _ _ _ _ _ _ Li); [apply H_setHX | try reflexivity ..].
  - apply pinv_setHX, Li.
  - destruct c; unfold live; [do 2 apply perm_skip | do 3 apply perm_skip]; apply perm_here;
      cbn in Ex |- *; rewrite Ex; apply Permutation_refl.
Qed.

Lemma x_match_some : forall h x key sl, x_match h x key = Some sl -> x_pend x = Some sl.
Proof. intros h x key sl. unfold x_match. destruct (x_pend x); [|discriminate]. destruct (_ =? key); [auto|discriminate]. Qed.

Definition one (sc : obj -> src) (f : obj -> res) (x : slot) : list ((obj -> src) * (obj -> res) * slot) := [(sc, f, x)].

Lemma alive_setHP : forall s h p kv, p_stop p = p_stop (P s) -> alive (setHP s h p) kv = alive s kv.
Proof. intros s h p kv E. unfold alive. cbn. rewrite E. reflexivity. Qed.

Lemma step0_LX : forall s o, LI s -> stop_closed (P s) -> inflight_keys s -> h_err (H s) = 0 ->
  h_err (H (step0 s o)) = 0 -> h_broken (H (step0 s o)) = false -> LX s (step0 s o).
Proof.
  intros s o Li Hsc Hif He He' Hb'.
  assert (Hp := step0_pinv s o Li).
  assert (Hid := LX_refl s Li).
  assert (Hsame : forall s', P s' = P s -> H s' = H s -> Permutation (live s) (live s') -> LX s s').
  { intros s' Ep Eh Hl. apply (LX_same _ _ Li); [rewrite Ep; exact (LI_pinv s Li) | exact Eh | exact Hl]. }
  destruct o; cbn [step0 proposal_committed_under_lock read_add_terminates_when_stopped] in *. (* cases in the order of [op] *)
  - apply proposeA_LX; assumption.
  - apply proposeB_LX; assumption.
  - destruct (to =? 0); [exact Hid|]. rewrite let_pair.
    destruct (read_outcome s to =? 0).
    + eapply (alloc_LX s _ true _ _ _ _ _ _ _ Li); try reflexivity; [exact (LI_pinv s Li)|].
      unfold live. apply perm_skip, perm_here. unfold live_reads. cbn [R setHR r_set_rq rq taken batches rd_stop].
      apply perm_here, Permutation_app_comm.
    + eapply (alloc_LX s _ false _ _ _ _ _ _ _ Li); try reflexivity. exact (LI_pinv s Li).
  - rewrite let_pair. apply (x_request_LX true); assumption.
  - rewrite let_pair. apply (x_request_LX false); assumption.
  - destruct (lq_outcome s =? 0) eqn:Eo; [|exact Hid]. rewrite let_pair, new_obj_eq.
    assert (Ex : lq_pend s = None).
    { unfold lq_outcome in Eo. destruct (_ && _); [discriminate|]. destruct (lq_pend s); [discriminate | reflexivity]. }
    eapply (alloc_LX s _ true _ _ _ _ _ _ _ Li); try reflexivity; [exact (LI_pinv s Li)|].
    unfold live. do 4 apply perm_skip. cbn. rewrite Ex. apply Permutation_refl.
  - destruct (_ && _); [|exact Hid]. destruct (_ =? i); apply (LX_quiet s _ Li).
    + apply quiet_drain, Li.
    + destruct (HI_updR_same (H s) i (fun q => r_set_left q [] []) ltac:(intros; cbn; auto) (li_h s Li)) as [Hi' Hold].
      split; [exact Hi'|]. split; [exact Hold|]. split; [reflexivity|]. intros r. rewrite hgot_updR. cbn.
      destruct (r =? i) eqn:E; [apply N.eqb_eq in E; subst r|]; auto.
  - destruct (_ && _) eqn:Ec; [|exact Hid].
    apply andb_true_iff in Ec. destruct Ec as [Ec Ertr]. apply andb_true_iff in Ec. destruct Ec as [Ec Erel].
    apply andb_true_iff in Ec. destruct Ec as [Ec _]. apply andb_true_iff in Ec. destruct Ec as [Elt _].
    apply N.ltb_lt in Elt. apply negb_true_iff in Erel.
    apply (LX_quiet s _ Li), quiet_release; auto. apply Li.
  - apply (LX_same _ _ Li Hp eq_refl), Permutation_refl.
  - destruct (taken (R s)) eqn:Et; [|exact Hid]. apply Hsame; try reflexivity.
    unfold live, live_reads. cbn. rewrite Et. apply Permutation_refl.
  - revert He'. pose proof (addReads_stopped_LX s lo hi Li He) as Hst. cbn [step0 read_add_terminates_when_stopped] in Hst.
    destruct (rd_stop (R s)) eqn:Est; [intros _; apply Hst; reflexivity | clear Hst].
    destruct (taken (R s)) as [|t0 tk] eqn:Et; [intros _; exact Hid|].
    destruct (existsb _ _); [cbn; intros X; discriminate X|]. intros _. apply Hsame; try reflexivity.
    unfold live, live_reads. cbn. rewrite Et, Est. unfold batch_slots. cbn. rewrite <- !app_assoc. apply Permutation_refl.
  - apply Hsame; try reflexivity. unfold live, live_reads. cbn [R setHR r_set_b rq taken batches rd_stop].
    rewrite batch_slots_map_idx; [apply Permutation_refl|]. intros b. destruct (ctx_eqb _ _); reflexivity.
  - apply readsApplied_LX; assumption.
  - destruct (rd_stop (R s)) eqn:Est; [exact Hid|].
    set (hit := fun b : (N * N) * (N * list slot) => ctx_eqb (fst b) (lo, hi)).
    apply (LX_notify_all s _ SDrop (mkRes cDropped 0 0) (batch_slots (filter hit (batches (R s)))) Li He); [exact (LI_pinv s Li) | reflexivity | | reflexivity].
    apply live_R. unfold live_reads. cbn [R setHR r_set_b rq taken batches rd_stop].
    rewrite Est. do 2 apply perm_skip. apply (batch_split hit).
  - apply (LX_quiet s _ Li), quiet_ext; try reflexivity. apply Li.
  - apply gc_at_LX; assumption.
  - rewrite let_pair. apply (x_gc_LX true); assumption.
  - rewrite let_pair. apply (x_gc_LX false); assumption.
  - destruct (take s cid sid key (h_clock (H s))) as [sl|] eqn:Et; [|exact Hid].
    apply (take_notify_LX s SDrop (mkRes cDropped 0 0) cid sid key _ sl _ Li He eq_refl Et); reflexivity.
  - destruct (x_match (H s) (C s) key) as [sl|] eqn:Em; [|exact Hid]. apply x_match_some in Em.
    apply (x_clear_LX true); auto. apply terminal_const. reflexivity.
  - apply (x_keep_LX true); auto.
  - apply (x_keep_LX false); auto.
  - revert He'. destruct (lq_pend s) as [sl|] eqn:El; [|destruct (_ && _); [intros _; exact Hid | cbn; intros X; discriminate X]].
    intros _. apply (LX_notify_all s _ SOther (mkRes (if oor then cOutOfRange else cCompleted) a b) [sl] Li He); [exact (LI_pinv s Li) | destruct oor; reflexivity | | reflexivity].
    apply live_L. rewrite El. apply Permutation_refl.
  - revert Hp. destruct (take s cid sid key (h_clock (H s))) as [sl|] eqn:Et; intros Hp.
    + eapply take_notify_LX; try eassumption; try reflexivity. cbn. destruct rej; reflexivity.
    + apply (LX_same _ _ Li Hp eq_refl), Permutation_refl.
  - revert Hp. destruct (ap_now (P s)) as [[k now]|]; [|intros _; exact Hid]. intros Hp.
    destruct (now =? _); [apply (LX_same _ _ Li Hp eq_refl), Permutation_refl|].
    set (s1 := setHP s (H s) (p_set_ap (P s) None)).
    apply (LX_ext s1 (gc_at s1 k now)); try reflexivity. apply gc_at_LX; [|exact He].
    exact (proj1 (LX_same s s1 Li (LI_pinv s Li) eq_refl (Permutation_refl _))).
  - destruct (x_match (H s) (C s) key) as [sl|] eqn:Em; [|exact Hid]. apply x_match_some in Em.
    apply (x_clear_LX true); auto. intros o. cbn. destruct rej; reflexivity.
  - revert He'. destruct (ign && abo); [cbn; intros X; discriminate X|].
    destruct (x_match (H s) (S s) key) as [sl|] eqn:Em; [|intros _; exact Hid]. apply x_match_some in Em.
    intros _. unfold notify. apply (x_clear_LX false); auto. intros o. destruct ign; [reflexivity|]. destruct abo; reflexivity.
  - revert He' Hb'. destruct (take s cid sid key (h_clock (H s))) as [sl|] eqn:Et; [|intros; exact Hid]. intros He' Hb'.
    destruct (take_some s _ _ _ _ _ Li Et) as (_ & _ & Hin).
    apply (LX_quiet s _ Li), quiet_commit; auto; [apply Li | apply ok_of_live; assumption].
  - exact Hid.
  - exact Hid.
  - revert He' Hb'. destruct (x_match (H s) (C s) key) as [sl|] eqn:Em; [|intros; exact Hid]. intros He' Hb'. apply x_match_some in Em.
    apply (LX_quiet s _ Li), quiet_commit; auto; [apply Li | apply ok_of_live; [exact Li|]].
    unfold live. rewrite Em. cbn. apply in_or_app. right. apply in_or_app. right. left. reflexivity.
  - apply closeR_LX; assumption.
  - apply closeP_LX; assumption.
  - destruct (x_open (C s)); [|exact Hid]. rewrite let_pair. apply (x_close_LX true); assumption.
  - rewrite let_pair. apply (x_close_LX false); assumption.
  - destruct (lq_pend s) as [sl|] eqn:Em.
    + apply (LX_notify_all s _ SClose terminated [sl] Li He); [exact (LI_pinv s Li) | reflexivity | | reflexivity].
      apply live_L. rewrite Em. apply Permutation_refl.
    + apply Hsame; try reflexivity. apply (live_L s _ _ _ []). rewrite Em. apply Permutation_refl.
Qed.

Lemma step_LX : forall s o, LI s -> stop_closed (P s) -> inflight_keys s ->
  h_broken (H (step s o)) = false -> LX s (step s o).
Proof.
  intros s o Li Hsc Hif. unfold step. destruct (h_err (H s) =? 0) eqn:E0; cbn [negb]; [|intros; apply (LX_refl _ Li)].
  apply N.eqb_eq in E0. destruct (h_err (H (step0 s o)) =? 0) eqn:E1.
  - apply N.eqb_eq in E1. intros Hb. apply step0_LX; assumption.
  - intros _. apply (LX_quiet s _ Li), quiet_ext; try reflexivity. apply Li.
Qed.
