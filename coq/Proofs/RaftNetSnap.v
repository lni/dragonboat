(* L2, stage 2: every run of the model with compaction and InstallSnapshot
   (Model/RaftNetSnap.v) is simulated by a run of the stage-1 model whose soup holds, for
   every snapshot message, the Replicate messages the snapshot stands for.  The stage-1
   theorems therefore hold for the logical logs of stage 2. *)
From DB Require Import Model.RaftNet Model.RaftNetSnap Proofs.RaftNetLists Proofs.RaftNetElection
  Proofs.RaftNetLog Proofs.RaftNetCommitDefs Proofs.RaftNetCommit Proofs.RaftNetSafety.

Definition with_msgs (n : net) (ms : list msg) : net :=
  mkNet (nodes n) ms (lead n) (llog0 n) (llog n).

Lemma filter_length_mono {A} (f g : A -> bool) (l : list A) :
  (forall x, f x = true -> g x = true) -> length (filter f l) <= length (filter g l).
Proof.
  intros H. induction l as [|a l IH]; simpl; [lia|].
  destruct (f a) eqn:E.
  - rewrite (H a E). simpl. lia.
  - destruct (g a); simpl; lia.
Qed.

Lemma existsb_incl {A} (f : A -> bool) (l l' : list A) :
  incl l l' -> existsb f l = true -> existsb f l' = true.
Proof.
  intros Hi H. apply existsb_exists in H. destruct H as (x & Hx & Hf).
  apply existsb_exists. exists x. split; [now apply Hi | exact Hf].
Qed.

Lemma updn_eq f i x : updn f i x i = x.
Proof. unfold updn. now rewrite Nat.eqb_refl. Qed.

Lemma updn_neq f i x j : j <> i -> updn f i x j = f j.
Proof. unfold updn. intros H. apply Nat.eqb_neq in H. now rewrite H. Qed.

Section SnapSim.
  Variable V : list id.
  Hypothesis V_nodup : NoDup V.

  Notation step := (step V).
  Notation steps := (steps V).
  Notation reachable := (reachable V).
  Notation step2 := (step2 V).
  Notation steps2 := (steps2 V).
  Notation reachable2 := (reachable2 V).

  Lemma vote_count_mono ms ms' t c :
    incl ms ms' -> vote_count V ms t c <= vote_count V ms' t c.
  Proof. intros Hi. apply filter_length_mono. intros v. now apply existsb_incl. Qed.

  Lemma ack_count_mono ms ms' t k :
    incl ms ms' -> ack_count V ms t k <= ack_count V ms' t k.
  Proof. intros Hi. apply filter_length_mono. intros v. now apply existsb_incl. Qed.

  Definition same_acks (ms ms0 : list msg) : Prop :=
    forall t i l k, In (Ack t i l k) ms -> In (Ack t i l k) ms0.

  Lemma acks_le_mono ms ms0 i m :
    same_acks ms ms0 -> acks_le ms0 i m = true -> acks_le ms i m = true.
  Proof.
    unfold acks_le. intros Hs H. rewrite forallb_forall in *. intros x Hx.
    destruct x; auto. apply (H _ (Hs _ _ _ _ Hx)).
  Qed.

  (* a step stays possible, with the same effect, in a bigger soup that has no other
     acknowledgements *)
  Lemma step_soup_mono n l n' ms :
    step n l n' -> incl (msgs n) ms -> same_acks ms (msgs n) ->
    exists new, msgs n' = new ++ msgs n /\
                step (with_msgs n ms) l (with_msgs n' (new ++ ms)).
  Proof.
    intros Hstep Hi Hacks.
    destruct Hstep; repeat match goal with x := _ |- _ => subst x end; subst;
      unfold with_msgs; cbn [nodes msgs lead llog0 llog].
    all: first [ exists []; split; [reflexivity|] | eexists [_]; split; [reflexivity|]
               | eexists [_; _]; split; [reflexivity|] ].
    all: try (econstructor; cbn [nodes msgs]; eauto using acks_le_mono; fail).
    - apply (SABecomeLeader V (mkNet _ ms _ _ _)); cbn [nodes msgs]; auto.
      pose proof (vote_count_mono (msgs n) ms (term (nodes n i)) i Hi). lia.
    - apply (SAHandleAE V (mkNet _ ms _ _ _)); cbn [nodes msgs]; auto.
    - apply (SAAdvanceCommit V (mkNet _ ms _ _ _)); cbn [nodes msgs]; auto.
      pose proof (ack_count_mono (msgs n) ms (term (nodes n i)) k Hi). lia.
    - apply (SASendHB V (mkNet _ ms _ _ _)); cbn [nodes msgs]; auto.
      match goal with H : _ \/ _ |- _ => destruct H as [H|H]; [now left | right] end.
      eapply existsb_incl; eauto.
  Qed.

  (* the Replicate messages a snapshot (t, ldr, sidx) stands for: one per prev p <= sidx *)
  Definition is_covered (g : nat -> list entry) (ms : list msg) (m : snapmsg) : Prop :=
    match m with
    | IS t ldr sidx sterm =>
      let L := firstn sidx (g t) in
      1 <= sidx <= length (g t) /\ sterm = term_at L sidx /\
      forall p, p <= sidx -> In (AE t ldr p (term_at L p) (skipn p L) sidx) ms
    end.

  Definition R (s : net2) (ms : list msg) : Prop :=
    incl (msgs (base s)) ms /\
    (forall m, In m (snaps s) -> is_covered (llog (base s)) ms m) /\
    same_acks ms (msgs (base s)).

  Definition wf2 (s : net2) : Prop :=
    forall i, first s i <= commit (nodes (base s) i).

  Lemma is_covered_mono g g' ms ms' m :
    (forall t, exists e, g' t = g t ++ e) -> incl ms ms' ->
    is_covered g ms m -> is_covered g' ms' m.
  Proof.
    intros Hg Hi. destruct m as [t ldr sidx sterm]. cbn [is_covered].
    intros (Hs & Ht & Hp). destruct (Hg t) as (e & ->).
    assert (E : firstn sidx (g t ++ e) = firstn sidx (g t)) by (apply agree_app_l; lia).
    rewrite E. split; [rewrite app_length; lia|]. split; [exact Ht|].
    intros p Hple. apply Hi. now apply Hp.
  Qed.

  Lemma wf2_step s l s' : wf2 s -> step2 s l s' -> wf2 s'.
  Proof.
    intros Hwf Hstep i. specialize (Hwf i).
    destruct Hstep; repeat match goal with x := _ |- _ => subst x end; subst;
      cbn [base first nodes].
    - destruct (step_commit_mono V _ _ _ i H0) as [Hle|(c & m & -> & Hc)]; [lia|].
      simpl in H. lia.
    - destruct (Nat.eq_dec i i0) as [->|Hne]; [rewrite updn_eq; lia | now rewrite updn_neq].
    - assumption.
    - simp_upd; lia.
    - simp_upd; lia.
    - destruct (Nat.eq_dec i j) as [->|Hne].
      + rewrite updn_eq, upd_eq. simpl. lia.
      + rewrite updn_neq, upd_neq by assumption. lia.
  Qed.

  Lemma wf2_init : wf2 init2.
  Proof. intros i. simpl. lia. Qed.

  (* sending, one by one, the messages [ae p] for p < k: for any system whose state with
     soup ms is [st ms] and which can always send [ae p] by the label [lb p] *)
  Lemma send_all (St Lb : Type) (run : St -> list Lb -> St -> Prop) (st : list msg -> St)
        (lb : nat -> Lb) (ae : nat -> msg) ms sidx :
    (forall a, run a [] a) ->
    (forall a ls b l c, run a ls b -> run b [l] c -> run a (ls ++ [l]) c) ->
    (forall new p, p <= sidx -> run (st (new ++ ms)) [lb p] (st ((ae p :: new) ++ ms))) ->
    (forall p t v l0 k0, ae p <> Ack t v l0 k0) ->
    forall k, k <= S sidx ->
    exists ls new, run (st ms) ls (st (new ++ ms)) /\
                   (forall t v l0 k0, ~ In (Ack t v l0 k0) new) /\
                   forall p, p < k -> In (ae p) (new ++ ms).
  Proof.
    intros Hnil Hsnoc Hone Hae. induction k as [|k IH]; intros Hk.
    - exists [], []. split; [apply Hnil|]. split; [intros ? ? ? ? []|]. intros p Hp. lia.
    - destruct (IH ltac:(lia)) as (ls & new & Hs & Hna & Hp).
      exists (ls ++ [lb k]), (ae k :: new). split; [|split].
      + eapply Hsnoc; [exact Hs | apply Hone; lia].
      + intros t v l0 k0 [E|Hin]; [exact (Hae _ _ _ _ _ E) | eapply Hna; eauto].
      + intros p Hplt. destruct (Nat.eq_dec p k) as [->|Hne]; [now left | right; apply Hp; lia].
  Qed.

  (* sending all the Replicate messages a snapshot at sidx stands for *)
  Lemma send_covering b ms i sidx :
    role (nodes b i) = Leader -> sidx <= commit (nodes b i) ->
    sidx <= length (log (nodes b i)) ->
    forall k, k <= S sidx ->
    exists ls new,
      steps (with_msgs b ms) ls (with_msgs b (new ++ ms)) /\
      (forall t v l0 k0, ~ In (Ack t v l0 k0) new) /\
      forall p, p < k ->
        In (AE (term (nodes b i)) i p (term_at (log (nodes b i)) p)
               (firstn (sidx - p) (skipn p (log (nodes b i)))) sidx) (new ++ ms).
  Proof.
    intros Hrole Hc Hl.
    apply (send_all net label steps (with_msgs b) (fun p => LSendAE i p (sidx - p) sidx));
      try discriminate; [constructor | |].
    - intros a ls c l d H1 H2. eapply (steps_app V); eauto.
    - intros new p Hp. econstructor; [|constructor]. unfold with_msgs. simpl.
      apply (SASendAE V (mkNet (nodes b) (new ++ ms) (lead b) (llog0 b) (llog b)));
        cbn [nodes]; auto; lia.
  Qed.

  (* the leader's Replicate messages with every prev <= sidx cover its snapshot at sidx *)
  Lemma leader_snapshot_covered g ms t i sidx L :
    g t = L -> 1 <= sidx <= length L ->
    (forall p, p < S sidx -> In (AE t i p (term_at L p) (firstn (sidx - p) (skipn p L)) sidx) ms) ->
    is_covered g ms (IS t i sidx (term_at L sidx)).
  Proof.
    intros <- Hs Hp. cbn [is_covered]. split; [exact Hs|].
    split; [now rewrite term_at_firstn by lia|].
    intros p Hple. rewrite term_at_firstn by lia. rewrite skipn_firstn_comm. apply Hp. lia.
  Qed.

  Definition covers (b : net) (sn : list snapmsg) (ms : list msg) : Prop :=
    incl (msgs b) ms /\ (forall m, In m sn -> is_covered (llog b) ms m) /\ same_acks ms (msgs b).

  Lemma covers_step b b' sn new ms :
    msgs b' = new ++ msgs b -> (forall t, exists e, llog b' t = llog b t ++ e) ->
    covers b sn ms -> covers b' sn (new ++ ms).
  Proof.
    intros Hnew Hg (Hincl & Hcov & Hsa). unfold covers. rewrite Hnew. split; [|split].
    - apply incl_app; [apply incl_appl, incl_refl | apply incl_appr, Hincl].
    - intros m Hm. eapply is_covered_mono; [exact Hg | apply incl_appr, incl_refl | now apply Hcov].
    - intros t i l k Hm. apply in_app_or in Hm. apply in_or_app.
      destruct Hm; [now left | right; now apply Hsa].
  Qed.

  Lemma covers_ack b nd a sn ms :
    covers b sn ms -> covers (mkNet nd (a :: msgs b) (lead b) (llog0 b) (llog b)) sn (a :: ms).
  Proof. exact (covers_step b (mkNet nd _ _ _ _) sn [a] ms eq_refl (ext_refl _)). Qed.

  Lemma covers_send b sn new ms m :
    (forall t v l k, ~ In (Ack t v l k) new) -> is_covered (llog b) (new ++ ms) m ->
    covers b sn ms -> covers b (m :: sn) (new ++ ms).
  Proof.
    intros Hna Hm (Hincl & Hcov & Hsa). split; [|split].
    - apply incl_appr, Hincl.
    - intros m' [<-|Hm']; [exact Hm|].
      eapply is_covered_mono; [apply ext_refl | apply incl_appr, incl_refl | now apply Hcov].
    - intros t v l k Hin. apply in_app_or in Hin.
      destruct Hin as [Hin|Hin]; [destruct (Hna _ _ _ _ Hin) | now apply Hsa].
  Qed.

  (* handling a snapshot is handling one of the Replicate messages it stands for; no quorum
     is involved, so this holds for the steps of any voter set *)

  (* at or below the commit index: the Replicate with prev = 0 is stale *)
  Lemma install_stale V' a j ldr sidx sterm :
    let x := nodes a j in
    is_covered (llog a) (msgs a) (IS (term x) ldr sidx sterm) -> sidx <= commit x ->
    exists pt ents,
      RaftNet.step V' a (LHandleAE j (term x) ldr 0 pt ents sidx)
        (mkNet (upd (nodes a) j (mkNode (term x) (voted x) Follower (log x) (commit x) (hcommit x)))
               (Ack (term x) j ldr (commit x) :: msgs a) (lead a) (llog0 a) (llog a)).
  Proof.
    intros x (Hs & _ & Hp) Hc. do 2 eexists.
    apply SAHandleAEStale; [apply (Hp 0); lia | reflexivity | fold x; lia].
  Qed.

  (* above it: the Replicate with prev = commit appends nothing if the log has the
     snapshot's term at sidx, and replaces the log by the snapshot's content otherwise *)
  Lemma install_as_append V' a j ldr sidx sterm :
    inv2 a -> inv3a a -> agl a ->
    let x := nodes a j in
    is_covered (llog a) (msgs a) (IS (term x) ldr sidx sterm) -> commit x < sidx ->
    exists pt ents,
      RaftNet.step V' a (LHandleAE j (term x) ldr (commit x) pt ents sidx)
        (mkNet (upd (nodes a) j
                  (mkNode (term x) (voted x) Follower
                          (if term_at (log x) sidx =? sterm then log x
                           else firstn sidx (llog a (term x)))
                          sidx (Nat.max (hcommit x) sidx)))
               (Ack (term x) j ldr sidx :: msgs a) (lead a) (llog0 a) (llog a)).
  Proof.
    intros H2 H3a Hagl x (Hs & Ht & Hp) Hc.
    set (t := term x) in *. set (L := firstn sidx (llog a t)) in *.
    pose proof (Hp (commit x) ltac:(lia)) as Hae.
    assert (Hlen : commit x + length (skipn (commit x) L) = sidx).
    { rewrite skipn_length. unfold L. rewrite firstn_length. lia. }
    destruct (i_ae a H2 _ _ _ _ _ _ Hae) as (Hlead & _).
    destruct (Hagl j t eq_refl Hlead) as (Hhc & _). fold x in Hhc.
    destruct (i_commit_bounds a H3a j) as (Hcb & _). fold x in Hcb.
    assert (Hpt : term_at L (commit x) = term_at (log x) (commit x)).
    { unfold L. rewrite term_at_firstn by lia. symmetry. apply (agree_term_at _ _ _ _ Hhc). lia. }
    rewrite Hpt in Hae.
    destruct (try_append (log x) (commit x) (commit x) (skipn (commit x) L)) as [l'|] eqn:Hta;
      [|now destruct (try_append_defined a j ldr _ _ sidx H2 H3a Hagl Hae)].
    pose proof (SAHandleAE V' a j t ldr (commit x) _ _ sidx l' Hae eq_refl (le_n _) eq_refl Hta) as Hst.
    fold x in Hst. rewrite Hlen in Hst.
    replace (Nat.max (commit x) (Nat.min sidx sidx)) with sidx in Hst by lia.
    do 2 eexists.
    replace (if term_at (log x) sidx =? sterm then log x else L) with l';
      [exact Hst|].
    assert (Est : sterm = term_at (llog a t) sidx) by (rewrite Ht; apply term_at_firstn; lia).
    destruct (handle_ae_log a t ldr (commit x) _ _ sidx (log x) (commit x) l' H2 Hae
                            (i_log_ok a H2 j) eq_refl Hta) as [(-> & Hag)|(-> & Hnag)];
      rewrite Hlen in *; destruct (Nat.eqb_spec (term_at (log x) sidx) sterm) as [E|E];
      try reflexivity.
    - destruct E. rewrite Est. apply (agree_term_at _ _ _ _ Hag). lia.
    - destruct Hnag.
      assert (Hst1 : 1 <= sterm).
      { rewrite Est. destruct (term_at_In (llog a t) sidx Hs) as (e & He & ->).
        apply (i_llog_terms a H2 t e He). }
      assert (Hr : 1 <= sidx <= length (log x)) by (apply term_at_in_range; lia).
      apply (log_ok_matching a (log x) (llog a t) sidx (i_log_ok a H2 j) (i_llog_ok a H2 t));
        lia.
  Qed.

  Lemma sim_base s l b' ms :
    reachable (with_msgs (base s) ms) -> R s ms -> step (base s) l b' ->
    exists ms', step (with_msgs (base s) ms) l (with_msgs b' ms') /\
                R (mkNet2 b' (first s) (snaps s)) ms'.
  Proof.
    intros Hreach HR H0.
    pose proof (inv_reachable V V_nodup _ Hreach) as [H1 Hq H2 H3a H3b].
    destruct (step_soup_mono _ _ _ ms H0 (proj1 HR) (proj2 (proj2 HR))) as (new & Hnew & Hst).
    exists (new ++ ms). split; [exact Hst|].
    pose proof (step_gext V _ _ _ H1 H2 (fresh_fixed V V_nodup _ _ _ H1 Hq Hst) Hst) as (_ & _ & Hg & _).
    exact (covers_step (base s) b' _ new ms Hnew Hg HR).
  Qed.

  Theorem sim_step s l s' ms :
    reachable (with_msgs (base s) ms) -> R s ms -> step2 s l s' ->
    exists ls ms', steps (with_msgs (base s) ms) ls (with_msgs (base s') ms') /\ R s' ms'.
  Proof.
    intros Hreach HR Hstep.
    pose proof (inv_reachable V V_nodup _ Hreach) as [A1 Aq A2 A3a A3b].
    pose proof (agl_fixed V _ A2 A3a A3b) as Hagl.
    destruct Hstep; repeat match goal with x := _ |- _ => subst x end; subst;
      cbn [base first snaps].
    - destruct (sim_base s l b' ms Hreach HR H0) as (ms' & Hst & HR').
      exists [l], ms'. split; [econstructor; [exact Hst | constructor] | exact HR'].
    - (* compaction: invisible at stage 1 *)
      exists [], ms. split; [constructor | exact HR].
    - (* sending a snapshot: send the Replicate messages it stands for *)
      destruct (i_commit_bounds _ A3a i) as (Hc1 & Hc2). cbn [with_msgs nodes] in Hc1, Hc2.
      destruct (send_covering (base s) ms i sidx H ltac:(lia) ltac:(lia) (S sidx) (le_n _))
        as (ls & new & Hs & Hna & Hp).
      exists ls, (new ++ ms). split; [exact Hs|].
      apply (covers_send (base s)); [exact Hna | | exact HR].
      apply leader_snapshot_covered; [exact (i_leader_log _ A2 i H) | lia | exact Hp].
    - destruct (install_stale V (with_msgs (base s) ms) j ldr sidx sterm (proj1 (proj2 HR) _ H)
                              ltac:(assumption)) as (pt & ents & Hst).
      exists [LHandleAE j (term (nodes (base s) j)) ldr 0 pt ents sidx],
             (Ack (term (nodes (base s) j)) j ldr (commit (nodes (base s) j)) :: ms).
      split; [econstructor; [exact Hst | constructor]|].
      exact (covers_ack (base s) _ _ _ ms HR).
    - destruct (install_as_append V (with_msgs (base s) ms) j ldr sidx _ A2 A3a Hagl
                                  (proj1 (proj2 HR) _ H) ltac:(assumption)) as (pt & ents & Hst).
      cbn [with_msgs nodes] in Hst. rewrite Nat.eqb_refl in Hst.
      exists [LHandleAE j (term (nodes (base s) j)) ldr (commit (nodes (base s) j)) pt ents sidx],
             (Ack (term (nodes (base s) j)) j ldr sidx :: ms).
      split; [econstructor; [exact Hst | constructor]|].
      exact (covers_ack (base s) _ _ _ ms HR).
    - destruct (install_as_append V (with_msgs (base s) ms) j ldr sidx sterm A2 A3a Hagl
                                  (proj1 (proj2 HR) _ H) ltac:(assumption)) as (pt & ents & Hst).
      cbn [with_msgs nodes llog] in Hst. match goal with E : _ <> sterm |- _ => rewrite (proj2 (Nat.eqb_neq _ _) E) in Hst end.
      exists [LHandleAE j (term (nodes (base s) j)) ldr (commit (nodes (base s) j)) pt ents sidx],
             (Ack (term (nodes (base s) j)) j ldr sidx :: ms).
      split; [econstructor; [exact Hst | constructor]|].
      exact (covers_ack (base s) _ _ _ ms HR).
  Qed.

  Lemma sim_steps s ls s' : steps2 s ls s' -> forall ms,
    reachable (with_msgs (base s) ms) -> R s ms ->
    exists ls1 ms', steps (with_msgs (base s) ms) ls1 (with_msgs (base s') ms') /\ R s' ms'.
  Proof.
    induction 1 as [s|s l s1 ls s2 Hst Hsts IH]; intros ms Hreach HR.
    - exists [], ms. split; [constructor | exact HR].
    - destruct (sim_step s l s1 ms Hreach HR Hst) as (la & ms1 & Ha & HR1).
      destruct (IH ms1 (steps_reachable V _ _ _ Hreach Ha) HR1) as (lb & ms2 & Hb & HR2).
      exists (la ++ lb), ms2. split; [eapply (steps_app V); eauto | exact HR2].
  Qed.

  (* every reachable stage-2 state is a reachable stage-1 state with a bigger soup *)
  Theorem stage2_refines_stage1 s :
    reachable2 s -> exists ms, reachable (with_msgs (base s) ms) /\ R s ms.
  Proof.
    intros (ls & Hs).
    assert (H0 : reachable (with_msgs (base (init2)) [])) by (exists []; constructor).
    assert (HR0 : R init2 []) by (split; [intros m [] | split; [intros m [] | intros ? ? ? ? []]]).
    destruct (sim_steps _ _ _ Hs [] H0 HR0) as (ls1 & ms & Hst & HR).
    exists ms. split; [|exact HR]. eapply steps_reachable; eauto.
  Qed.

  Lemma wf2_steps s ls s' : wf2 s -> steps2 s ls s' -> wf2 s'.
  Proof. intros Hw Hs. induction Hs; [assumption|]. apply IHHs. eapply wf2_step; eauto. Qed.

  Lemma steps2_reachable s ls s' : reachable2 s -> steps2 s ls s' -> reachable2 s'.
  Proof.
    intros (l0 & H0) Hs. exists (l0 ++ ls).
    induction H0; simpl; [assumption|]. econstructor; eauto.
  Qed.

  (* a snapshot only ever covers committed entries *)
  Theorem snapshot_is_committed s i :
    reachable2 s -> first s i <= commit (nodes (base s) i).
  Proof. intros (ls & Hs). eapply wf2_steps; [apply wf2_init | exact Hs]. Qed.

  Theorem election_safety2 s i j :
    reachable2 s ->
    role (nodes (base s) i) = Leader -> role (nodes (base s) j) = Leader ->
    term (nodes (base s) i) = term (nodes (base s) j) -> i = j.
  Proof.
    intros Hr. destruct (stage2_refines_stage1 s Hr) as (ms & Hreach & _).
    apply (election_safety V V_nodup _ i j Hreach).
  Qed.

  Theorem log_matching2 s i j k :
    reachable2 s ->
    1 <= k -> k <= length (log (nodes (base s) i)) -> k <= length (log (nodes (base s) j)) ->
    term_at (log (nodes (base s) i)) k = term_at (log (nodes (base s) j)) k ->
    firstn k (log (nodes (base s) i)) = firstn k (log (nodes (base s) j)).
  Proof.
    intros Hr. destruct (stage2_refines_stage1 s Hr) as (ms & Hreach & _).
    apply (log_matching V V_nodup (with_msgs (base s) ms) _ _ k Hreach
                        (KNode _ i) (KNode _ j)).
  Qed.

  Theorem state_machine_safety2 s a b k :
    reachable2 s -> k <= commit (nodes (base s) a) -> k <= commit (nodes (base s) b) ->
    firstn k (log (nodes (base s) a)) = firstn k (log (nodes (base s) b)).
  Proof.
    intros Hr. destruct (stage2_refines_stage1 s Hr) as (ms & Hreach & _).
    apply (state_machine_safety V V_nodup _ a b k Hreach).
  Qed.

  (* the same for what the nodes really store: entry j (first < j <= k) read from the
     stored suffixes of two nodes that both committed k *)
  Theorem state_machine_safety2_stored s a b k j :
    reachable2 s -> k <= commit (nodes (base s) a) -> k <= commit (nodes (base s) b) ->
    first s a < j -> first s b < j -> j <= k ->
    nth_error (snd (stored s a)) (j - 1 - first s a)
    = nth_error (snd (stored s b)) (j - 1 - first s b).
  Proof.
    intros Hr Ha Hb Hfa Hfb Hj. unfold stored. cbn [snd].
    rewrite !nth_error_skipn.
    replace (first s a + (j - 1 - first s a)) with (j - 1) by lia.
    replace (first s b + (j - 1 - first s b)) with (j - 1) by lia.
    apply (agree_nth k); [now apply state_machine_safety2 | lia].
  Qed.

  Theorem committed_never_replaced2 s ls s' i k :
    reachable2 s -> steps2 s ls s' -> k <= commit (nodes (base s) i) ->
    firstn k (log (nodes (base s') i)) = firstn k (log (nodes (base s) i)).
  Proof.
    intros Hr Hs Hk. destruct (stage2_refines_stage1 s Hr) as (ms & Hreach & HR).
    destruct (sim_steps s ls s' Hs ms Hreach HR) as (ls1 & ms' & Hst & _).
    apply (committed_never_replaced V V_nodup _ _ _ i k Hreach Hst Hk).
  Qed.

  (* an entry committed by AdvanceCommit is in the log of every later leader, also when
     logs are compacted and replaced by snapshots in between *)
  Theorem leader_completeness2_trace s i k s1 ls s2 j :
    reachable2 s -> step2 s (L2Base (LAdvanceCommit i k)) s1 -> steps2 s1 ls s2 ->
    role (nodes (base s2) j) = Leader ->
    term (nodes (base s) i) < term (nodes (base s2) j) ->
    firstn k (log (nodes (base s2) j)) = firstn k (log (nodes (base s) i)).
  Proof.
    intros Hr Hstep Hs Hrole Hlt.
    destruct (stage2_refines_stage1 s Hr) as (ms & Hreach & HR).
    inversion Hstep; subst.
    match goal with Hb : RaftNet.step V (base s) _ b' |- _ =>
      destruct (sim_base s _ b' ms Hreach HR Hb) as (ms1 & Hst1 & HR1) end.
    assert (Hreach1 : reachable (with_msgs b' ms1)).
    { eapply steps_reachable; [exact Hreach|]. econstructor; [exact Hst1 | constructor]. }
    destruct (sim_steps _ ls s2 Hs ms1 Hreach1 HR1) as (ls1 & ms2 & Hst2 & _).
    apply (leader_completeness_trace V V_nodup _ i k _ ls1 _ j Hreach Hst1 Hst2 Hrole Hlt).
  Qed.

  (* the content of every snapshot message is committed: it agrees with the log of every
     node as far as that node has committed *)
  Theorem snapshot_content_committed s t ldr sidx sterm i k :
    reachable2 s -> In (IS t ldr sidx sterm) (snaps s) ->
    k <= sidx -> k <= commit (nodes (base s) i) ->
    firstn k (log (nodes (base s) i)) = firstn k (llog (base s) t) /\
    sterm = term_at (llog (base s) t) sidx.
  Proof.
    intros Hr Hin Hk Hc. destruct (stage2_refines_stage1 s Hr) as (ms & Hreach & (_ & Hcov & _)).
    destruct (Hcov _ Hin) as (Hs & Ht & Hp).
    pose proof (inv_reachable V V_nodup _ Hreach) as [H1 Hq H2 H3a H3b].
    split; [|rewrite Ht; apply term_at_firstn; lia].
    pose proof (i_ae_commit V _ H3b _ _ _ _ _ _ (Hp 0 ltac:(lia))) as Hcp.
    destruct (i_commit_bounds _ H3a i) as (Hcb & _).
    apply (cprefix_agree2 V _ _ _ _ _ _ _ k H2 H3b (i_hcommit V _ H3b i) Hcp);
      cbn [with_msgs nodes] in *; lia.
  Qed.

  (* restore() leaves exactly (snapshot index, snapshot term, no entries), committed =
     snapshot index: the ghost prefix the model writes is invisible *)
  Theorem restore_stored s j t ldr sidx sterm s' :
    reachable2 s -> step2 s (L2HandleIS j t ldr sidx sterm) s' ->
    commit (nodes (base s) j) < sidx -> term_at (log (nodes (base s) j)) sidx <> sterm ->
    stored s' j = (sidx, sterm, []) /\ commit (nodes (base s') j) = sidx.
  Proof.
    intros Hr Hstep Hc Hne.
    inversion Hstep; subst; repeat match goal with x := _ |- _ => subst x end; try lia;
      try contradiction.
    match goal with Hin : In (IS _ _ _ _) _ |- _ => rename Hin into HinIS end.
    destruct (snapshot_content_committed s _ ldr sidx sterm j 0 Hr HinIS ltac:(lia) ltac:(lia))
      as (_ & Hst).
    destruct (stage2_refines_stage1 s Hr) as (ms & _ & (_ & Hcov & _)).
    destruct (Hcov _ HinIS) as (Hs & _ & _).
    unfold stored. cbn [base first nodes]. rewrite updn_eq, upd_eq. cbn [log commit].
    split; [|reflexivity]. f_equal; [f_equal|].
    - rewrite term_at_firstn by lia. now rewrite Hst.
    - apply skipn_all2. rewrite firstn_length. lia.
  Qed.

  Lemma snap_in m l : existsb (snapmsg_eqb m) l = true -> In m l.
  Proof.
    intros H. apply existsb_exists in H. destruct H as ([t' i' x' y'] & Hx & He).
    destruct m. simpl in He.
    repeat (apply andb_prop in He; destruct He as [He ?]).
    repeat match goal with E : (_ =? _) = true |- _ => apply Nat.eqb_eq in E end.
    now subst.
  Qed.

  Lemma visible_b_spec s l : visible_b s l = true -> visible s l.
  Proof. destruct l; simpl; auto; intros H; now apply Nat.leb_le in H. Qed.

  Theorem step_fn2_sound s l s' : step_fn2 V s l = Some s' -> step2 s l s'.
  Proof.
    destruct l; cbn [step_fn2]; intros H.
    - destruct (visible_b s l) eqn:Hv; [|discriminate].
      destruct (step_fn V (base s) l) as [b'|] eqn:Hs; [|discriminate].
      injection H as <-. apply S2Base; [now apply visible_b_spec | now apply step_fn_sound].
    - match type of H with (if ?c then _ else _) = _ => destruct c eqn:Hc; [|discriminate] end.
      injection H as <-. split_andb. now apply S2Compact.
    - match type of H with (if ?c then _ else _) = _ => destruct c eqn:Hc; [|discriminate] end.
      injection H as <-. split_andb. apply S2SendIS; auto using role_eqb_eq.
    - match type of H with (if ?c then _ else _) = _ => destruct c eqn:Hc; [|discriminate] end.
      apply andb_prop in Hc. destruct Hc as [Hin Ht]. apply Nat.eqb_eq in Ht.
      apply snap_in in Hin.
      destruct (Nat.leb_spec sidx (commit (nodes (base s) j))).
      + injection H as <-. now apply S2HandleISStale.
      + destruct (Nat.eqb_spec (term_at (log (nodes (base s) j)) sidx) sterm).
        * injection H as <-. now apply S2HandleISMatch.
        * injection H as <-. now apply S2HandleISRestore.
  Qed.

  Theorem run2_sound ls : forall s s', run2 V s ls = Some s' -> steps2 s ls s'.
  Proof.
    induction ls as [|l ls IH]; simpl; intros s s' H.
    - injection H as <-. constructor.
    - destruct (step_fn2 V s l) as [s1|] eqn:E; [|discriminate].
      econstructor; [apply step_fn2_sound; exact E | apply IH; exact H].
  Qed.

End SnapSim.
