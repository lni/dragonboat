(* Facts about lists that do not depend on any model: firstn / skipn / nth_error arithmetic,
   filter, NoDup over an append.  Nothing here opens a scope; all numbers are nat. *)
From Coq Require Import List Arith Bool Lia Permutation.
Import ListNotations.

Lemma firstn_app_exact {A} (l r : list A) n : n = length l -> firstn n (l ++ r) = l.
Proof. intros ->. rewrite firstn_app, Nat.sub_diag, firstn_all. apply app_nil_r. Qed.

Lemma skipn_app_exact {A} (l r : list A) n : n = length l -> skipn n (l ++ r) = r.
Proof. intros ->. rewrite skipn_app, Nat.sub_diag, skipn_all. reflexivity. Qed.

Lemma firstn_app_le {A} n (a b : list A) : n <= length a -> firstn n (a ++ b) = firstn n a.
Proof. intros H. rewrite firstn_app. apply Nat.sub_0_le in H. rewrite H. apply app_nil_r. Qed.

Lemma skipn_app_le {A} n (a b : list A) : n <= length a -> skipn n (a ++ b) = skipn n a ++ b.
Proof. intros H. rewrite skipn_app. apply Nat.sub_0_le in H. rewrite H. reflexivity. Qed.

Lemma firstn_app_ge {A} n (a b : list A) : length a <= n ->
  firstn n (a ++ b) = a ++ firstn (n - length a) b.
Proof. intros H. rewrite firstn_app, firstn_all2 by exact H. reflexivity. Qed.

Lemma skipn_app_ge {A} n (a b : list A) : length a <= n ->
  skipn n (a ++ b) = skipn (n - length a) b.
Proof. intros H. rewrite skipn_app, skipn_all2 by exact H. reflexivity. Qed.

Lemma skipn_skipn {A} n m (l : list A) : skipn n (skipn m l) = skipn (m + n) l.
Proof.
  revert l; induction m as [|m IH]; intros [|x l]; cbn [skipn Nat.add]; try apply IH; try reflexivity.
  apply skipn_nil.
Qed.

Lemma firstn_add {A} a b (l : list A) : firstn (a + b) l = firstn a l ++ firstn b (skipn a l).
Proof. revert l. induction a; intros l; cbn; auto. destruct l; cbn; [destruct b; reflexivity|]. f_equal. apply IHa. Qed.

Lemma firstn_S_snoc {A} (l : list A) b e :
  nth_error l b = Some e -> firstn (S b) l = firstn b l ++ [e].
Proof.
  revert b. induction l as [|a l IH]; intros [|b] H; simpl in *; try discriminate.
  - injection H as ->. reflexivity.
  - f_equal. now apply IH.
Qed.

Lemma nth_error_skipn {A} n k (l : list A) : nth_error (skipn n l) k = nth_error l (n + k).
Proof.
  revert l. induction n; intros l; cbn; auto. destruct l; cbn; auto. destruct k; auto.
Qed.

Lemma nth_error_firstn_lt {A} n k (l : list A) : k < n -> nth_error (firstn n l) k = nth_error l k.
Proof.
  revert k l. induction n; intros k l H; [lia|]. destruct l; cbn; [destruct k; auto|].
  destruct k; cbn; auto. apply IHn. lia.
Qed.

Lemma filter_nil {A} (f : A -> bool) l : (forall x, In x l -> f x = false) -> filter f l = [].
Proof. induction l as [|a l IH]; cbn; intros H; auto. rewrite (H a) by auto. apply IH. auto. Qed.

Lemma filter_all {A} (f : A -> bool) l : (forall x, In x l -> f x = true) -> filter f l = l.
Proof. induction l as [|a l IH]; cbn; intros H; auto. rewrite (H a) by auto. f_equal. apply IH. auto. Qed.

Lemma filter_comm {A} (f h : A -> bool) l : filter f (filter h l) = filter h (filter f l).
Proof.
  induction l as [|a l IH]; [reflexivity|]. cbn [filter].
  destruct (h a) eqn:H; destruct (f a) eqn:F; cbn [filter]; rewrite ?H, ?F, IH; reflexivity.
Qed.

Lemma filter_and {A} (f h : A -> bool) l : filter (fun x => f x && h x) l = filter f (filter h l).
Proof.
  induction l as [|a l IH]; [reflexivity|]. cbn [filter].
  destruct (h a) eqn:H; destruct (f a) eqn:F; cbn [filter andb]; rewrite ?F, IH; reflexivity.
Qed.

Lemma perm_filter_split {A} (p : A -> bool) l :
  Permutation l (filter p l ++ filter (fun x => negb (p x)) l).
Proof.
  induction l as [|a l IH]; [constructor|]. cbn. destruct (p a); cbn.
  - constructor. exact IH.
  - apply Permutation_cons_app. exact IH.
Qed.

Lemma NoDup_app_disjoint {A} (l1 l2 : list A) :
  NoDup l1 -> NoDup l2 -> (forall x, In x l1 -> ~ In x l2) -> NoDup (l1 ++ l2).
Proof.
  induction l1 as [|a l1 IH]; intros H1 H2 Hd; simpl; [assumption|].
  inversion H1; subst. constructor.
  - intros Hin. apply in_app_or in Hin. destruct Hin as [Hin|Hin]; [contradiction|].
    apply (Hd a); [now left | assumption].
  - apply IH; try assumption. intros x Hx. apply Hd. now right.
Qed.
