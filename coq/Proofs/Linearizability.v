(* C01.  The certificate checker decides "this order is a linearization of the
   history" ([check_witness_decides], conjunct by conjunct); the replicated
   log with each completed read woven in after the prefix it observed is such an
   order, given the protocol-level properties ([weave_linearizes]). *)
From Coq Require Import List NArith Arith Bool Lia.
From DB Require Import Proofs.ListFacts Gen.GenC01 Model.Linearizability.
Import ListNotations.
Local Open Scope nat_scope.

Lemma memN_In : forall x l, memN x l = true <-> In x l.
Proof.
  intros x l. unfold memN. rewrite existsb_exists. split.
  - intros [y [Hy He]]. apply N.eqb_eq in He. subst. exact Hy.
  - intros H. exists x. split; [exact H | apply N.eqb_refl].
Qed.

Lemma memN_false : forall x l, memN x l = false <-> ~ In x l.
Proof.
  intros x l. rewrite <- memN_In. destruct (memN x l); split; intros; congruence.
Qed.

Lemma nodupb_NoDup : forall l, nodupb l = true <-> NoDup l.
Proof.
  induction l as [|x t IH]; cbn.
  - split; [constructor | reflexivity].
  - rewrite andb_true_iff, negb_true_iff, memN_false, IH. split.
    + intros [Hn Ht]. constructor; assumption.
    + intros Hnd. inversion Hnd; subst. split; assumption.
Qed.

Lemma res_eqb_eq : forall a b, res_eqb a b = true <-> a = b.
Proof.
  intros [a1 a2] [b1 b2]. unfold res_eqb. cbn. rewrite andb_true_iff, !N.eqb_eq. split.
  - intros [-> ->]. reflexivity.
  - intros H. inversion H. split; reflexivity.
Qed.

Lemma assoc_res_In : forall id l r, assoc_res id l = Some r -> In (id, r) l.
Proof.
  induction l as [|[i r'] t IH]; cbn; intros r H; [discriminate|].
  destruct (N.eqb_spec i id) as [->|]; [inversion H; auto|auto].
Qed.

Lemma assoc_res_NoDup : forall l id r,
  NoDup (map fst l) -> In (id, r) l -> assoc_res id l = Some r.
Proof.
  induction l as [|[i r'] t IH]; intros id r Hnd Hin; [destruct Hin|].
  cbn in Hnd. inversion Hnd as [|x l' Hni Hnd']; subst. cbn.
  destruct Hin as [E|Hin]; [inversion E; subst; rewrite N.eqb_refl; reflexivity|].
  destruct (N.eqb_spec i id) as [->|]; [|auto].
  destruct Hni. exact (in_map fst _ _ Hin).
Qed.

Lemma nth_error_app_len : forall (A : Type) (pre : list A) x t,
  nth_error (pre ++ x :: t) (length pre) = Some x.
Proof.
  intros A pre x t. rewrite nth_error_app2 by lia. rewrite Nat.sub_diag. reflexivity.
Qed.

Lemma ForallOrdPairs_impl_In : forall (A : Type) (R R' : A -> A -> Prop) l,
  ForallOrdPairs R l ->
  (forall a b, In a l -> In b l -> R a b -> R' a b) ->
  ForallOrdPairs R' l.
Proof.
  intros A R R' l H. induction H as [|a l Ha Hl IH]; intros Himp; constructor.
  - rewrite Forall_forall in *. intros b Hb. apply Himp; [left; reflexivity|right; exact Hb|].
    apply Ha. exact Hb.
  - apply IH. intros x y Hx Hy. apply Himp; right; assumption.
Qed.

Lemma ForallOrdPairs_filter : forall (A : Type) (R : A -> A -> Prop) f l,
  ForallOrdPairs R l -> ForallOrdPairs R (filter f l).
Proof.
  intros A R f l H. induction H as [|a l Ha Hl IH]; cbn; [constructor|].
  destruct (f a); [|exact IH]. constructor; [|exact IH].
  rewrite Forall_forall in *. intros b Hb. apply filter_In in Hb. apply Ha. apply Hb.
Qed.

Lemma ForallOrdPairs_app : forall (A : Type) (R : A -> A -> Prop) l1 l2,
  ForallOrdPairs R l1 -> ForallOrdPairs R l2 ->
  (forall a b, In a l1 -> In b l2 -> R a b) ->
  ForallOrdPairs R (l1 ++ l2).
Proof.
  intros A R l1 l2 H1 H2. induction H1 as [|a l Ha Hl IH]; intros Hc; cbn; [exact H2|].
  constructor.
  - rewrite Forall_forall in *. intros b Hb. apply in_app_or in Hb. destruct Hb as [Hb|Hb].
    + apply Ha. exact Hb.
    + apply Hc; [left; reflexivity|exact Hb].
  - apply IH. intros x y Hx Hy. apply Hc; [right; exact Hx|exact Hy].
Qed.

Lemma shift_Some : forall A (x : option (nat * A)) n a,
  shift x = Some (n, a) -> exists n', n = S n' /\ x = Some (n', a).
Proof.
  intros A [[n' a']|] n a H; cbn in H; [|discriminate].
  inversion H; subst. exists n'. split; reflexivity.
Qed.

Lemma inv_ids_app : forall h1 h2, inv_ids (h1 ++ h2) = inv_ids h1 ++ inv_ids h2.
Proof.
  induction h1 as [|e t IH]; intros h2; [reflexivity|].
  destruct e; cbn; rewrite IH; reflexivity.
Qed.

Lemma resp_ids_app : forall h1 h2, resp_ids (h1 ++ h2) = resp_ids h1 ++ resp_ids h2.
Proof.
  induction h1 as [|e t IH]; intros h2; [reflexivity|].
  destruct e; cbn; rewrite IH; reflexivity.
Qed.

Lemma find_inv_split : forall h id i o,
  find_inv h id = Some (i, o) -> exists h1 h2, h = h1 ++ Inv id o :: h2 /\ length h1 = i.
Proof.
  induction h as [|e t IH]; cbn; intros id i o H; [discriminate|].
  destruct e as [i0 o0|i0 oc0]; [destruct (N.eqb_spec i0 id) as [->|]|].
  1: inversion H; subst; exists [], t; split; reflexivity.
  all: apply shift_Some in H; destruct H as [n' [-> H]];
    destruct (IH _ _ _ H) as [h1 [h2 [-> <-]]]; eexists (_ :: h1), h2; split; reflexivity.
Qed.

Lemma find_resp_split : forall h id j oc,
  find_resp h id = Some (j, oc) -> exists h1 h2, h = h1 ++ Resp id oc :: h2 /\ length h1 = j.
Proof.
  induction h as [|e t IH]; cbn; intros id j oc H; [discriminate|].
  destruct e as [i0 o0|i0 oc0]; [|destruct (N.eqb_spec i0 id) as [->|]].
  2: inversion H; subst; exists [], t; split; reflexivity.
  all: apply shift_Some in H; destruct H as [n' [-> H]];
    destruct (IH _ _ _ H) as [h1 [h2 [-> <-]]]; eexists (_ :: h1), h2; split; reflexivity.
Qed.

Lemma find_inv_nth : forall h id i o, find_inv h id = Some (i, o) -> nth_error h i = Some (Inv id o).
Proof.
  intros h id i o H. destruct (find_inv_split _ _ _ _ H) as [h1 [h2 [-> <-]]]. apply nth_error_app_len.
Qed.

Lemma find_inv_In_ids : forall h id i o, find_inv h id = Some (i, o) -> In id (inv_ids h).
Proof.
  intros h id i o H. destruct (find_inv_split _ _ _ _ H) as [h1 [h2 [-> _]]].
  rewrite inv_ids_app. apply in_or_app. right. left. reflexivity.
Qed.

Lemma find_resp_first : forall h1 id oc h2,
  ~ In id (resp_ids h1) -> find_resp (h1 ++ Resp id oc :: h2) id = Some (length h1, oc).
Proof.
  induction h1 as [|e t IH]; intros id oc h2 Hn; cbn.
  - rewrite N.eqb_refl. reflexivity.
  - destruct e as [i0 o0|i0 oc0]; cbn in Hn.
    + rewrite IH by exact Hn. reflexivity.
    + destruct (N.eqb_spec i0 id) as [->|]; [tauto|]. rewrite IH by tauto. reflexivity.
Qed.

Lemma In_inv_ids_find : forall h1 rest id,
  In id (inv_ids h1) -> exists i o, find_inv (h1 ++ rest) id = Some (i, o) /\ i < length h1.
Proof.
  induction h1 as [|e t IH]; intros rest id Hin; [destruct Hin|].
  destruct e as [i0 o0|i0 oc0]; cbn in Hin |- *.
  - destruct (N.eqb_spec i0 id) as [->|Hne].
    + exists 0, o0. split; [reflexivity|lia].
    + destruct Hin as [Hin|Hin]; [contradiction|].
      destruct (IH rest id Hin) as [i [o [-> Hlt]]]. exists (S i), o. split; [reflexivity|lia].
  - destruct (IH rest id Hin) as [i [o [-> Hlt]]]. exists (S i), o. split; [reflexivity|lia].
Qed.

Lemma find_comp_resp : forall h id j r, find_comp h id = Some (j, r) -> find_resp h id = Some (j, Completed r).
Proof.
  intros h id j r H. unfold find_comp in H.
  destruct (find_resp h id) as [[j' oc]|]; [|discriminate].
  destruct oc; try discriminate. inversion H; subst. reflexivity.
Qed.

Lemma find_comp_split : forall h id j r,
  find_comp h id = Some (j, r) -> exists h1 h2, h = h1 ++ Resp id (Completed r) :: h2 /\ length h1 = j.
Proof. intros h id j r H. apply find_resp_split, find_comp_resp, H. Qed.

Lemma find_comp_In : forall h id j r, find_comp h id = Some (j, r) -> In (Resp id (Completed r)) h.
Proof.
  intros h id j r H. destruct (find_comp_split _ _ _ _ H) as [h1 [h2 [-> _]]]. apply in_elt.
Qed.

Lemma find_comp_in_resp_ids : forall h id j r, find_comp h id = Some (j, r) -> In id (resp_ids h).
Proof.
  intros h id j r H. destruct (find_comp_split _ _ _ _ H) as [h1 [h2 [-> _]]].
  rewrite resp_ids_app. apply in_or_app. right. left. reflexivity.
Qed.

Lemma resp_after_inv_spec : forall h seen,
  resp_after_inv seen h = true <->
  forall h1 id oc h2, h = h1 ++ Resp id oc :: h2 -> In id (inv_ids h1) \/ In id seen.
Proof.
  induction h as [|e t IH]; intros seen; cbn [resp_after_inv].
  - split; [intros _ [|? ?] ? ? ? E; discriminate|reflexivity].
  - destruct e as [i0 o0|i0 oc0].
    + rewrite IH. split; intros H h1 id oc h2 E.
      * destruct h1 as [|e1 h1']; inversion E; subst.
        cbn. destruct (H h1' id oc h2 eq_refl) as [?|[?|?]]; auto.
      * destruct (H (Inv i0 o0 :: h1) id oc h2) as [[?|?]|?]; [rewrite E; reflexivity|..]; cbn; auto.
    + rewrite andb_true_iff, memN_In, IH. split.
      * intros [Hm H] h1 id oc h2 E. destruct h1 as [|e1 h1']; inversion E; subst; [auto|].
        apply (H h1' id oc h2 eq_refl).
      * intros H. split; [destruct (H [] i0 oc0 t eq_refl) as [[]|?]; assumption|].
        intros h1 id oc h2 E. apply (H (Resp i0 oc0 :: h1) id oc h2). rewrite E. reflexivity.
Qed.

Lemma wf_histb_iff : forall h, wf_histb h = true <-> wf_hist h.
Proof.
  intros h. unfold wf_histb, wf_hist.
  rewrite !andb_true_iff, !nodupb_NoDup, resp_after_inv_spec. split.
  - intros [[H1 H2] H3]. repeat split; auto.
    intros h1 id oc h2 E. destruct (H3 _ _ _ _ E) as [?|[]]; assumption.
  - intros (H1 & H2 & H3). repeat split; auto. intros h1 id oc h2 E. left. eapply H3, E.
Qed.

Lemma wf_inv_before_comp : forall h id j r,
  wf_hist h -> find_comp h id = Some (j, r) ->
  exists i o, find_inv h id = Some (i, o) /\ i < j.
Proof.
  intros h id j r [_ [_ Hw]] Hc. destruct (find_comp_split _ _ _ _ Hc) as [h1 [h2 [-> <-]]].
  apply In_inv_ids_find. eapply Hw. reflexivity.
Qed.

Lemma wf_completed_event : forall h id r,
  wf_hist h -> In (Resp id (Completed r)) h -> exists j, find_comp h id = Some (j, r).
Proof.
  intros h id r [_ [Hnd _]] Hin. apply in_split in Hin. destruct Hin as [h1 [h2 ->]].
  rewrite resp_ids_app in Hnd. cbn in Hnd. apply NoDup_remove_2 in Hnd.
  exists (length h1). unfold find_comp. rewrite find_resp_first; [reflexivity|].
  intros Hin. apply Hnd. apply in_or_app. left. exact Hin.
Qed.

Lemma pts_ok_cons : forall h a t p pt,
  pts_ok h (a :: t) (p :: pt) <->
  (exists i o, find_inv h a = Some (i, o) /\ i < p) /\
  (forall j r, find_comp h a = Some (j, r) -> p <= j) /\
  (forall x q, nth_error pt x = Some q -> p <= q) /\
  pts_ok h t pt.
Proof.
  intros h a t p pt. split.
  - intros (Hlen & H1 & H2 & H3).
    split; [exact (H1 0 a p eq_refl eq_refl)|].
    split; [intros j r; exact (H2 0 a p j r eq_refl eq_refl)|].
    split; [intros x q Hq; exact (H3 0 (S x) p q (Nat.lt_0_succ x) eq_refl Hq)|].
    split; [cbn in Hlen; lia|].
    split; [intros x; exact (H1 (S x))|]. split; [intros x; exact (H2 (S x))|].
    intros x y q q' Hxy. apply (H3 (S x) (S y)). lia.
  - intros (Ha & Hc & Hlow & Hlen & H1 & H2 & H3).
    split; [cbn; lia|]. split; [|split].
    + intros [|x] id q Hx Hq; cbn in Hx, Hq; [|eapply H1; eassumption].
      inversion Hx; inversion Hq; subst. exact Ha.
    + intros [|x] id q j r Hx Hq; cbn in Hx, Hq; [|eapply H2; eassumption].
      inversion Hx; inversion Hq; subst. apply Hc.
    + intros x [|y] q q' Hxy Hq Hq'; [lia|]. destruct x as [|x]; cbn in Hq, Hq'.
      * inversion Hq; subst. eapply Hlow, Hq'.
      * apply (H3 x y q q'); [lia|assumption..].
Qed.

Lemma pts_ok_pos : forall h lin pt, pts_ok h lin pt -> forall x p, nth_error pt x = Some p -> 0 < p.
Proof.
  intros h lin pt (Hl & P1 & _) x p Hp.
  assert (Hx : x < length lin) by (rewrite <- Hl; apply nth_error_Some; congruence).
  destruct (nth_error lin x) as [id|] eqn:E; [|apply nth_error_None in E; lia].
  destruct (P1 x id p E Hp) as [i [o [_ Hlt]]]. lia.
Qed.

(* The checker places each effect point just after the latest invocation seen so
   far (m).  That choice loses nothing: it succeeds from m exactly when there are
   effect points above m. *)
Lemma prec_ok_iff : forall h lin m,
  prec_ok h m lin = true <->
  exists pt, pts_ok h lin pt /\ forall x p, nth_error pt x = Some p -> m < p.
Proof.
  intros h. induction lin as [|a t IH]; intros m; cbn [prec_ok].
  { split; [|reflexivity]. intros _. exists []. repeat split; intros [|?]; discriminate. }
  split.
  - destruct (find_inv h a) as [[i o]|] eqn:Ei; [|discriminate]. intros H.
    assert (Ht : prec_ok h (Nat.max m i) t = true /\
                 forall j r, find_comp h a = Some (j, r) -> Nat.max m i < j).
    { destruct (find_comp h a) as [[j r]|]; [|split; [exact H|discriminate]].
      apply andb_true_iff in H. destruct H as [H1 H2]. split; [exact H2|].
      intros ? ? E. inversion E; subst. apply Nat.ltb_lt, H1. }
    destruct Ht as [Ht Hc]. apply IH in Ht. destruct Ht as (pt & Hp & Hlow).
    exists (S (Nat.max m i) :: pt). split.
    + apply pts_ok_cons. split; [exists i, o; split; [exact Ei|lia]|].
      split; [intros j r E; apply Hc in E; lia|].
      split; [intros x q Hq; apply Hlow in Hq; lia|exact Hp].
    + intros [|x] q Hq; cbn in Hq; [inversion Hq; lia|apply Hlow in Hq; lia].
  - intros ([|p pt] & Hp & Hlow); [destruct Hp as [Hl _]; discriminate|].
    apply pts_ok_cons in Hp. destruct Hp as ((i & o & Ei & Hip) & Hc & Hle & Hp).
    rewrite Ei. pose proof (Hlow 0 p eq_refl) as Hmp.
    assert (Hrest : prec_ok h (Nat.max m i) t = true).
    { apply IH. exists pt. split; [exact Hp|]. intros x q Hq. specialize (Hle x q Hq). lia. }
    destruct (find_comp h a) as [[j r]|]; [|exact Hrest].
    rewrite Hrest, andb_true_r. apply Nat.ltb_lt. specialize (Hc j r eq_refl). lia.
Qed.

Lemma greedy_effect_points : forall h lin,
  (exists pt, pts_ok h lin pt) <-> prec_ok h 0 lin = true.
Proof.
  intros h lin. rewrite prec_ok_iff. split; intros [pt H]; exists pt; [|tauto].
  split; [exact H|exact (pts_ok_pos _ _ _ H)].
Qed.

Lemma linearizes_prec_ok : forall h lin, linearizes h lin -> prec_ok h 0 lin = true.
Proof.
  intros h lin (_ & _ & _ & Hpt & _). apply greedy_effect_points, Hpt.
Qed.

Lemma completed_ok_iff : forall h lin res,
  wf_hist h -> NoDup (map fst res) ->
  completed_ok h lin res = true <->
  (forall id j r, find_comp h id = Some (j, r) -> In id lin) /\
  (forall id j r, find_comp h id = Some (j, r) -> In (id, r) res).
Proof.
  intros h lin res Hwf Hnd. unfold completed_ok. rewrite forallb_forall. split.
  - intros H. split; intros id j r Hc; apply find_comp_In, H, andb_true_iff in Hc; destruct Hc as [Hm Hr].
    + apply memN_In, Hm.
    + destruct (assoc_res id res) as [r'|] eqn:Ea; [|discriminate].
      apply res_eqb_eq in Hr. subst r'. apply assoc_res_In, Ea.
  - intros [Hall Hres] [i o|id [r| | | |]] He; try reflexivity.
    destruct (wf_completed_event h id r Hwf He) as [j Hc]. apply andb_true_iff. split.
    + apply memN_In. eapply Hall, Hc.
    + rewrite (assoc_res_NoDup _ id r Hnd (Hres _ _ _ Hc)). apply res_eqb_eq. reflexivity.
Qed.

Lemma lin_results_ids : forall h lin s,
  map fst (lin_results h s lin) =
  filter (fun id => match op_of h id with Some _ => true | None => false end) lin.
Proof.
  intros h. induction lin as [|id t IH]; intros s; [reflexivity|].
  cbn. destruct (op_of h id) as [o|]; cbn; [rewrite IH; reflexivity|apply IH].
Qed.

Lemma check_witness_decides : forall h lin,
  check_witness h lin = true <-> wf_hist h /\ linearizes h lin.
Proof.
  intros h lin. unfold check_witness. rewrite !andb_true_iff.
  assert (Hids : NoDup lin -> NoDup (map fst (lin_results h kv_init lin)))
    by (intros Hnd; rewrite lin_results_ids; apply NoDup_filter, Hnd).
  split.
  - intros [[[[Hwf Hnd] Hr] Hp] Hc].
    apply wf_histb_iff in Hwf. apply nodupb_NoDup in Hnd. rewrite forallb_forall in Hr.
    apply greedy_effect_points in Hp. apply completed_ok_iff in Hc; auto.
    destruct Hc as [Hall Hres]. repeat (split; [assumption|]). split; [|split; assumption].
    intros id Hin. apply negb_true_iff, Hr, Hin.
  - intros [Hwf (Hnd & Hall & Hr & Hp & Hres)]. repeat split.
    + apply wf_histb_iff, Hwf.
    + apply nodupb_NoDup, Hnd.
    + apply forallb_forall. intros id Hin. rewrite (Hr id Hin). reflexivity.
    + apply greedy_effect_points, Hp.
    + apply completed_ok_iff; auto.
Qed.

Lemma inv_pos_cons_other : forall e t b,
  In b (inv_ids t) -> (forall o, e <> Inv b o) -> inv_pos (e :: t) b = S (inv_pos t b).
Proof.
  intros e t b Hin Hne. destruct (In_inv_ids_find t [] b Hin) as [i [o [Hf _]]]. rewrite app_nil_r in Hf.
  unfold inv_pos. cbn. destruct e as [i0 o0|i0 oc0]; [|rewrite Hf; reflexivity].
  destruct (N.eqb_spec i0 b) as [->|]; [destruct (Hne o0 eq_refl)|rewrite Hf; reflexivity].
Qed.

Lemma inv_ids_sorted : forall h,
  NoDup (inv_ids h) -> ForallOrdPairs (fun a b => inv_pos h a < inv_pos h b) (inv_ids h).
Proof.
  induction h as [|e t IH]; intros Hnd; cbn; [constructor|].
  assert (Htl : (forall b, In b (inv_ids t) -> forall o, e <> Inv b o) -> NoDup (inv_ids t) ->
            ForallOrdPairs (fun a b => inv_pos (e :: t) a < inv_pos (e :: t) b) (inv_ids t)).
  { intros Hne Hnd'. apply (ForallOrdPairs_impl_In _ _ _ _ (IH Hnd')). intros a b Ha Hb Hlt.
    rewrite !inv_pos_cons_other; auto. lia. }
  destruct e as [i0 o0|i0 oc0]; cbn in Hnd; [|apply Htl; [discriminate|exact Hnd]].
  inversion Hnd as [|x l Hni Hnd']; subst.
  assert (Hne : forall b, In b (inv_ids t) -> forall o, Inv i0 o0 <> Inv b o)
    by (intros b Hb o E; inversion E; subst; contradiction).
  constructor; [|exact (Htl Hne Hnd')].
  rewrite Forall_forall. intros b Hb. rewrite (inv_pos_cons_other _ _ b Hb (Hne b Hb)).
  unfold inv_pos at 1. cbn. rewrite N.eqb_refl. lia.
Qed.

Definition may_precede (h : history) (a b : opid) : Prop :=
  forall j r, find_comp h b = Some (j, r) -> inv_pos h a < j.

Lemma prec_ok_of_pairs : forall h lin m,
  (forall a, In a lin -> exists i o, find_inv h a = Some (i, o)) ->
  (forall b j r, In b lin -> find_comp h b = Some (j, r) -> m < j) ->
  (forall a, In a lin -> may_precede h a a) ->
  ForallOrdPairs (may_precede h) lin ->
  prec_ok h m lin = true.
Proof.
  intros h. induction lin as [|a t IH]; intros m Hinv Hm Hself Hfop; [reflexivity|].
  cbn. destruct (Hinv a (or_introl eq_refl)) as [i [o Hf]]. rewrite Hf.
  inversion Hfop as [|x l Ha Ht]; subst.
  assert (Hpos : inv_pos h a = i) by (unfold inv_pos; rewrite Hf; reflexivity).
  assert (Hrest : prec_ok h (Nat.max m i) t = true).
  { apply IH; auto using in_cons.
    intros b j r Hb Hc. rewrite Forall_forall in Ha.
    specialize (Ha b Hb j r Hc). specialize (Hm b j r (or_intror Hb) Hc). lia. }
  destruct (find_comp h a) as [[j r]|] eqn:Hc; [|exact Hrest].
  rewrite Hrest, andb_true_r. apply Nat.ltb_lt.
  specialize (Hm a j r (or_introl eq_refl) Hc).
  specialize (Hself a (or_introl eq_refl) j r Hc). lia.
Qed.

Lemma is_read_op : forall h x, is_read h x = true -> exists k, op_of h x = Some (OpRead k).
Proof.
  intros h x H. unfold is_read in H. destruct (op_of h x) as [[k v|k]|]; try discriminate. eauto.
Qed.

Lemma is_write_op : forall h x, is_write h x = true -> exists k v, op_of h x = Some (OpWrite k v).
Proof.
  intros h x H. unfold is_write in H. destruct (op_of h x) as [[k v|k]|]; try discriminate. eauto.
Qed.

Lemma op_of_find : forall h x o, op_of h x = Some o -> exists i, find_inv h x = Some (i, o).
Proof.
  intros h x o H. unfold op_of in H. destruct (find_inv h x) as [[i o']|]; [|discriminate].
  inversion H; subst. eauto.
Qed.

Lemma read_not_write : forall h x, is_read h x = true -> is_write h x = true -> False.
Proof.
  intros h x Hr Hw. destruct (is_read_op _ _ Hr) as [k E]. destruct (is_write_op _ _ Hw) as [k' [v E']].
  congruence.
Qed.

Lemma lin_state_app : forall h l1 s l2,
  lin_state h s (l1 ++ l2) = lin_state h (lin_state h s l1) l2.
Proof.
  intros h. induction l1 as [|x l1 IH]; intros s l2; [reflexivity|].
  cbn. destruct (op_of h x); apply IH.
Qed.

Lemma lin_results_app : forall h l1 s l2,
  lin_results h s (l1 ++ l2) = lin_results h s l1 ++ lin_results h (lin_state h s l1) l2.
Proof.
  intros h. induction l1 as [|x l1 IH]; intros s l2; [reflexivity|].
  cbn. destruct (op_of h x); cbn; [f_equal|]; apply IH.
Qed.

(* reads leave the state alone and return what it holds *)
Lemma lin_reads : forall h rs s,
  (forall x, In x rs -> is_read h x = true) ->
  lin_state h s rs = s /\
  (forall x k, In x rs -> op_of h x = Some (OpRead k) -> In (x, kv_get s k) (lin_results h s rs)).
Proof.
  intros h. induction rs as [|x rs IH]; intros s Hr; [split; [reflexivity|intros x k []]|].
  destruct (is_read_op h x (Hr x (or_introl eq_refl))) as [k Hk].
  destruct (IH s (fun y Hy => Hr y (or_intror Hy))) as [I1 I2].
  cbn. rewrite Hk. cbn. split; [exact I1|].
  intros y k' [<-|Hy] Hk'; [|auto]. rewrite Hk in Hk'. inversion Hk'. left. reflexivity.
Qed.

Section Weave.
Variable h : history.
Variable rds : nat -> list opid.
Hypothesis Hreads : forall k x, In x (rds k) -> is_read h x = true.

Lemma weave_In : forall t k x,
  In x (weave_from rds k t) <-> In x t \/ exists k', k <= k' /\ k' <= k + length t /\ In x (rds k').
Proof.
  induction t as [|w t IH]; intros k x; cbn [weave_from length].
  - split; [intros H; right; exists k; repeat split; auto; lia|].
    intros [[]|(k' & H1 & H2 & H)]. replace k with k' by lia. exact H.
  - rewrite in_app_iff. cbn [In]. rewrite IH. split.
    + intros [H|[->|[H|(k' & H1 & H2 & H)]]]; auto.
      * right. exists k. repeat split; auto; lia.
      * right. exists k'. repeat split; auto; lia.
    + intros [[->|H]|(k' & H1 & H2 & H)]; auto.
      destruct (Nat.eq_dec k k') as [->|Hne]; [auto|].
      right. right. right. exists k'. repeat split; auto; lia.
Qed.

Lemma lin_over_weave : forall t k s,
  lin_state h s (weave_from rds k t) = lin_state h s t /\
  (forall p, In p (lin_results h s t) -> In p (lin_results h s (weave_from rds k t))) /\
  (forall k' x key, k <= k' -> k' <= k + length t -> In x (rds k') -> op_of h x = Some (OpRead key) ->
      In (x, kv_get (lin_state h s (firstn (k' - k) t)) key) (lin_results h s (weave_from rds k t))).
Proof.
  induction t as [|w t IH]; intros k s; cbn [weave_from];
    destruct (lin_reads h (rds k) s (Hreads k)) as [R1 R2].
  - split; [exact R1|]. split; [intros p []|].
    intros k' x key H1 H2 Hin Hop. cbn in H2. replace k' with k in * by lia.
    rewrite firstn_nil. apply R2; assumption.
  - change (w :: weave_from rds (S k) t) with ([w] ++ weave_from rds (S k) t).
    change (w :: t) with ([w] ++ t).
    rewrite !lin_state_app, !lin_results_app, ?lin_state_app, R1.
    destruct (IH (S k) (lin_state h s [w])) as [I1 [I2 I3]].
    split; [exact I1|]. split.
    { intros p Hp. apply in_or_app. right. apply in_app_or in Hp. apply in_or_app.
      destruct Hp; auto. }
    intros k' x key H1 H2 Hin Hop. cbn in H2. apply in_or_app.
    destruct (Nat.eq_dec k k') as [<-|Hne]; [left; rewrite Nat.sub_diag; apply R2; assumption|].
    right. apply in_or_app. right. replace (k' - k) with (S (k' - S k)) by lia.
    change (firstn (S (k' - S k)) ([w] ++ t)) with ([w] ++ firstn (k' - S k) t).
    rewrite lin_state_app. apply I3; auto; lia.
Qed.

End Weave.

Section FromLog.
Variable h : history.
Variable log : list opid.
Variable obs : opid -> nat.
Variable cmt : nat -> nat.
Hypothesis Hwf : wf_hist h.
Hypothesis H05 : C05_at_most_once h log.
Hypothesis H02 : C02_state_machine_safety h log obs cmt.
Hypothesis H03 : C03_leader_completeness h log cmt.
Hypothesis H12 : C12_completed_after_local_apply h log cmt.
Hypothesis H06 : C06_read_index_not_stale h obs cmt.

Let rds := reads_at (completed_reads h) obs.

Lemma rds_spec : forall k x,
  In x (rds k) <-> In x (inv_ids h) /\ is_read h x = true /\ is_completed h x = true /\ obs x = k.
Proof.
  intros k x. unfold rds, reads_at, completed_reads. rewrite !filter_In, andb_true_iff, Nat.eqb_eq. tauto.
Qed.

Lemma rds_reads : forall k x, In x (rds k) -> is_read h x = true.
Proof. intros k x H. apply rds_spec in H. tauto. Qed.

Lemma rds_completed : forall k x, In x (rds k) -> exists j r, find_comp h x = Some (j, r).
Proof.
  intros k x H. apply rds_spec in H. destruct H as [_ [_ [Hc _]]].
  unfold is_completed in Hc. destruct (find_comp h x) as [[j r]|]; [|discriminate].
  exists j, r. reflexivity.
Qed.

(* a was invoked while at most k entries were committed; b completes only once
   at least k are *)
Definition invoked_by (k : nat) (a : opid) : Prop := cmt (inv_pos h a) <= k.
Definition completes_after (k : nat) (b : opid) : Prop :=
  forall j r, find_comp h b = Some (j, r) -> k <= cmt j.

Lemma may_precede_of_cmt : forall a b k,
  invoked_by k a -> completes_after (S k) b -> may_precede h a b.
Proof.
  intros a b k Ha Hb j r Hc. specialize (Hb j r Hc). unfold invoked_by in Ha.
  destruct (le_lt_dec j (inv_pos h a)) as [Hle|Hlt]; [|exact Hlt].
  pose proof (proj1 H02 _ _ Hle). lia.
Qed.

Lemma read_lo : forall x k, In x (rds k) -> invoked_by k x.
Proof.
  intros x k Hin. unfold invoked_by. destruct (rds_completed k x Hin) as [j [r Hc]].
  apply rds_spec in Hin. destruct Hin as [_ [Hr [_ Ho]]].
  destruct (H06 x j r Hc Hr) as [A _]. lia.
Qed.

Lemma read_hi : forall x k, In x (rds k) -> completes_after k x.
Proof.
  intros x k Hin j r Hc. apply rds_spec in Hin. destruct Hin as [_ [Hr [_ Ho]]].
  destruct (H06 x j r Hc Hr) as [_ B]. lia.
Qed.

Lemma write_hi : forall w idx, nth_error log idx = Some w -> completes_after (S idx) w.
Proof.
  intros w idx Hn j r Hc. destruct H05 as [Hnd Hw]. destruct H12 as [Hap _].
  assert (Hin : In w log) by (eapply nth_error_In; exact Hn).
  destruct (Hap w j r Hc (Hw w Hin)) as [idx' [Hn' Hlt]].
  assert (idx = idx').
  { rewrite NoDup_nth_error in Hnd. apply Hnd.
    - apply nth_error_Some. rewrite Hn. discriminate.
    - rewrite Hn, Hn'. reflexivity. }
  subst. lia.
Qed.

(* [t] is what is left of the log from position k on *)
Definition tail_at (k : nat) (t : list opid) : Prop := exists pre, log = pre ++ t /\ length pre = k.

Lemma tail_at_cons : forall k w t,
  tail_at k (w :: t) -> nth_error log k = Some w /\ tail_at (S k) t.
Proof.
  intros k w t (pre & E & L). split; [rewrite E, <- L; apply nth_error_app_len|].
  exists (pre ++ [w]). rewrite <- app_assoc, app_length. cbn. split; [exact E|lia].
Qed.

Lemma tail_at_incl : forall k t x, tail_at k t -> In x t -> In x log.
Proof. intros k t x (pre & -> & _) Hx. apply in_or_app. right. exact Hx. Qed.

Lemma weave_hi : forall t k, tail_at k t ->
  forall b, In b (weave_from rds k t) -> completes_after k b.
Proof.
  induction t as [|w t IH]; intros k T b Hb j r Hc; cbn in Hb.
  - exact (read_hi _ _ Hb j r Hc).
  - destruct (tail_at_cons _ _ _ T) as [Hn T']. apply in_app_or in Hb. destruct Hb as [Hb|[<-|Hb]].
    + exact (read_hi _ _ Hb j r Hc).
    + pose proof (write_hi w k Hn j r Hc). lia.
    + pose proof (IH (S k) T' b Hb j r Hc). lia.
Qed.

Lemma may_precede_self : forall a, may_precede h a a.
Proof.
  intros a j r Hc. destruct (wf_inv_before_comp h a j r Hwf Hc) as [i [o [Hf Hlt]]].
  unfold inv_pos. rewrite Hf. exact Hlt.
Qed.

Lemma reads_ordered : forall k, ForallOrdPairs (may_precede h) (rds k).
Proof.
  intros k. destruct Hwf as [Hnd _].
  apply ForallOrdPairs_impl_In with (R := fun a b => inv_pos h a < inv_pos h b).
  - unfold rds, reads_at, completed_reads. apply ForallOrdPairs_filter. apply ForallOrdPairs_filter.
    apply inv_ids_sorted. exact Hnd.
  - intros a b _ _ Hlt j r Hc. pose proof (may_precede_self b j r Hc). lia.
Qed.

(* reads that observed k entries were invoked before commit count k+1, which
   the entry at k and everything woven after it wait for *)
Lemma weave_ordered : forall t k, tail_at k t -> ForallOrdPairs (may_precede h) (weave_from rds k t).
Proof.
  induction t as [|w t IH]; intros k T; cbn; [apply reads_ordered|].
  destruct (tail_at_cons _ _ _ T) as [Hn T'].
  assert (Hlater : forall b, In b (w :: weave_from rds (S k) t) -> completes_after (S k) b).
  { intros b [<-|Hb]; [exact (write_hi w k Hn)|exact (weave_hi t (S k) T' b Hb)]. }
  apply ForallOrdPairs_app; [apply reads_ordered| |].
  - constructor; [|exact (IH (S k) T')].
    rewrite Forall_forall. intros b Hb. apply may_precede_of_cmt with (k := k); [apply H03, Hn|].
    apply Hlater. right. exact Hb.
  - intros a b Ha Hb. apply may_precede_of_cmt with (k := k); [apply read_lo, Ha|apply Hlater, Hb].
Qed.

Lemma weave_nodup : forall t k, tail_at k t -> NoDup t -> NoDup (weave_from rds k t).
Proof.
  assert (Hrk : forall k, NoDup (rds k)).
  { intros k. unfold rds, reads_at, completed_reads.
    apply NoDup_filter. apply NoDup_filter. apply Hwf. }
  assert (Hrw : forall k a x, In a (rds k) -> In x log -> a <> x).
  { intros k a x Ha Hx <-. apply (read_not_write h a); [exact (rds_reads k a Ha)|apply H05, Hx]. }
  induction t as [|w t IH]; intros k T Hnd; cbn; [apply Hrk|].
  destruct (tail_at_cons _ _ _ T) as [Hn T']. inversion Hnd as [|? ? Hwt Hnd']; subst.
  assert (Hwl : In w log) by (eapply nth_error_In, Hn).
  apply NoDup_app_disjoint; [apply Hrk| |].
  - constructor; [|exact (IH (S k) T' Hnd')].
    intros Hin. apply weave_In in Hin. destruct Hin as [Hin|[k' [_ [_ Hin]]]]; [exact (Hwt Hin)|].
    exact (Hrw _ _ _ Hin Hwl eq_refl).
  - intros a Ha [<-|Hin]; [exact (Hrw _ _ _ Ha Hwl eq_refl)|].
    apply weave_In in Hin. destruct Hin as [Hin|[k' [Hk [_ Hin]]]].
    + exact (Hrw _ _ _ Ha (tail_at_incl _ _ _ T' Hin) eq_refl).
    + apply rds_spec in Ha. apply rds_spec in Hin. lia.
Qed.

(* a completed operation is a logged write, or a read woven in at the count it observed *)
Lemma completed_cases : forall id j r, find_comp h id = Some (j, r) ->
  (is_write h id = true /\ In id log) \/
  (exists key, op_of h id = Some (OpRead key) /\ In id (rds (obs id)) /\ obs id <= length log).
Proof.
  intros id j r Hc. destruct (wf_inv_before_comp h id j r Hwf Hc) as [i [o [Hf _]]].
  assert (Hop : op_of h id = Some o) by (unfold op_of; rewrite Hf; reflexivity).
  destruct o as [k v|k].
  - left. assert (Hiw : is_write h id = true) by (unfold is_write; rewrite Hop; reflexivity).
    split; [exact Hiw|]. destruct (proj1 H12 id j r Hc Hiw) as [idx [Hn _]]. eapply nth_error_In, Hn.
  - right. exists k. split; [exact Hop|].
    assert (Hir : is_read h id = true) by (unfold is_read; rewrite Hop; reflexivity).
    split.
    + apply rds_spec. split; [eapply find_inv_In_ids; exact Hf|]. split; [exact Hir|].
      split; [unfold is_completed; rewrite Hc; reflexivity|reflexivity].
    + destruct (H06 id j r Hc Hir) as [_ B]. pose proof (proj1 (proj2 H02) j). lia.
Qed.

Lemma weave_linearizes : linearizes h (weave h log obs).
Proof.
  unfold weave. cbv zeta. change (reads_at (completed_reads h) obs) with rds.
  pose proof H02 as [_ [Hlen [Hwres Hrres]]].
  pose proof H12 as [Hap Hnref].
  pose proof H05 as [Hnd Hw].
  assert (T0 : tail_at 0 log) by (exists []; auto).
  split; [apply (weave_nodup log 0 T0 Hnd)|].
  split.
  { intros id j r Hc. destruct (completed_cases id j r Hc) as [[_ Hin]|[key [_ [Hin Hle]]]].
    - apply weave_In. left. exact Hin.
    - apply weave_In. right. exists (obs id). repeat split; [lia|lia|exact Hin]. }
  split.
  { intros id Hin. apply weave_In in Hin. destruct Hin as [Hin|[k' [_ [_ Hin]]]].
    - apply Hnref. exact Hin.
    - destruct (rds_completed k' id Hin) as [j [r Hc]]. apply find_comp_resp in Hc.
      unfold refused. rewrite Hc. reflexivity. }
  split.
  { apply greedy_effect_points, prec_ok_of_pairs.
    - intros a Hin. apply weave_In in Hin. destruct Hin as [Hin|[k' [_ [_ Hin]]]].
      + destruct (is_write_op h a (Hw a Hin)) as [k [v Hop]].
        destruct (op_of_find h a _ Hop) as [i Hf]. eauto.
      + destruct (is_read_op h a (rds_reads k' a Hin)) as [k Hop].
        destruct (op_of_find h a _ Hop) as [i Hf]. eauto.
    - intros b j r _ Hc. destruct (wf_inv_before_comp h b j r Hwf Hc) as [i [o [_ Hlt]]]. lia.
    - intros a _. apply may_precede_self.
    - apply (weave_ordered log 0 T0). }
  intros id j r Hc.
  destruct (lin_over_weave h rds rds_reads log 0 kv_init) as [_ [W1 W2]].
  destruct (completed_cases id j r Hc) as [[Hiw _]|[key [Hop [Hin Hle]]]].
  - apply W1. apply (Hwres id j r Hc Hiw).
  - rewrite (Hrres id j r key Hc Hop).
    specialize (W2 (obs id) id key (Nat.le_0_l _) Hle Hin Hop).
    rewrite Nat.sub_0_r in W2. exact W2.
Qed.

End FromLog.

Definition ex_hist : history :=
  [ Inv 1 (OpWrite 7 10); Inv 2 (OpWrite 7 20); Resp 1 (Completed (0, 1)%N);
    Resp 2 Timeout; Inv 3 (OpRead 7); Inv 4 (OpWrite 7 30); Resp 4 Refused;
    Resp 3 (Completed (20, 2)%N) ]%N.
Definition ex_log : list opid := [1; 2]%N.
Definition ex_obs (id : opid) : nat := if N.eqb id 3 then 2 else 0.
Definition ex_cmt (p : nat) : nat := if Nat.leb p 1 then 0 else if Nat.leb p 3 then 1 else 2.

Lemma ex_hyps :
  wf_hist ex_hist /\
  C05_at_most_once ex_hist ex_log /\
  C02_state_machine_safety ex_hist ex_log ex_obs ex_cmt /\
  C03_leader_completeness ex_hist ex_log ex_cmt /\
  C12_completed_after_local_apply ex_hist ex_log ex_cmt /\
  C06_read_index_not_stale ex_hist ex_obs ex_cmt.
Proof.
  assert (Hcomp : forall w j r, find_comp ex_hist w = Some (j, r) ->
            (w = 1%N /\ j = 2 /\ r = (0, 1)%N) \/ (w = 3%N /\ j = 7 /\ r = (20, 2)%N)).
  { intros w j r Hc. pose proof (find_comp_in_resp_ids _ _ _ _ Hc) as Hin. cbn in Hin.
    destruct Hin as [<-|[<-|[<-|[<-|[]]]]]; vm_compute in Hc; try discriminate; inversion Hc; subst; tauto. }
  split; [apply wf_histb_iff; vm_compute; reflexivity|].
  split.
  { split; [apply nodupb_NoDup; vm_compute; reflexivity|].
    intros w [<-|[<-|[]]]; vm_compute; reflexivity. }
  split.
  { split; [|split; [|split]].
    - intros p q Hpq. unfold ex_cmt.
      destruct (Nat.leb_spec p 1); [apply Nat.le_0_l|]. destruct (Nat.leb_spec q 1); [lia|].
      destruct (Nat.leb_spec p 3), (Nat.leb_spec q 3); lia.
    - intros p. unfold ex_cmt. cbn. destruct (Nat.leb_spec p 1), (Nat.leb_spec p 3); lia.
    - intros w j r Hc Hw. destruct (Hcomp w j r Hc) as [[-> [-> ->]]|[-> [-> ->]]].
      + vm_compute. left. reflexivity.
      + vm_compute in Hw. discriminate.
    - intros rd j r k Hc Hop. destruct (Hcomp rd j r Hc) as [[-> [-> ->]]|[-> [-> ->]]].
      + vm_compute in Hop. discriminate.
      + vm_compute in Hop. inversion Hop; subst. vm_compute. reflexivity. }
  split.
  { intros w [|[|[|idx]]] Hn; cbn in Hn; inversion Hn; subst; vm_compute; lia. }
  split.
  { split.
    - intros w j r Hc Hw. destruct (Hcomp w j r Hc) as [[-> [-> ->]]|[-> [-> ->]]].
      + exists 0. split; [reflexivity|]. vm_compute. lia.
      + vm_compute in Hw. discriminate.
    - intros w [<-|[<-|[]]]; vm_compute; reflexivity. }
  intros rd j r Hc Hr. destruct (Hcomp rd j r Hc) as [[-> [-> ->]]|[-> [-> ->]]].
  - vm_compute in Hr. discriminate.
  - vm_compute. lia.
Qed.
