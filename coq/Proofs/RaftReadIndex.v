(* C06, local half: the ReadIndex bookkeeping of a leader (readindex.go and
   handleLeaderReadIndex / handleReadIndexLeaderConfirmation in raft.go). *)
From DB Require Import Model.RaftCore.
From Coq Require Import Arith.
Open Scope N_scope.

Lemma split_at_ctx_app ctx : forall q acc before rs after,
  split_at_ctx ctx q acc = Some (before, rs, after) ->
  rev acc ++ q = before ++ rs :: after /\ ctx_eqb (rs_ctx rs) ctx = true.
Proof.
  induction q as [|x q IH]; intros acc before rs after H; cbn [split_at_ctx] in H; [discriminate|].
  destruct (ctx_eqb (rs_ctx x) ctx) eqn:E.
  - injection H as <- <- <-. split; [reflexivity|exact E].
  - apply IH in H. cbn [rev] in H. rewrite <- app_assoc in H. exact H.
Qed.

(* confirm: what it takes to release, and what is released *)
Lemma confirm_release_sound_proved r ctx from q r' ris :
  ri_confirm r ctx from q = (r', ris) -> ris <> [] ->
  exists before rs after,
    r_reads r = before ++ rs :: after /\ ctx_eqb (rs_ctx rs) ctx = true /\
    (* distinct confirmations (a repeated responder is not counted twice), plus the leader itself *)
    q <= nlen (if mem_n from (rs_confirmed rs) then rs_confirmed rs else from :: rs_confirmed rs) + 1 /\
    (* everything queued up to and including the confirmed request is released, all with the
       confirmed request's index, which is at least each request's own recorded index *)
    map rs_ctx ris = map rs_ctx (before ++ [rs]) /\
    Forall (fun v => rs_index v = rs_index rs) ris /\
    (r_panic r' = r_panic r -> Forall (fun v => rs_index v <= rs_index rs) before) /\
    r_reads r' = after.
Proof.
  unfold ri_confirm. intros H Hne.
  destruct (split_at_ctx ctx (r_reads r) []) as [[[before rs] after]|] eqn:Es; [|injection H as <- <-; contradiction].
  apply split_at_ctx_app in Es. destruct Es as (E1 & E2). cbn [rev app] in E1.
  cbv zeta in H.
  set (conf := if mem_n from (rs_confirmed rs) then rs_confirmed rs else from :: rs_confirmed rs) in *.
  destruct (N.ltb_spec (nlen conf + 1) q) as [Hlt|Hge]; [injection H as <- <-; contradiction|].
  destruct (existsb (fun v => rs_index rs <? rs_index v) before) eqn:Ex; [injection H as <- <-; contradiction|].
  injection H as <- <-.
  exists before, rs, after. split; [exact E1|]. split; [exact E2|]. split; [exact Hge|].
  split; [|split; [|split]].
  - rewrite map_map, !map_app. cbn [map]. f_equal.
  - apply Forall_forall. intros v Hv. apply in_map_iff in Hv. destruct Hv as (w & Ew & _). subst v. reflexivity.
  - intros _. apply Forall_forall. intros v Hv.
    destruct (N.leb_spec (rs_index v) (rs_index rs)) as [Hle|Hgt]; [exact Hle|].
    assert (existsb (fun v => rs_index rs <? rs_index v) before = true).
    { apply existsb_exists. exists v. split; [exact Hv|]. apply N.ltb_lt. exact Hgt. }
    congruence.
  - reflexivity.
Qed.

(* a request is recorded only by a leader that has committed an entry of its own term *)
Lemma read_refused_before_own_term_commit_proved r m :
  is_single_node_quorum r = false ->
  has_committed_entry_at_current_term r = false ->
  r_reads (handle_leader_read_index r m) = r_reads r /\
  r_ready (handle_leader_read_index r m) = r_ready r /\
  (forall x, In x (r_msgs (handle_leader_read_index r m)) -> In x (r_msgs r)).
Proof.
  intros Hs Hc. unfold handle_leader_read_index.
  destruct (negb (is_leader r)); [repeat split; auto|]. cbv zeta.
  destruct (amem _ _); [repeat split; auto|].
  rewrite Hs. cbn [negb]. destruct (_ =? 0); [repeat split; auto|].
  rewrite Hc. cbn [negb]. repeat split; auto.
Qed.

(* a fresh context is queued behind the pending ones, provided their indexes do not exceed its own *)
Lemma ri_add_request_reads r i c f :
  existsb (fun rs => ctx_eqb (rs_ctx rs) c) (r_reads r) = false ->
  (match r_reads r with [] => True | _ => rs_index (last (r_reads r) (mkRS (0,0) 0 0 [])) <= i end) ->
  r_reads (ri_add_request r i c f) = r_reads r ++ [mkRS c i f []].
Proof.
  intros Hnew Hmono. unfold ri_add_request. rewrite Hnew. destruct (r_reads r) as [|a l]; [reflexivity|].
  destruct (N.ltb_spec i (rs_index (last (a :: l) (mkRS (0, 0) 0 0 [])))); [lia|reflexivity].
Qed.

Lemma send_ready_reads r m : r_ready (send r m) = r_ready r /\ r_reads (send r m) = r_reads r.
Proof. unfold send. destruct (finalize_term _ _); split; reflexivity. Qed.
