(* Proofs/RsmApply.v — C08. One entry of the apply path is a function of the six
   fields handleEntry touches ([entry_core]); everything about runs, tasks,
   snapshots and on-disk state machines is built on that. The node's compaction
   bookkeeping ([ninv]) stands apart. *)
From DB Require Import Base.Bytes Proofs.ListFacts Gen.GenC05 Gen.GenC08 Model.RsmApply.
From DB Require Model.Session Model.Membership Proofs.Session.
From Coq Require Import ZifyN ZifyNat ZifyBool.
(* as in Proofs/Session.v *)
Ltac Zify.zify_post_hook ::= idtac.
Open Scope N_scope.

Lemma forall_skipn : forall {A} (P : A -> Prop) n l, Forall P l -> Forall P (skipn n l).
Proof.
  induction n as [|n IH]; intros l F; [exact F|]. destruct l; [constructor|]. inversion F; subst. cbn. auto.
Qed.

Lemma forall_firstn : forall {A} (P : A -> Prop) n l, Forall P l -> Forall P (firstn n l).
Proof.
  induction n as [|n IH]; intros l F; [constructor|]. destruct l; [constructor|]. inversion F; subst. cbn. auto.
Qed.

Lemma segment_rest : forall {A} (es : list A) start len pos,
  (start <= pos <= length es)%nat ->
  skipn (pos - start) (firstn len (skipn start es)) =
  firstn (Nat.max pos (Nat.min (start + len) (length es)) - pos) (skipn pos es).
Proof.
  intros A es start len pos [H1 H2].
  rewrite skipn_firstn_comm, skipn_skipn.
  replace (start + (pos - start))%nat with pos by lia.
  destruct (Nat.le_gt_cases (start + len) (length es)) as [L|L].
  - f_equal. lia.
  - rewrite !firstn_all2; [reflexivity|rewrite skipn_length; lia..].
Qed.

Section RsmProofs.
Context {S result : Type}.
Variable sm_update : S -> bytes -> S * result.
Variable norm : Membership.addr -> Membership.addr.

Notation table := (@Session.table result).
Notation state := (@state S result).
Notation event := (@event result).
Notation apply_entry := (@apply_entry S result sm_update norm).
Notation run_entries := (@run_entries S result sm_update norm).
Notation apply_task := (@apply_task S result sm_update norm).
Notation run_tasks := (@run_tasks S result sm_update norm).
Notation sess_step := (Session.step sm_update).

(* the log: entry number i (from 1) has index base + i *)
Fixpoint contiguous (base : N) (es : list (@entry)) : Prop :=
  match es with
  | [] => True
  | e :: r => en_index e = base + 1 /\ contiguous (base + 1) r
  end.

(* raft terms: at least 1, never decreasing along the log *)
Fixpoint terms_ok (t : N) (es : list (@entry)) : Prop :=
  match es with
  | [] => True
  | e :: r => 0 < en_term e /\ t <= en_term e /\ terms_ok (en_term e) r
  end.

(* between two tasks lastApplied equals (index, term) *)
Definition synced (st : state) : Prop :=
  r_last_index st = r_index st /\ r_last_term st = r_term st.

Definition sync (st : state) : state := with_last st (r_index st) (r_term st).

(* the session table invariant of C05 + a usable capacity *)
Definition tab_ok (st : state) : Prop :=
  Proofs.Session.tab_inv (r_tab st) /\ 0 < Session.t_cap (r_tab st).

Definition rmap {A B C} (f : A -> B) (r : res (A * C)) : res (B * C) :=
  match r with Ok (a, c) => Ok (f a, c) | Err e => Err e end.

(* handleEntry reads and writes six fields of the replica; of onDiskInitIndex
   it only asks whether the entry lies at or below it ([below]); lastApplied
   and snapshotIndex it never sees. [entry_core] is handleEntry on those six;
   every fact about one entry is proved on it. *)
Record core := mkCore {
  k_sm : S; k_tab : table; k_mem : Membership.membership; k_index : N; k_term : N; k_od : N }.

Definition core_of (st : state) : core :=
  mkCore (r_sm st) (r_tab st) (r_mem st) (r_index st) (r_term st) (r_od st).

Definition plug (st : state) (c : core) : state :=
  mkSt (k_sm c) (k_tab c) (k_mem c) (k_index c) (k_term c)
       (r_last_index st) (r_last_term st) (r_od_init st) (k_od c) (r_ss_index st).

(* StateMachine.setApplied, on the core *)
Definition advance (c : core) (e : @entry) (ev : event) : res (core * event) :=
  if negb (k_index c + 1 =? en_index e) then Err EGap
  else if en_term e <? k_term c then Err ETermBack
  else Ok (mkCore (k_sm c) (k_tab c) (k_mem c) (en_index e) (en_term e) (k_od c), ev).

Definition panics (o : @Session.outcome result) : bool :=
  match o with Session.OPanic => true | _ => false end.

Definition entry_core (cfg : config) (below : bool) (c : core) (e : @entry) : res (core * event) :=
  match en_body e with
  | BCC cc =>
    match Membership.handle norm (c_ordered cfg) (k_mem c) cc (en_index e) with
    | Membership.Applied m' =>
        advance (mkCore (k_sm c) (k_tab c) m' (k_index c) (k_term c) (k_od c)) e (EvCC true)
    | Membership.Rejected _ => advance c e (EvCC false)
    | Membership.Panicked _ => Err ECC
    end
  | BApp se =>
    if is_update_kind (Session.classify se) && (c_ondisk cfg && below) then advance c e EvSkip
    else
      let '(sst, o) := sess_step (Session.mkState (k_tab c) (k_sm c)) se in
      let c1 od := mkCore (Session.st_sm sst) (Session.st_tab sst) (k_mem c) (k_index c) (k_term c) od in
      if panics o then
        Err (match Session.classify se with Session.KBadUnmanaged => ENotManaged | _ => ESession end)
      else if called_user_sm o && c_ondisk cfg then
        if below || (en_index e <=? k_od c) then Err EOnDisk
        else advance (c1 (en_index e)) e (EvApp o)
      else advance (c1 (k_od c)) e (EvApp o)
  end.

(* setOnDiskIndex for one entry *)
Lemma set_on_disk_index_one : forall cfg (st : state) i,
  set_on_disk_index cfg st i i =
  if c_ondisk cfg then
    if (i <=? r_od_init st) || (i <=? r_od st) then Err EOnDisk else Ok (with_od st i)
  else Ok st.
Proof.
  intros. unfold set_on_disk_index. rewrite N.ltb_irrefl. destruct (c_ondisk cfg); [|reflexivity].
  cbn [negb]. destruct (i <=? r_od_init st); [reflexivity|]. now destruct (i <=? r_od st).
Qed.

Lemma set_applied_core : forall (st : state) e (ev : event),
  bind (set_applied st (en_index e) (en_term e)) (fun s => Ok (s, ev)) =
  rmap (plug st) (advance (core_of st) e ev).
Proof.
  intros. unfold set_applied, advance, core_of. cbn [k_index k_term].
  destruct (negb _); [reflexivity|]. destruct (_ <? _); reflexivity.
Qed.

Lemma apply_entry_core : forall cfg (st : state) e,
  apply_entry cfg st e = rmap (plug st) (entry_core cfg (en_index e <=? r_od_init st) (core_of st) e).
Proof.
  intros. unfold RsmApply.apply_entry, entry_core. destruct (en_body e) as [se|cc].
  - unfold RsmApply.apply_app, entry_in_init_disk_sm, core_of.
    cbn [k_sm k_tab k_mem k_index k_term k_od].
    destruct (c_ondisk cfg) eqn:OD; cbn [andb].
    + destruct (_ && _); [apply set_applied_core|]. destruct (sess_step _ se) as [sst o].
      destruct o; cbn [panics called_user_sm bind andb]; try reflexivity;
        try exact (set_applied_core (with_sess st _ _) e _).
      rewrite set_on_disk_index_one, OD. cbn [with_sess r_od_init r_od].
      destruct (_ || _); [reflexivity|]. exact (set_applied_core (with_od (with_sess st _ _) _) e _).
    + rewrite !andb_false_r. destruct (sess_step _ se) as [sst o].
      destruct o; cbn [panics called_user_sm bind andb]; try reflexivity;
        rewrite ?set_on_disk_index_one, ?OD; exact (set_applied_core (with_sess st _ _) e _).
  - unfold RsmApply.apply_cc, core_of. cbn [k_mem].
    destruct (Membership.handle _ _ _ _ _); [exact (set_applied_core (with_mem st _) e _)| |reflexivity].
    exact (set_applied_core st e _).
Qed.

Lemma apply_entry_plug : forall cfg (st st' : state) e ev,
  apply_entry cfg st e = Ok (st', ev) ->
  exists c', entry_core cfg (en_index e <=? r_od_init st) (core_of st) e = Ok (c', ev) /\ st' = plug st c'.
Proof.
  intros cfg st st' e ev. rewrite apply_entry_core.
  destruct (entry_core _ _ _ _) as [[c' ev']|]; [|discriminate]. intros H; inversion H. eauto.
Qed.

Lemma core_of_plug : forall (st : state) c, core_of (plug st c) = c.
Proof. intros st []. reflexivity. Qed.

Lemma advance_ok : forall c e (ev ev' : event) c',
  advance c e ev = Ok (c', ev') ->
  en_index e = k_index c + 1 /\ k_term c <= en_term e /\ ev' = ev /\
  c' = mkCore (k_sm c) (k_tab c) (k_mem c) (en_index e) (en_term e) (k_od c).
Proof.
  intros c e ev ev' c'. unfold advance.
  destruct (negb _) eqn:A; [discriminate|]. destruct (_ <? _) eqn:B; [discriminate|].
  intros H; inversion H. repeat split; lia.
Qed.

Lemma advance_next : forall c e (ev : event),
  en_index e = k_index c + 1 -> k_term c <= en_term e ->
  advance c e ev = Ok (mkCore (k_sm c) (k_tab c) (k_mem c) (en_index e) (en_term e) (k_od c), ev).
Proof.
  intros c e ev A B. unfold advance.
  destruct (negb _) eqn:X; [lia|]. destruct (_ <? _) eqn:Y; [lia|]. reflexivity.
Qed.

Lemma entry_core_ok : forall cfg below c e c' ev,
  entry_core cfg below c e = Ok (c', ev) ->
  en_index e = k_index c + 1 /\ k_term c <= en_term e /\
  k_index c' = en_index e /\ k_term c' = en_term e /\
  ((k_tab c' = k_tab c /\ k_sm c' = k_sm c /\ k_od c' = k_od c) \/
   exists se o, en_body e = BApp se /\ k_mem c' = k_mem c /\
     sess_step (Session.mkState (k_tab c) (k_sm c)) se = (Session.mkState (k_tab c') (k_sm c'), o) /\
     (k_od c' = k_od c /\ called_user_sm o && c_ondisk cfg = false \/
      k_od c' = en_index e /\ c_ondisk cfg = true)).
Proof.
  intros cfg below c e c' ev. unfold entry_core. destruct (en_body e) as [se|cc].
  - destruct (_ && _).
    + intros H. apply advance_ok in H as (A & B & _ & ->). cbn. auto 10.
    + destruct (sess_step _ se) as [[tab sm] o] eqn:ST. cbn [Session.st_sm Session.st_tab].
      destruct (panics o); [discriminate|].
      destruct (called_user_sm o && c_ondisk cfg) eqn:CU.
      * destruct (below || _); [discriminate|]. intros H. apply advance_ok in H as (A & B & _ & ->).
        apply andb_prop in CU. cbn. repeat split; auto. right. exists se, o. cbn. tauto.
      * intros H. apply advance_ok in H as (A & B & _ & ->).
        cbn. repeat split; auto. right. exists se, o. cbn. tauto.
  - destruct (Membership.handle _ _ _ _ _); [| |discriminate];
      intros H; apply advance_ok in H as (A & B & _ & ->); cbn; auto 10.
Qed.

(* ESession is not among them: the session layer reports OPanic only for an
   entry that is not session managed and not empty (C05) *)
Lemma entry_core_err : forall cfg below c e x,
  entry_core cfg below c e = Err x ->
  en_index e = k_index c + 1 -> k_term c <= en_term e ->
  x = ENotManaged \/ x = ECC \/ (x = EOnDisk /\ c_ondisk cfg = true).
Proof.
  intros cfg below c e x H IX TM. unfold entry_core in H. destruct (en_body e) as [se|cc].
  - destruct (_ && _); [now rewrite advance_next in H|].
    destruct (sess_step _ se) as [sst o] eqn:ST. destruct (panics o) eqn:PN.
    { destruct o; try discriminate. inversion H.
      destruct (Proofs.Session.sm_touched_only_when_applied_proved sm_update _ _ _ _ ST)
        as [(_ & _ & K)|(r & Q & _)]; [|discriminate]. rewrite (K eq_refl). auto. }
    destruct (called_user_sm o && c_ondisk cfg) eqn:CU; [|now rewrite advance_next in H].
    apply andb_prop in CU. destruct (below || _); [inversion H; tauto|now rewrite advance_next in H].
  - destruct (Membership.handle _ _ _ _ _); [now rewrite advance_next in H|now rewrite advance_next in H|].
    inversion H. auto.
Qed.

Lemma apply_entry_shape : forall cfg (st st' : state) e ev,
  apply_entry cfg st e = Ok (st', ev) ->
  en_index e = r_index st + 1 /\ r_term st <= en_term e /\
  r_index st' = en_index e /\ r_term st' = en_term e /\
  r_last_index st' = r_last_index st /\ r_last_term st' = r_last_term st /\
  r_od_init st' = r_od_init st /\
  (c_ondisk cfg = false -> r_od st' = r_od st) /\ (tab_ok st -> tab_ok st').
Proof.
  intros cfg st st' e ev H. apply apply_entry_plug in H as (c' & K & ->).
  apply entry_core_ok in K as (A & B & C & D & E).
  refine (conj A (conj B (conj C (conj D (conj eq_refl (conj eq_refl (conj eq_refl (conj _ _)))))))).
  - intros OD. cbn. destruct E as [(_ & _ & E)|(se & o & _ & _ & _ & [[E _]|[_ E]])]; auto; congruence.
  - intros [I P]. unfold tab_ok. cbn [plug r_tab r_sm].
    destruct E as [(-> & _)|(se & o & _ & _ & ST & _)]; [split; assumption|].
    pose proof (Proofs.Session.step_inv sm_update (Session.mkState (r_tab st) (r_sm st)) se I) as I'.
    pose proof (Proofs.Session.step_cap sm_update (Session.mkState (r_tab st) (r_sm st)) se) as P'.
    cbn [core_of k_tab k_sm] in ST. rewrite ST in I', P'. split; [exact I'|]. cbn in P'. now rewrite P'.
Qed.

Definition run_sync cfg (st : state) es : res (state * list event) :=
  match run_entries cfg st es with Ok (s, evs) => Ok (sync s, evs) | Err e => Err e end.

Lemma run_entries_cons : forall cfg (st st' : state) e r evs,
  run_entries cfg st (e :: r) = Ok (st', evs) ->
  exists s1 ev evs', apply_entry cfg st e = Ok (s1, ev) /\ run_entries cfg s1 r = Ok (st', evs') /\
    evs = ev :: evs'.
Proof.
  intros cfg st st' e r evs H. cbn [RsmApply.run_entries] in H.
  destruct (apply_entry cfg st e) as [[s1 ev]|] eqn:A; [|discriminate]. cbn [bind fst snd] in H.
  destruct (run_entries cfg s1 r) as [[s2 evs2]|] eqn:R; [|discriminate]. inversion H; subst. eauto 10.
Qed.

Lemma run_entries_ind : forall cfg (P : state -> list entry -> state -> list event -> Prop),
  (forall st, P st [] st []) ->
  (forall st e r s1 ev s2 evs,
     apply_entry cfg st e = Ok (s1, ev) -> run_entries cfg s1 r = Ok (s2, evs) ->
     P s1 r s2 evs -> P st (e :: r) s2 (ev :: evs)) ->
  forall es st st' evs, run_entries cfg st es = Ok (st', evs) -> P st es st' evs.
Proof.
  intros cfg P H0 HS. induction es as [|e r IH]; intros st st' evs H.
  - inversion H. apply H0.
  - apply run_entries_cons in H as (s1 & ev & evs' & A & R & ->). eauto.
Qed.

Lemma run_entries_app : forall cfg a b (st : state),
  run_entries cfg st (a ++ b) =
  bind (run_entries cfg st a) (fun p =>
    bind (run_entries cfg (fst p) b) (fun q => Ok (fst q, snd p ++ snd q))).
Proof.
  induction a as [|e r IH]; intros b st.
  - cbn. destruct (run_entries cfg st b) as [[s evs]|x]; reflexivity.
  - cbn [app RsmApply.run_entries]. destruct (apply_entry cfg st e) as [[s1 ev]|x]; cbn [bind fst snd]; [|reflexivity].
    rewrite IH. destruct (run_entries cfg s1 r) as [[s2 evs]|x]; cbn [bind fst snd]; [|reflexivity].
    destruct (run_entries cfg s2 b) as [[s3 evs']|x]; reflexivity.
Qed.

Lemma run_entries_split : forall cfg a b (st st_f : state) evs_f,
  run_entries cfg st (a ++ b) = Ok (st_f, evs_f) ->
  exists st_k evs_k evs_r,
    run_entries cfg st a = Ok (st_k, evs_k) /\
    run_entries cfg st_k b = Ok (st_f, evs_r) /\ evs_f = evs_k ++ evs_r.
Proof.
  intros cfg a b st st_f evs_f H. rewrite run_entries_app in H.
  destruct (run_entries cfg st a) as [[s1 e1]|x]; cbn [bind fst snd] in H; [|discriminate].
  destruct (run_entries cfg s1 b) as [[s2 e2]|x] eqn:B; cbn [bind fst snd] in H; [|discriminate].
  inversion H; subst. exists s1, e1, e2. auto.
Qed.

Lemma run_entries_at : forall cfg es k (st st_f : state) evs_f,
  run_entries cfg st es = Ok (st_f, evs_f) ->
  exists st_k evs_k evs_r,
    run_entries cfg st (firstn k es) = Ok (st_k, evs_k) /\
    run_entries cfg st_k (skipn k es) = Ok (st_f, evs_r) /\ evs_f = evs_k ++ evs_r.
Proof. intros cfg es k st st_f evs_f H. apply run_entries_split. now rewrite firstn_skipn. Qed.

Lemma run_entries_middle : forall cfg es p q (st st_p st_q : state) ep eq,
  (p <= q)%nat ->
  run_entries cfg st (firstn p es) = Ok (st_p, ep) ->
  run_entries cfg st (firstn q es) = Ok (st_q, eq) ->
  exists em, run_entries cfg st_p (firstn (q - p) (skipn p es)) = Ok (st_q, em).
Proof.
  intros cfg es p q st st_p st_q ep eq L P Q.
  replace q with (p + (q - p))%nat in Q at 1 by lia. rewrite firstn_add in Q.
  apply run_entries_split in Q as (s & ? & em & P' & Q & _).
  rewrite P in P'. injection P' as <- _. eauto.
Qed.

Lemma run_entries_frame : forall cfg (f : state -> state),
  (forall st, core_of (f st) = core_of st /\ r_od_init (f st) = r_od_init st) ->
  (forall st c, plug (f st) c = f (plug st c)) ->
  forall es st, run_entries cfg (f st) es = rmap f (run_entries cfg st es).
Proof.
  intros cfg f F1 F2. induction es as [|e r IH]; intros st; [reflexivity|].
  cbn [RsmApply.run_entries]. rewrite !apply_entry_core. destruct (F1 st) as [-> ->].
  destruct (entry_core _ _ _ e) as [[c ev]|]; [|reflexivity]. cbn [rmap bind fst snd].
  rewrite F2, IH. destruct (run_entries cfg (plug st c) r) as [[s2 evs]|]; reflexivity.
Qed.

Lemma run_entries_with_last : forall cfg es st i t,
  run_entries cfg (with_last st i t) es = rmap (fun s => with_last s i t) (run_entries cfg st es).
Proof. intros. now apply (run_entries_frame cfg (fun s => with_last s i t)). Qed.

Lemma run_entries_shape : forall cfg es (st st' : state) evs,
  run_entries cfg st es = Ok (st', evs) ->
  r_index st' = r_index st + nlen es /\
  r_last_index st' = r_last_index st /\ r_last_term st' = r_last_term st /\
  r_od_init st' = r_od_init st /\
  (c_ondisk cfg = false -> r_od st' = r_od st) /\
  (tab_ok st -> tab_ok st') /\ length evs = length es.
Proof.
  intros cfg. apply run_entries_ind.
  - intros st. unfold nlen. cbn [length]. rewrite N.add_0_r. tauto.
  - intros st e r s1 ev s2 evs A _ (b1 & b2 & b3 & b4 & b5 & b6 & b7).
    apply apply_entry_shape in A as (a1 & _ & a3 & _ & a5 & a6 & a7 & a8 & a9).
    unfold nlen in *. cbn [length].
    refine (conj _ (conj _ (conj _ (conj _ (conj _ (conj _ _)))))); try congruence; try lia; auto.
Qed.

Lemma sync_id : forall st : state, synced st -> sync st = st.
Proof. intros [] [A B]. cbn in *. subst. reflexivity. Qed.

Lemma check_batch_ok : forall cfg r (s1 st' : state) evs,
  run_entries cfg s1 r = Ok (st', evs) ->
  Forall (fun e => 0 < en_term e) r ->
  check_batch (r_index s1) (r_term s1) r = Ok (r_index st', r_term st').
Proof.
  intros cfg. refine (run_entries_ind cfg _ _ _); [reflexivity|].
  intros st e r s1 ev s2 evs A _ IH F. apply Forall_cons_iff in F as [F1 F2].
  apply apply_entry_shape in A as (a1 & a2 & a3 & a4 & _).
  cbn [check_batch].
  destruct ((en_index e =? 0) || (en_term e =? 0)) eqn:Z; [lia|].
  destruct (negb (en_index e =? r_index st + 1)) eqn:G; [lia|].
  destruct (en_term e <? r_term st) eqn:T; [lia|].
  rewrite <- a3, <- a4. auto.
Qed.

Lemma set_last_applied_ok : forall cfg es (st st' : state) evs,
  run_entries cfg st es = Ok (st', evs) -> synced st ->
  Forall (fun e => 0 < en_term e) es ->
  set_last_applied st' es = Ok (sync st').
Proof.
  intros cfg [|e r] st st' evs H [S1 S2] F.
  - inversion H; subst. cbn. now rewrite sync_id.
  - pose proof (run_entries_shape _ _ _ _ _ H) as (_ & L1 & L2 & _).
    apply run_entries_cons in H as (s2 & ev & evs' & A' & R & _). apply Forall_cons_iff in F as [F1 F2].
    pose proof (check_batch_ok _ _ _ _ _ R F2) as CB.
    apply apply_entry_shape in A' as (a1 & a2 & a3 & a4 & _).
    rewrite a3, a4 in CB. unfold set_last_applied.
    destruct ((en_index e =? 0) || (en_term e =? 0)) eqn:Z; [lia|].
    rewrite CB. cbn [bind fst snd].
    destruct (negb (r_last_index st' + 1 =? en_index e)) eqn:G; [lia|].
    destruct (en_term e <? r_last_term st') eqn:T; [lia|].
    reflexivity.
Qed.

Lemma contiguous_last : forall es base f d,
  contiguous base (f :: es) -> en_index (last (f :: es) d) = base + nlen (f :: es).
Proof.
  induction es as [|e r IH]; intros base f d [A B]; unfold nlen in *.
  - cbn. lia.
  - change (last (f :: e :: r) d) with (last (e :: r) d). rewrite (IH _ _ _ B). cbn [length]. lia.
Qed.

Lemma contiguous_firstn : forall n base es, contiguous base es -> contiguous base (firstn n es).
Proof.
  induction n as [|n IH]; intros base es C; [exact I|].
  destruct es as [|e r]; [exact I|]. destruct C as [C1 C2]. cbn. split; auto.
Qed.

Lemma contiguous_app : forall a b base,
  contiguous base (a ++ b) <-> contiguous base a /\ contiguous (base + nlen a) b.
Proof.
  induction a as [|e r IH]; intros b base; unfold nlen in *; cbn [app contiguous length].
  - rewrite N.add_0_r. tauto.
  - rewrite IH. replace (base + 1 + N.of_nat (length r)) with (base + N.of_nat (Datatypes.S (length r))) by lia. tauto.
Qed.

Lemma terms_ok_firstn : forall n t es, terms_ok t es -> terms_ok t (firstn n es).
Proof.
  induction n as [|n IH]; intros t es C; [exact I|].
  destruct es as [|e r]; [exact I|]. destruct C as (C1 & C2 & C3). cbn. auto.
Qed.

Lemma terms_ok_pos : forall es t, terms_ok t es -> Forall (fun e => 0 < en_term e) es.
Proof.
  induction es as [|e r IH]; intros t H; constructor; [apply H|]. eapply IH, H.
Qed.

(* pb.EntriesToApply on a gap-free batch that starts at or below the next index:
   the already applied prefix is dropped, the hole panic is not reached *)
Lemma entries_to_apply_contiguous : forall t base a,
  contiguous base t -> base <= a ->
  entries_to_apply t a = Ok (skipn (N.to_nat (a - base)) t).
Proof.
  intros t base a C LE. destruct t as [|f r]; [now rewrite skipn_nil|].
  unfold entries_to_apply. rewrite (contiguous_last r base f f C).
  destruct C as [C1 C2]. rewrite C1.
  destruct (base + nlen (f :: r) <=? a) eqn:Old.
  - rewrite skipn_all2; [reflexivity|]. unfold nlen in Old. lia.
  - destruct (a + 1 <? base + 1) eqn:Hole; [lia|].
    replace (a + 1 - (base + 1)) with (a - base) by lia.
    destruct (a - base <? nlen (f :: r)) eqn:K; [reflexivity|]. unfold nlen in *. lia.
Qed.

Lemma apply_task_eq : forall cfg t base (st : state),
  contiguous base t -> base <= r_index st ->
  Forall (fun e => 0 < en_term e) t -> synced st ->
  apply_task cfg st t = run_sync cfg st (skipn (N.to_nat (r_index st - base)) t).
Proof.
  intros cfg t base st C LE F SY. unfold RsmApply.apply_task, run_sync.
  rewrite (entries_to_apply_contiguous t base (r_index st) C LE). cbn [bind].
  set (es := skipn (N.to_nat (r_index st - base)) t).
  destruct (run_entries cfg st es) as [[s evs]|x] eqn:R; cbn [bind fst snd]; [|reflexivity].
  rewrite (set_last_applied_ok cfg es st s evs R SY); [reflexivity|].
  apply forall_skipn, F.
Qed.

(* How raft hands a log [es] to the apply path: a sequence of tasks, each a
   segment of the log that starts at or below the first entry the replica has
   not applied yet (re-delivery of applied entries is allowed: restart,
   snapshot recovery), of any length. [pos] = number of entries applied. *)
Inductive delivery (es : list (@entry)) : nat -> list (list (@entry)) -> nat -> Prop :=
| d_nil : forall pos, delivery es pos [] pos
| d_cons : forall pos start len ts final,
    (start <= pos)%nat ->
    delivery es (Nat.max pos (Nat.min (start + len) (length es))) ts final ->
    delivery es pos (firstn len (skipn start es) :: ts) final.

Lemma delivery_bounds : forall es pos ts final,
  delivery es pos ts final -> (pos <= length es)%nat -> (pos <= final <= length es)%nat.
Proof.
  intros es pos ts final D. induction D as [pos|pos start len ts final Hs D IH]; intros L; [lia|].
  assert (Nat.max pos (Nat.min (start + len) (length es)) <= length es)%nat by lia.
  specialize (IH H). lia.
Qed.

Lemma run_sync_app : forall cfg a b (st : state),
  run_sync cfg st (a ++ b) =
  bind (run_sync cfg st a) (fun p =>
    bind (run_sync cfg (fst p) b) (fun q => Ok (fst q, snd p ++ snd q))).
Proof.
  intros cfg a b st. unfold run_sync. rewrite run_entries_app.
  destruct (run_entries cfg st a) as [[s1 ev1]|x]; cbn [bind fst snd]; [|reflexivity].
  unfold sync at 2. rewrite run_entries_with_last.
  destruct (run_entries cfg s1 b) as [[s2 ev2]|x]; reflexivity.
Qed.

Lemma run_tasks_delivery : forall cfg es,
  contiguous 0 es -> Forall (fun e => 0 < en_term e) es ->
  forall pos ts final, delivery es pos ts final ->
  forall st : state, synced st -> r_index st = N.of_nat pos -> (pos <= length es)%nat ->
  run_tasks cfg st ts = run_sync cfg st (firstn (final - pos) (skipn pos es)).
Proof.
  intros cfg es C F pos ts final D.
  induction D as [pos|pos start len ts final Hs D IH]; intros st SY IX L.
  - rewrite Nat.sub_diag. cbn. unfold run_sync. cbn. now rewrite sync_id.
  - set (pos' := Nat.max pos (Nat.min (start + len) (length es))) in *.
    assert (B : (pos' <= final <= length es)%nat) by (apply (delivery_bounds _ _ _ _ D); lia).
    assert (P : (pos <= pos')%nat) by lia.
    cbn [RsmApply.run_tasks].
    assert (CT : contiguous (N.of_nat start) (firstn len (skipn start es))).
    { apply contiguous_firstn. rewrite <- (firstn_skipn start es) in C. apply contiguous_app in C as [_ C].
      unfold nlen in C. rewrite firstn_length, Nat.min_l in C by lia. exact C. }
    rewrite (apply_task_eq cfg _ (N.of_nat start) st CT); auto; [|lia|apply forall_firstn, forall_skipn, F].
    rewrite IX. replace (N.to_nat (N.of_nat pos - N.of_nat start)) with (pos - start)%nat by lia.
    rewrite segment_rest by lia. fold pos'.
    replace (final - pos)%nat with ((pos' - pos) + (final - pos'))%nat by lia.
    rewrite firstn_add, skipn_skipn. replace (pos + (pos' - pos))%nat with pos' by lia.
    rewrite run_sync_app. unfold run_sync.
    destruct (run_entries cfg st (firstn (pos' - pos) (skipn pos es))) as [[s1 ev1]|x] eqn:R1; cbn [bind fst snd]; [|reflexivity].
    apply run_entries_shape in R1 as (I1 & _).
    rewrite (IH (sync s1)); [reflexivity|split; reflexivity| |lia].
    change (r_index (sync s1)) with (r_index s1). rewrite I1, IX. unfold nlen.
    rewrite firstn_length, skipn_length. lia.
Qed.

Lemma run_entries_err : forall cfg es (st : state) x,
  run_entries cfg st es = Err x ->
  contiguous (r_index st) es -> terms_ok (r_term st) es ->
  x = ENotManaged \/ x = ECC \/ (x = EOnDisk /\ c_ondisk cfg = true).
Proof.
  induction es as [|e r IH]; intros st x H; [discriminate|]. intros [C1 C2] (_ & T1 & T2).
  cbn [RsmApply.run_entries] in H.
  destruct (apply_entry cfg st e) as [[s1 ev]|y] eqn:A; cbn [bind fst snd] in H.
  - destruct (run_entries cfg s1 r) as [[s2 evs]|y] eqn:R; cbn [bind] in H; [discriminate|].
    inversion H; subst. apply apply_entry_shape in A as (_ & _ & a3 & a4 & _).
    eapply IH; eauto; [rewrite a3, C1; exact C2 | rewrite a4; exact T2].
  - inversion H; subst. rewrite apply_entry_core in A.
    destruct (entry_core _ _ _ e) as [[]|y'] eqn:K; [discriminate|]. inversion A; subst.
    eapply entry_core_err; eauto.
Qed.

Lemma run_tasks_init : forall cfg es cap (s0 : S) ts final,
  contiguous 0 es -> Forall (fun e => 0 < en_term e) es -> delivery es 0 ts final ->
  run_tasks cfg (init_state cap s0) ts = run_sync cfg (init_state cap s0) (firstn final es).
Proof.
  intros cfg es cap s0 ts final C F D.
  rewrite (run_tasks_delivery cfg es C F 0 ts final D);
    [now rewrite Nat.sub_0_r|split; reflexivity|reflexivity|lia].
Qed.

Lemma run_tasks_rest : forall cfg es k ts (st : state),
  contiguous 0 es -> Forall (fun e => 0 < en_term e) es -> (k <= length es)%nat ->
  delivery es k ts (length es) -> synced st -> r_index st = N.of_nat k ->
  run_tasks cfg st ts = run_sync cfg st (skipn k es).
Proof.
  intros cfg es k ts st C F L D SY IX. rewrite (run_tasks_delivery cfg es C F k ts _ D st SY IX L).
  now rewrite firstn_all2 by (rewrite skipn_length; lia).
Qed.

Lemma apply_gap_free_proved : forall cfg es cap (s0 : S) ts final,
  contiguous 0 es -> terms_ok 0 es -> delivery es 0 ts final ->
  match run_tasks cfg (init_state cap s0) ts with
  | Err x => x = ENotManaged \/ x = ECC \/ x = ESession \/ (x = EOnDisk /\ c_ondisk cfg = true)
  | Ok (st, evs) => r_index st = N.of_nat final /\ r_last_index st = N.of_nat final /\ length evs = final
  end.
Proof.
  intros cfg es cap s0 ts final C T D.
  rewrite (run_tasks_init cfg es cap s0 ts final C (terms_ok_pos _ _ T) D). unfold run_sync.
  destruct (run_entries cfg (init_state cap s0) (firstn final es)) as [[s evs]|x] eqn:R.
  - apply run_entries_shape in R as (I1 & _ & _ & _ & _ & _ & L).
    pose proof (delivery_bounds _ _ _ _ D) as B.
    change (r_last_index (sync s)) with (r_index s). change (r_index (sync s)) with (r_index s).
    change (r_index (init_state cap s0)) with 0 in I1.
    unfold nlen in I1. rewrite firstn_length in *. lia.
  - eapply run_entries_err in R; [tauto|apply contiguous_firstn, C|apply terms_ok_firstn, T].
Qed.

Lemma prefix_state : forall cfg cap (s0 : S) es k (st_k : state) evs,
  run_entries cfg (init_state cap s0) (firstn k es) = Ok (st_k, evs) -> (k <= length es)%nat ->
  r_index st_k = N.of_nat k /\ r_od_init st_k = 0 /\ (c_ondisk cfg = false -> r_od st_k = 0) /\
  (0 < cap -> tab_ok st_k).
Proof.
  intros cfg cap s0 es k st_k evs R K.
  apply run_entries_shape in R as (IX & _ & _ & ODI & ODX & TAB & _).
  unfold nlen in IX. rewrite firstn_length in IX.
  refine (conj _ (conj ODI (conj ODX (fun P => TAB (conj (Proofs.Session.init_inv cap s0) P))))).
  cbn [init_state r_index] in IX. lia.
Qed.

Variable sm_save : S -> bytes.
Variable sm_recover : bytes -> option S.

Notation snapshot := (@snapshot S result sm_save).
Notation prepare := (@prepare S result).
Notation image_of := (@image_of S result sm_save).
Notation recover := (@recover S result sm_recover).

Lemma obs_with_last : forall (st : state) i t, obs (with_last st i t) = obs st.
Proof. intros []; reflexivity. Qed.

(* the metadata getSSMeta captures for state [st] *)
Definition meta_of (k : sskind) (st : state) : @meta S result :=
  mkMeta (r_index st) (r_term st) (r_mem st) (r_od st)
         (Session.t_cap (r_tab st), rev (Session.t_list (r_tab st))) k (r_sm st).

Definition not_out_of_date (cfg : config) (k : sskind) (st : state) : Prop :=
  c_ondisk cfg = true \/ k = SSExported \/ r_last_index st = 0 \/ r_last_index st <> r_ss_index st.

(* prepare() leaves the replica as it was: the save walk goes through Get, yet
   restores the LRU order (Session.save_preserves_order) *)
Lemma prepare_ok : forall cfg k (st : state),
  tab_ok st -> Membership.m_is_empty (r_mem st) = false ->
  r_ss_index st <= r_last_index st -> not_out_of_date cfg k st ->
  prepare cfg k st = Ok (Prepared (meta_of k st) st).
Proof.
  intros cfg k st [[[ND LE] _] CAP] ME SI NO. unfold RsmApply.prepare.
  destruct (r_last_index st <? r_ss_index st) eqn:A; [lia|].
  assert (B : negb (c_ondisk cfg) && negb (match k with SSExported => true | _ => false end)
              && (0 <? r_last_index st) && (r_last_index st =? r_ss_index st) = false).
  { destruct NO as [NO|[NO|[NO|NO]]].
    - rewrite NO. reflexivity.
    - rewrite NO. cbn. now rewrite andb_false_r.
    - rewrite NO. cbn. now rewrite !andb_false_r.
    - destruct (r_last_index st =? r_ss_index st) eqn:E; [lia|]. now rewrite andb_false_r. }
  rewrite B, ME. cbn [Session.st_tab] in ND.
  rewrite (Proofs.Session.save_preserves_order_proved (r_tab st) ND).
  unfold meta_of, Membership.m_get. do 3 f_equal. destruct st; reflexivity.
Qed.

Lemma snapshot_ok : forall cfg k (st : state),
  tab_ok st -> Membership.m_is_empty (r_mem st) = false ->
  r_ss_index st <= r_last_index st -> not_out_of_date cfg k st -> k <> SSStreaming ->
  snapshot cfg k st = Ok (Snap (image_of cfg (meta_of k st)) (with_ss_index st (r_index st))).
Proof.
  intros cfg k st T ME SI NO KS. unfold RsmApply.snapshot. rewrite prepare_ok by assumption.
  destruct k; [reflexivity|reflexivity|congruence].
Qed.

Lemma image_of_full : forall cfg k (st : state),
  c_ondisk cfg = false -> k <> SSStreaming ->
  image_of cfg (meta_of k st) =
  mkImg (r_index st) (r_term st) (r_mem st) (r_od st)
        (Session.t_cap (r_tab st), rev (Session.t_list (r_tab st)))
        (Some (sm_save (r_sm st))) false false false false.
Proof.
  intros cfg k st OD K. unfold RsmApply.image_of. destruct k; try congruence; cbn; now rewrite ?OD.
Qed.

(* what reaches an IOnDiskStateMachine: NoOP-session proposals, empty entries,
   config changes (nodehost.go refuses every other session on it) *)
Definition ondisk_entry (e : @entry) : Prop :=
  match en_body e with
  | BCC _ => True
  | BApp se => Session.classify se = Session.KNoop \/ Session.classify se = Session.KNoopSession
  end.

Lemma apply_entry_od : forall cfg (st st' : state) e ev,
  c_ondisk cfg = true -> apply_entry cfg st e = Ok (st', ev) ->
  (r_sm st' = r_sm st /\ r_od st' = r_od st) \/ r_od st' = en_index e.
Proof.
  intros cfg st st' e ev OD H. apply apply_entry_plug in H as (c' & K & ->).
  apply entry_core_ok in K as (_ & _ & _ & _ & [(_ & A & B)|(se & o & _ & _ & ST & [[B CU]|[B _]])]); cbn; auto.
  left. split; [|exact B]. rewrite OD, andb_true_r in CU.
  destruct (Proofs.Session.sm_touched_only_when_applied_proved sm_update _ _ _ _ ST) as [(T & _)|(r & -> & _)];
    [exact T|discriminate].
Qed.

Lemma run_entries_od : forall cfg es (st st' : state) evs,
  run_entries cfg st es = Ok (st', evs) -> c_ondisk cfg = true -> r_od st <= r_index st ->
  r_od st <= r_od st' /\ r_od st' <= r_index st' /\ (r_od st' = r_od st -> r_sm st' = r_sm st).
Proof.
  intros cfg. refine (run_entries_ind cfg _ _ _); [intros; repeat split; auto; lia|].
  intros st e r s1 ev s2 evs A _ IH OD LE.
  pose proof (apply_entry_shape _ _ _ _ _ A) as (a1 & _ & a3 & _).
  destruct (apply_entry_od _ _ _ _ _ OD A) as [[E1 E2]|E]; destruct (IH OD) as (I1 & I2 & I3); try lia;
    repeat split; try lia.
  intros Q. rewrite I3, E1; auto. lia.
Qed.

(* the replica restarted from its own disk ([b]: user data, onDiskIndex and the
   index its state machine was opened at) while it replays entries the disk
   already holds: membership, applied position and the (unused) session table
   follow the replica [a] that applied them the first time *)
Definition replaying (b a : state) : state :=
  mkSt (r_sm b) (r_tab a) (r_mem a) (r_index a) (r_term a)
       (r_last_index b) (r_last_term b) (r_od_init b) (r_od b) (r_ss_index b).

(* at or below the index returned by Open a proposal is a no-op for the user
   state machine, while membership changes and the applied position advance
   exactly as on a replica that applies it *)
Lemma apply_entry_replaying : forall cfg (a b a' : state) e ev,
  c_ondisk cfg = true -> ondisk_entry e -> en_index e <= r_od_init b ->
  apply_entry cfg a e = Ok (a', ev) ->
  exists ev', apply_entry cfg (replaying b a) e = Ok (replaying b a', ev').
Proof.
  intros cfg a b a' e ev OD OE LE H. apply apply_entry_plug in H as (c' & K & ->).
  rewrite apply_entry_core. cbn [replaying r_od_init].
  replace (en_index e <=? r_od_init b) with true by (symmetry; lia).
  revert K. generalize (en_index e <=? r_od_init a) as below. intros below.
  unfold entry_core, ondisk_entry, core_of in *. rewrite OD.
  cbn [k_sm k_tab k_mem k_index k_term k_od r_sm r_tab r_mem r_index r_term r_od andb].
  destruct (en_body e) as [se|cc].
  - unfold Session.step. cbn [Session.st_tab Session.st_sm].
    destruct OE as [C|C]; rewrite C; cbn [is_update_kind andb panics called_user_sm].
    2: destruct below; cbn [orb]; [|destruct (sm_update _ _); cbn [panics called_user_sm andb];
                                     destruct (_ <=? _); [discriminate|]].
    all: intros H; apply advance_ok in H as (A & B & _ & ->);
         rewrite advance_next by assumption; eexists; reflexivity.
  - destruct (Membership.handle _ _ _ _ _); [| |discriminate].
    all: intros H; apply advance_ok in H as (A & B & _ & ->);
         rewrite advance_next by assumption; eexists; reflexivity.
Qed.

Lemma run_entries_replaying : forall cfg es (a a' : state) evs,
  run_entries cfg a es = Ok (a', evs) ->
  forall b, c_ondisk cfg = true -> Forall ondisk_entry es -> r_index a + nlen es <= r_od_init b ->
  exists evs', run_entries cfg (replaying b a) es = Ok (replaying b a', evs').
Proof.
  intros cfg. refine (run_entries_ind cfg _ _ _); [intros; eexists; reflexivity|].
  intros st e r s1 ev s2 evs A _ IH b OD F LE. apply Forall_cons_iff in F as [F1 F2].
  pose proof (apply_entry_shape _ _ _ _ _ A) as (a1 & _ & a3 & _).
  unfold nlen in *. cbn [length] in LE.
  destruct (apply_entry_replaying cfg st b s1 e ev OD F1) as [ev' B]; [lia|exact A|].
  destruct (IH b OD F2) as [evs' B2]; [lia|].
  exists (ev' :: evs'). cbn [RsmApply.run_entries]. rewrite B. cbn [bind fst snd]. now rewrite B2.
Qed.

Lemma run_entries_above_init : forall cfg es (a a' : state) evs,
  run_entries cfg a es = Ok (a', evs) ->
  forall b, core_of a = core_of b -> r_od_init a <= r_index a -> r_od_init b <= r_index b ->
  exists b', run_entries cfg b es = Ok (b', evs) /\ core_of a' = core_of b'.
Proof.
  intros cfg. refine (run_entries_ind cfg _ _ _); [intros st b E _ _; exists b; auto|].
  intros st e r s1 ev s2 evs A _ IH b E La Lb.
  pose proof (apply_entry_shape _ _ _ _ _ A) as (a1 & _ & a3 & _ & _ & _ & a7 & _).
  apply apply_entry_plug in A as (c1 & K & ->).
  assert (Ib : r_index st = r_index b) by exact (f_equal k_index E).
  replace (en_index e <=? r_od_init st) with false in K by (symmetry; lia).
  destruct (IH (plug b c1)) as (b' & B & E'); [now rewrite !core_of_plug|lia|cbn in *; lia|].
  exists b'. split; [|exact E']. cbn [RsmApply.run_entries]. rewrite apply_entry_core, <- E.
  replace (en_index e <=? r_od_init b) with false by (symmetry; lia).
  rewrite K. cbn [rmap bind fst snd]. now rewrite B.
Qed.

(* onDiskIndex never runs ahead of both the applied position and the index the
   state machine was opened at *)
Definition od_bounded (st : state) : Prop := r_od st <= N.max (r_index st) (r_od_init st).

Lemma run_entries_od_bounded : forall cfg es (st st' : state) evs,
  run_entries cfg st es = Ok (st', evs) -> c_ondisk cfg = true -> od_bounded st -> od_bounded st'.
Proof.
  intros cfg. refine (run_entries_ind cfg _ _ _); [auto|].
  intros st e r s1 ev s2 evs A _ IH OD B. apply IH; [exact OD|]. unfold od_bounded in *.
  pose proof (apply_entry_shape _ _ _ _ _ A) as (a1 & _ & a3 & _ & _ & _ & a7 & _).
  destruct (apply_entry_od _ _ _ _ _ OD A) as [[_ E]|E]; rewrite a7; lia.
Qed.

Lemma recover_od_bounded : forall cfg (st0 st_r : state) img,
  c_ondisk cfg = true -> r_od st0 <= r_od_init st0 -> i_od img <= i_index img ->
  recover cfg true st0 img = Ok (Recovered st_r) -> od_bounded st_r.
Proof.
  clear sm_update norm sm_save. intros cfg st0 st_r img OD B W.
  (* every successful branch ends in StateMachine.apply(ss) on some state X *)
  assert (G : forall X : state, r_od X <= N.max (i_index img) (r_od_init X) ->
              Ok (Recovered (apply_snapshot X img)) = Ok (Recovered st_r) -> od_bounded st_r).
  { intros X L H. injection H as <-. exact L. }
  unfold RsmApply.recover. rewrite OD. cbn [negb andb].
  destruct (_ <=? _); [discriminate|].
  destruct (_ || _).
  - destruct (_ <? _); [discriminate|]. apply G. lia.
  - destruct (_ || _); [|apply G; lia].
    destruct (_ && _); [discriminate|]. unfold load.
    destruct (Session.load _); [|discriminate]. destruct (i_data img); [|discriminate].
    destruct (sm_recover _); [|discriminate]. cbn [bind].
    destruct (_ && _); apply G; cbn; lia.
Qed.

(* the stream guard of Props/C08 for any state in which onDiskIndex is bounded
   as above *)
Lemma stream_meta_not_ahead : forall cfg (st : state) m st1,
  c_ondisk cfg = true -> od_bounded st ->
  ready_to_stream cfg (sync st) = true ->
  prepare cfg SSStreaming (sync st) = Ok (Prepared m st1) ->
  mt_od m <= mt_index m /\ i_od (image_of cfg m) <= i_index (image_of cfg m).
Proof.
  intros cfg st m st1 OD B RDY PRE. unfold ready_to_stream in RDY. rewrite OD in RDY.
  assert (G : r_od st <= r_index st) by (unfold od_bounded in B; cbn in RDY; lia).
  unfold RsmApply.prepare in PRE.
  destruct (_ <? _); [discriminate|]. destruct (_ && _); [discriminate|].
  destruct (Membership.m_is_empty _); [discriminate|].
  destruct (Session.save _) as [[sv tab']|]; [|discriminate].
  injection PRE as <- _. split; exact G.
Qed.

Lemma run_entries_ondisk_tab : forall cfg es (st st' : state) evs,
  run_entries cfg st es = Ok (st', evs) -> Forall ondisk_entry es -> r_tab st' = r_tab st.
Proof.
  intros cfg. refine (run_entries_ind cfg _ _ _); [reflexivity|].
  intros st e r s1 ev s2 evs A _ IH F. apply Forall_cons_iff in F as [OE F]. rewrite (IH F).
  apply apply_entry_plug in A as (c' & K & ->).
  apply entry_core_ok in K as (_ & _ & _ & _ & [(A & _)|(se & o & B & _ & ST & _)]); [exact A|].
  unfold ondisk_entry in OE. rewrite B in OE. revert ST. unfold Session.step.
  destruct OE as [K|K]; rewrite K; [|destruct (sm_update _ _)]; intros H; now inversion H.
Qed.

Lemma core_eq_obs : forall a b : state, core_of a = core_of b -> obs a = obs b /\ r_od a = r_od b.
Proof.
  intros a b E. split; [|exact (f_equal k_od E)].
  change (obs a) with ((fun c => (k_sm c, k_tab c, k_mem c, k_index c, k_term c)) (core_of a)).
  now rewrite E.
Qed.

(* the replica restarted from the dummy snapshot taken at [st_k] with its state
   machine opened on the disk state of [st_D], whose index is [pD] *)
Definition restarted (cap : N) (st_D st_k : state) (pD : N) : state :=
  mkSt (r_sm st_D) (Session.empty_table cap) (r_mem st_k) (r_index st_k) (r_term st_k)
       (r_index st_k) (r_term st_k) pD pD 0.

(* it replays the rest of the log to the state of the uninterrupted replica *)
Lemma restarted_follows : forall cfg cap (s0 : S) es k pD (st_k st_D st_f : state) ek eD e1 e2,
  c_ondisk cfg = true -> Forall ondisk_entry es -> (k <= length es)%nat -> (pD <= length es)%nat ->
  run_entries cfg (init_state cap s0) (firstn k es) = Ok (st_k, ek) ->
  run_entries cfg (init_state cap s0) (firstn pD es) = Ok (st_D, eD) ->
  run_entries cfg st_k (skipn k es) = Ok (st_f, e1) ->
  run_entries cfg st_D (skipn pD es) = Ok (st_f, e2) ->
  r_od st_D = N.of_nat pD -> r_od st_k <= N.of_nat pD ->
  exists st_f' evs',
    run_entries cfg (restarted cap st_D st_k (N.of_nat pD)) (skipn k es) = Ok (st_f', evs') /\
    core_of st_f = core_of st_f'.
Proof.
  intros cfg cap s0 es k pD st_k st_D st_f ek eD e1 e2 OD OE K2 PD Rk RD Rk2 RD2 HD HK.
  destruct (prefix_state _ _ _ _ _ _ _ Rk K2) as (IXk & ODIk & _).
  destruct (prefix_state _ _ _ _ _ _ _ RD PD) as (IXD & ODID & _).
  pose proof (run_entries_ondisk_tab cfg _ _ _ _ Rk (forall_firstn _ k _ OE)) as TBk.
  cbn [init_state r_tab] in TBk. set (st_r := restarted cap st_D st_k (N.of_nat pD)).
  destruct (Nat.le_gt_cases pD k) as [LE|GT].
  - (* the disk is not ahead of the snapshot: it holds what the snapshot point held *)
    destruct (run_entries_middle cfg es pD k _ _ _ _ _ LE RD Rk) as (em & MID).
    destruct (run_entries_od cfg _ _ _ _ MID OD) as (M1 & _ & M3); [lia|].
    assert (E : core_of st_k = core_of st_r).
    { unfold core_of, st_r, restarted. cbn. rewrite M3, TBk by lia. f_equal. lia. }
    destruct (run_entries_above_init cfg _ _ _ _ Rk2 st_r E) as (b' & B & E'); [lia|cbn; lia|eauto].
  - (* the disk is ahead: entries k+1 .. pD are no-ops for the user state machine *)
    destruct (run_entries_middle cfg es k pD _ _ _ _ _ (Nat.lt_le_incl _ _ GT) Rk RD) as (em & MID).
    destruct (run_entries_replaying cfg _ _ _ _ MID st_r OD
                (forall_firstn _ _ _ (forall_skipn _ k _ OE))) as (evD & RV).
    { unfold nlen. rewrite firstn_length, skipn_length. cbn. lia. }
    assert (E : core_of st_D = core_of (replaying st_r st_D)) by (unfold core_of; cbn; now rewrite HD).
    destruct (run_entries_above_init cfg _ _ _ _ RD2 _ E) as (b' & B & E'); [lia|cbn; lia|].
    replace (replaying st_r st_k) with st_r in RV by (unfold replaying, st_r, restarted; cbn; now rewrite TBk).
    replace (skipn k es) with (firstn (pD - k) (skipn k es) ++ skipn pD es).
    + rewrite run_entries_app, RV. cbn [bind fst snd]. rewrite B. cbn [bind fst snd]. eauto.
    + rewrite <- (firstn_skipn (pD - k) (skipn k es)) at 2. rewrite skipn_skipn. do 2 f_equal. lia.
Qed.

Lemma snapshot_cut_equiv_ondisk_proved : forall cfg cap (s0 : S) es k pD st_f evs_f,
  c_ondisk cfg = true -> 0 < cap ->
  contiguous 0 es -> Forall (fun e => 0 < en_term e) es -> Forall ondisk_entry es ->
  run_entries cfg (init_state cap s0) es = Ok (st_f, evs_f) ->
  (0 < k <= length es)%nat -> (pD <= length es)%nat ->
  exists st_k evs_k st_D evs_D,
    run_entries cfg (init_state cap s0) (firstn k es) = Ok (st_k, evs_k) /\
    run_entries cfg (init_state cap s0) (firstn pD es) = Ok (st_D, evs_D) /\
    forall ssi ts,
      Membership.m_is_empty (r_mem st_k) = false -> ssi <= r_index st_k ->
      r_od st_D = N.of_nat pD -> r_od st_k <= N.of_nat pD ->
      delivery es k ts (length es) ->
      exists img st_r st_f' evs',
        snapshot cfg SSRegular (with_ss_index (sync st_k) ssi) =
          Ok (Snap img (with_ss_index (sync st_k) (r_index st_k))) /\
        i_dummy img = true /\ i_data img = None /\
        recover cfg true (open_ondisk (init_state cap (r_sm st_D)) (N.of_nat pD)) img = Ok (Recovered st_r) /\
        run_tasks cfg st_r ts = Ok (st_f', evs') /\ obs st_f' = obs st_f /\ r_od st_f' = r_od st_f.
Proof.
  intros cfg cap s0 es k pD st_f evs_f OD CAP C F OE RUN [K1 K2] PD.
  destruct (run_entries_at cfg es k _ _ _ RUN) as (st_k & evs_k & ? & Rk & Rk2 & _).
  apply (run_entries_at cfg es pD) in RUN as (st_D & evs_D & ? & RD & RD2 & _).
  exists st_k, evs_k, st_D, evs_D. split; [exact Rk|]. split; [exact RD|].
  intros ssi ts ME SI HD HK D.
  destruct (prefix_state _ _ _ _ _ _ _ Rk K2) as (IXk & _ & _ & TABk). specialize (TABk CAP).
  destruct (restarted_follows cfg cap s0 es k pD _ _ _ _ _ _ _ OD OE K2 PD Rk RD Rk2 RD2 HD HK)
    as (st_f'' & evs'' & RF & CF).
  apply core_eq_obs in CF as [O1 O2].
  set (st_r := restarted cap st_D st_k (N.of_nat pD)) in *.
  set (img := image_of cfg (meta_of SSRegular (with_ss_index (sync st_k) ssi))).
  assert (IM : img = mkImg (r_index st_k) (r_term st_k) (r_mem st_k) (r_od st_k)
                       (Session.t_cap (r_tab st_k), rev (Session.t_list (r_tab st_k))) None true false false false).
  { unfold img, RsmApply.image_of. cbn [meta_of mt_kind]. now rewrite OD. }
  exists img, st_r, (sync st_f''), evs''.
  split; [|split; [|split; [|split; [|split]]]].
  - unfold img. rewrite snapshot_ok; [reflexivity|exact TABk|exact ME|exact SI|left; exact OD|discriminate].
  - now rewrite IM.
  - now rewrite IM.
  - rewrite IM. unfold RsmApply.recover, open_ondisk.
    cbn [i_index i_witness i_dummy i_shrunk i_od i_imported orb init_state with_od with_od_init
         r_last_index r_od_init r_od].
    destruct (r_index st_k <=? 0) eqn:A; [lia|]. rewrite OD. cbn [andb negb orb].
    destruct (N.of_nat pD <? r_od st_k) eqn:B; [lia|]. reflexivity.
  - rewrite (run_tasks_rest cfg es k ts st_r C F K2 D); [|split; reflexivity|exact IXk].
    unfold run_sync. now rewrite RF.
  - split; symmetry; assumption.
Qed.

Hypothesis sm_roundtrip : forall s, sm_recover (sm_save s) = Some s.

Lemma recover_full : forall cfg init k (st_k st0 : state),
  c_ondisk cfg = false -> k <> SSStreaming -> tab_ok st_k ->
  r_last_index st0 < r_index st_k ->
  recover cfg init st0 (image_of cfg (meta_of k st_k)) =
  Ok (Recovered (mkSt (r_sm st_k) (r_tab st_k) (r_mem st_k) (r_index st_k) (r_term st_k)
                      (r_index st_k) (r_term st_k) (r_od_init st0) (r_od st0) (r_ss_index st0))).
Proof.
  intros cfg init k st_k st0 OD K [[[ND LE] _] CAP] LT.
  rewrite image_of_full by assumption. unfold RsmApply.recover.
  cbn [i_index i_witness i_dummy i_shrunk i_od i_imported orb].
  destruct (r_index st_k <=? r_last_index st0) eqn:A; [lia|].
  rewrite OD. cbn [andb negb orb]. rewrite andb_false_r. cbn [negb].
  unfold load. cbn [i_sessions i_data].
  cbn [Session.st_tab] in ND, LE.
  rewrite (Proofs.Session.load_rev (r_tab st_k) ND LE CAP), sm_roundtrip. reflexivity.
Qed.

(* the cut theorem of Props/C08 for ANY replica state [st_k] standing at
   position [k] of the log with a sound session table, however it got there
   (a fresh start, or earlier restarts from snapshots) *)
Lemma cut_restores : forall cfg es k (st_k st_f : state) evs_r kind ssi,
  c_ondisk cfg = false -> contiguous 0 es -> Forall (fun e => 0 < en_term e) es -> (k <= length es)%nat ->
  tab_ok st_k -> r_index st_k = N.of_nat k -> r_od_init st_k = 0 -> r_od st_k = 0 ->
  run_entries cfg st_k (skipn k es) = Ok (st_f, evs_r) ->
  kind <> SSStreaming -> Membership.m_is_empty (r_mem st_k) = false ->
  ssi <= r_index st_k -> (kind = SSExported \/ ssi <> r_index st_k) ->
  exists img,
    snapshot cfg kind (with_ss_index (sync st_k) ssi) = Ok (Snap img (with_ss_index (sync st_k) (r_index st_k))) /\
    i_index img = N.of_nat k /\
    forall (init : bool) (st0 : state) ts,
      r_last_index st0 < N.of_nat k -> r_od_init st0 = 0 -> r_od st0 = 0 ->
      delivery es k ts (length es) ->
      exists st_r st_f',
        recover cfg init st0 img = Ok (Recovered st_r) /\ obs st_r = obs st_k /\
        run_tasks cfg st_r ts = Ok (st_f', evs_r) /\ obs st_f' = obs st_f.
Proof.
  intros cfg es k st_k st_f evs_r kind ssi OD C F K2 TAB IX ODI ODX R2 KS ME SI NO.
  set (cutter := with_ss_index (sync st_k) ssi).
  exists (image_of cfg (meta_of kind cutter)). split; [|split].
  - rewrite snapshot_ok; [reflexivity|exact TAB|exact ME|exact SI| |exact KS].
    destruct NO as [NO|NO]; [right; now left|]. do 3 right. intros X. apply NO. now symmetry.
  - now rewrite image_of_full.
  - intros init st0 ts LT Z1 Z2 D.
    rewrite (recover_full cfg init kind cutter st0 OD KS TAB) by (cbn; lia).
    assert (SR : forall s : state, r_od_init s = 0 -> r_od s = 0 ->
              mkSt (r_sm s) (r_tab s) (r_mem s) (r_index s) (r_term s) (r_index s) (r_term s)
                   (r_od_init st0) (r_od st0) (r_ss_index st0) = with_ss_index (sync s) (r_ss_index st0)).
    { intros [] A B. cbn in A, B. now rewrite Z1, Z2, A, B. }
    do 2 eexists. split; [reflexivity|].
    cbn [cutter with_ss_index sync with_last r_sm r_tab r_mem r_index r_term].
    rewrite (SR st_k ODI ODX).
    split; [reflexivity|]. split.
    + rewrite (run_tasks_rest cfg es k ts _ C F K2 D); [|split; reflexivity|exact IX].
      unfold run_sync. rewrite (run_entries_frame cfg (fun s => with_ss_index s (r_ss_index st0))) by (intros; repeat split).
      unfold sync at 1. now rewrite run_entries_with_last, R2.
    + reflexivity.
Qed.

End RsmProofs.

(* node.go: which indexes are handed to the log compaction (Model/RsmApply.v PART 2) *)

Lemma get_compaction_index_spec_proved : forall oh q index v,
  get_compaction_index oh q index = Some v ->
  0 < v /\ v <= index /\
  ((q_override q = true /\ 0 < q_cindex q /\ v = q_cindex q /\ v < index) \/
   (q_override q = true /\ q_cindex q = 0 /\ v = index - q_overhead q) \/
   (q_override q = false /\ v = index - oh)).
Proof.
  intros oh q index v H. unfold get_compaction_index in H.
  destruct (q_override q) eqn:Eo.
  - destruct (0 <? q_cindex q) eqn:Ec.
    + destruct (q_cindex q <? index) eqn:Ei; inversion H; subst. lia.
    + destruct (q_overhead q <? index) eqn:Ei; inversion H; subst. lia.
  - destruct (oh <? index) eqn:Ei; inversion H; subst. lia.
Qed.

Lemma compaction_index_wrapping_agrees_proved : forall oh q index,
  q_cindex q < 2 ^ 64 - 1 ->
  get_compaction_index_wrapping oh q index = get_compaction_index oh q index.
Proof.
  intros oh q index H. unfold get_compaction_index_wrapping, get_compaction_index.
  destruct (q_override q); [|reflexivity].
  destruct (0 <? q_cindex q); [|reflexivity].
  rewrite N.mod_small by lia.
  destruct (q_cindex q + 1 <=? index) eqn:A, (q_cindex q <? index) eqn:B; try reflexivity; lia.
Qed.

Definition below_recorded (recorded : list N) (v : N) : Prop :=
  0 < v /\ exists r, In r recorded /\ v <= r.

(* what node.go's bookkeeping maintains: the LogReader's snapshot is a recorded
   one, the pending compaction target lies at or below a recorded snapshot, and
   so did every value handed to the compaction, for the records of its moment *)
Definition ninv (st : nstate) : Prop :=
  (n_lr_snapshot st = 0 \/ In (n_lr_snapshot st) (n_recorded st)) /\
  (n_compact_to st = 0 \/ below_recorded (n_recorded st) (n_compact_to st)) /\
  Forall (fun p => below_recorded (snd p) (fst p) /\ incl (snd p) (n_recorded st)) (n_removed st).

Lemma list_max_nil_or_in : forall l, list_max l = 0 \/ In (list_max l) l.
Proof.
  induction l as [|x r IH]; [now left|]. right. cbn [list_max].
  destruct (N.max_spec x (list_max r)) as [[L E]|[_ E]]; rewrite E; [right|now left].
  destruct IH as [Z|I]; [lia|exact I].
Qed.

Lemma compact_log_inv : forall oh q index st,
  ninv st -> In index (n_recorded st) -> ninv (compact_log oh q index st).
Proof.
  intros oh q index st (A & B & C) Hin. unfold compact_log.
  destruct (get_compaction_index oh q index) as [v|] eqn:E; [|repeat split; auto].
  apply get_compaction_index_spec_proved in E. destruct E as (P & L & _).
  repeat split; cbn [n_lr_snapshot n_recorded n_compact_to n_removed]; auto.
  right. split; auto. exists index. auto.
Qed.

Lemma compact_log_recorded : forall oh q index st,
  n_recorded (compact_log oh q index st) = n_recorded st.
Proof. intros. unfold compact_log. now destruct (get_compaction_index oh q index). Qed.

Lemma ninv_record : forall st x, ninv st ->
  ninv (mkN (x :: n_recorded st) (n_lr_snapshot st) (n_ss_index st) (n_compact_to st) (n_removed st)).
Proof.
  intros st x (A & B & C). repeat split; cbn [n_lr_snapshot n_recorded n_compact_to n_removed].
  - destruct A; [left|right; right]; auto.
  - destruct B as [B|(P & r & Hr & L)]; [left; auto|right]. split; [exact P|]. exists r. split; [now right|exact L].
  - eapply Forall_impl; [|exact C]. intros p [X Y]. split; [exact X|]. now apply incl_tl.
Qed.

(* the LogReader's snapshot moved to a recorded one; n.ss.snapshotIndex is not
   part of the invariant *)
Lemma ninv_lr : forall st x ss, ninv st -> x = 0 \/ In x (n_recorded st) ->
  ninv (mkN (n_recorded st) x ss (n_compact_to st) (n_removed st)).
Proof. intros st x ss (A & B & C) H. repeat split; auto. Qed.

Lemma nstep_inv : forall oh st op, ninv st -> ninv (nstep oh st op).
Proof.
  intros oh st op I. destruct op as [q applied o cok | index | ok init | | ]; cbn [nstep].
  - destruct (negb (q_exported q) && (applied <=? n_ss_index st)); [exact I|].
    destruct o as [index|]; [|exact I]. destruct cok; cbn [negb]; [|exact I].
    destruct (q_exported q); [exact I|]. apply (ninv_record st index) in I.
    cbn [n_lr_snapshot n_recorded n_ss_index n_compact_to n_removed].
    destruct (index <=? n_lr_snapshot st); [exact I|].
    apply (ninv_lr _ index (n_ss_index st)) in I; [|right; left; reflexivity].
    exact (compact_log_inv oh q index _ I (or_introl eq_refl)).
  - destruct (index =? 0); [exact I|].
    apply (ninv_lr (mkN (index :: n_recorded st) (n_lr_snapshot st) (n_ss_index st) _ _)); [now apply ninv_record|].
    destruct (index <=? n_lr_snapshot st); [|right; left; reflexivity].
    destruct I as ([A|A] & _); auto. right. right. exact A.
  - set (done := ok && negb (n_lr_snapshot st =? 0)).
    assert (I1 : ninv (if done then compact_log oh default_req (n_lr_snapshot st) st else st)).
    { destruct done eqn:D; [|exact I]. apply compact_log_inv; auto.
      destruct I as ([A|A] & _); auto.
      subst done. apply andb_prop in D. destruct D as [_ D]. rewrite A in D. discriminate. }
    destruct init; exact I1.
  - destruct I as (A & B & C). repeat split; auto.
    cbn [n_lr_snapshot n_recorded]. apply list_max_nil_or_in.
  - destruct (0 <? n_compact_to st) eqn:P; [|exact I].
    destruct I as (A & B & C). repeat split; auto.
    constructor; auto. cbn [fst snd]. split; [|apply incl_refl].
    destruct B as [B|B]; [lia|exact B].
Qed.

Lemma ninit_inv : ninv ninit.
Proof. repeat split; cbn; auto. Qed.

Lemma nrun_inv : forall oh ops st, ninv st -> ninv (nrun oh st ops).
Proof.
  intros oh ops. unfold nrun. induction ops as [|op r IH]; intros st I; cbn [fold_left]; auto.
  apply IH, nstep_inv, I.
Qed.

Lemma recorded_grow_only_proved : forall oh st op, incl (n_recorded st) (n_recorded (nstep oh st op)).
Proof.
  intros oh st op. destruct op as [q applied o cok | index | ok init | | ]; cbn [nstep].
  - destruct (negb (q_exported q) && (applied <=? n_ss_index st)); [apply incl_refl|].
    destruct o as [ix|]; [|apply incl_refl]. destruct cok; cbn [negb]; [|apply incl_refl].
    destruct (q_exported q); [apply incl_refl|]. cbn [n_lr_snapshot n_recorded].
    destruct (ix <=? n_lr_snapshot st); cbn [n_recorded]; [apply incl_tl, incl_refl|].
    unfold compact_log. destruct (get_compaction_index oh q ix); cbn; apply incl_tl, incl_refl.
  - destruct (index =? 0); [apply incl_refl|]. cbn. apply incl_tl, incl_refl.
  - destruct (ok && negb (n_lr_snapshot st =? 0)).
    + destruct init; cbn [n_recorded]; rewrite compact_log_recorded; apply incl_refl.
    + destruct init; cbn [n_recorded]; apply incl_refl.
  - cbn. apply incl_refl.
  - destruct (0 <? n_compact_to st); cbn; apply incl_refl.
Qed.
