(* Local (single-replica, single-step) lemmas about the L1 model: how term, vote and role
   evolve through every function of raft.go. *)
From DB Require Import Model.RaftCore Proofs.RaftTable.
Open Scope N_scope.

(* term never decreases; within a term a vote once cast is kept *)
Definition tv_le (r r' : raft) : Prop :=
  r_term r <= r_term r' /\ (r_term r' = r_term r -> r_vote r <> 0 -> r_vote r' = r_vote r).

(* Most of raft.go leaves term, vote and role alone: each such function gets one equation
   [tvr (f r ..) = tvr r], used as a rewrite rule (databases tv and, for auto, tvh). A function that
   may change the role only (a step down or up within the term) gets [tv (f r ..) = tv r]. *)
Definition tvr (r : raft) : N * N * role := (r_term r, r_vote r, r_role r).
Notation tv r := (fst (tvr r)).

Lemma tv_pair r t v : tv r = (t, v) -> r_term r = t /\ r_vote r = v.
Proof. intros E. split; [exact (f_equal fst E)|exact (f_equal snd E)]. Qed.
Lemma role_tvr r : r_role r = snd (tvr r). Proof. reflexivity. Qed.

(* field updates under which later proofs rewrite (on a variable they hold by reflexivity) *)
Lemma nonvotings_upd_tvr (X : raft) l : tvr (X <| r_nonvotings := l |>) = tvr X. Proof. reflexivity. Qed.
Lemma witnesses_upd_tvr (X : raft) l : tvr (X <| r_witnesses := l |>) = tvr X. Proof. reflexivity. Qed.
Lemma is_transfer_target_upd_tvr (X : raft) v : tvr (X <| r_is_transfer_target := v |>) = tvr X.
Proof. reflexivity. Qed.
Lemma prev_state_upd_tvr (X : raft) v : tvr (X <| r_prev_state := v |>) = tvr X. Proof. reflexivity. Qed.
Lemma applied_upd_tvr (X : raft) v : tvr (X <| r_applied := v |>) = tvr X. Proof. reflexivity. Qed.
Lemma vote_upd_tvr (X : raft) v : tvr (X <| r_vote := v |>) = (fst (tv X), v, snd (tvr X)).
Proof. reflexivity. Qed.

(* tv_le on the (term, vote) pairs, so that the equations rewrite under it:
   [tv_le r r'] is [tle (tv r) (tv r')] *)
Definition tle (a b : N * N) : Prop := fst a <= fst b /\ (fst b = fst a -> snd a <> 0 -> snd b = snd a).
Lemma tv_le_tle r r' : tle (tv r) (tv r') -> tv_le r r'.
Proof. exact (fun H => H). Qed.
Lemma tle_refl a : tle a a.
Proof. split; [apply N.le_refl|reflexivity]. Qed.
Lemma tle_trans a b c : tle a b -> tle b c -> tle a c.
Proof.
  intros [H1 H2] [H3 H4]. split; [lia|]. intros He Hv.
  assert (E1 : fst b = fst a) by lia. assert (E2 : fst c = fst b) by lia.
  rewrite H4, H2; auto. rewrite H2; auto.
Qed.
Lemma tle_tv r r' : tv r' = tv r -> tle (tv r) (tv r').
Proof. intros ->. apply tle_refl. Qed.
Lemma tle_tvr r r' : tvr r' = tvr r -> tle (tv r) (tv r').
Proof. intros ->. apply tle_refl. Qed.
Lemma tle_raise a t v : fst a < t -> tle a (t, v).
Proof. intros H. split; cbn [fst snd]; lia. Qed.

Lemma fold_left_keeps {A B} (p : raft -> B) (f : raft -> A -> raft) l :
  (forall r x, p (f r x) = p r) -> forall r, p (fold_left f l r) = p r.
Proof. intros Hf. induction l as [|x l IH]; intros r; cbn [fold_left]; [reflexivity|]. rewrite IH. apply Hf. Qed.
Lemma fold_left_tle {A} (f : raft -> A -> raft) l :
  (forall r x, tle (tv r) (tv (f r x))) -> forall r, tle (tv r) (tv (fold_left f l r)).
Proof.
  intros Hf. induction l as [|x l IH]; intros r; cbn [fold_left]; [apply tle_refl|].
  eapply tle_trans; [apply Hf|apply IH].
Qed.

Lemma send_tvr r m : tvr (send r m) = tvr r.
Proof. unfold send. destruct (finalize_term _ _); reflexivity. Qed.
Lemma set_peer_tvr r k id p : tvr (set_peer r k id p) = tvr r. Proof. destruct k; reflexivity. Qed.
Lemma set_leader_id_tvr r l : tvr (set_leader_id r l) = tvr r. Proof. reflexivity. Qed.
#[export] Hint Rewrite send_tvr set_peer_tvr : tv.

Lemma reset_tvr r t b : tvr (reset r t b) = if r_term r =? t then tvr r else (t, 0, r_role r).
Proof. unfold reset. destruct (r_term r =? t); destruct b; reflexivity. Qed.
Lemma reset_tle r t b : r_term r <= t -> tle (tv r) (tv (reset r t b)).
Proof.
  intros H. rewrite reset_tvr. destruct (N.eqb_spec (r_term r) t); [apply tle_refl|].
  apply tle_raise. unfold tvr. cbn [fst]. lia.
Qed.

Ltac tvr_eq := autorewrite with tv; reflexivity.

Lemma send_replicate_tvr r to : tvr (send_replicate r to) = tvr r.
Proof.
  unfold send_replicate. destruct (find_peer r to) as [[k rp]|]; [|reflexivity].
  destruct (rm_is_paused rp); [reflexivity|].
  destruct (log_entries_from _ _) as [[|e0 es]|].
  - apply send_tvr.
  - destruct (rm_progress _ _); tvr_eq.
  - destruct (negb (rm_active rp)); [reflexivity|]. destruct (is_empty_snapshot _); tvr_eq.
Qed.
#[export] Hint Rewrite send_replicate_tvr : tv.

Lemma broadcast_replicate_tvr r : tvr (broadcast_replicate r) = tvr r.
Proof.
  unfold broadcast_replicate. destruct (negb (is_leader r)); [reflexivity|].
  destruct (amem _ _); [reflexivity|].
  apply fold_left_keeps. intros r' x. destruct (x =? r_id r); tvr_eq.
Qed.
Lemma send_heartbeat_tvr r to c mt : tvr (send_heartbeat r to c mt) = tvr r.
Proof. apply send_tvr. Qed.
#[export] Hint Rewrite broadcast_replicate_tvr send_heartbeat_tvr : tv.

Lemma broadcast_heartbeat_hint_tvr r c : tvr (broadcast_heartbeat_hint r c) = tvr r.
Proof.
  unfold broadcast_heartbeat_hint. cbv zeta.
  destruct (_ && _); rewrite !(fold_left_keeps tvr); try reflexivity;
    intros r' x; try destruct (x =? r_id r); tvr_eq.
Qed.
#[export] Hint Rewrite broadcast_heartbeat_hint_tvr : tv.
Lemma broadcast_heartbeat_tvr r : tvr (broadcast_heartbeat r) = tvr r.
Proof.
  unfold broadcast_heartbeat. destruct (negb (is_leader r)); [reflexivity|].
  destruct (rev (r_reads r)); [tvr_eq|].
  rewrite (fold_left_keeps tvr); [tvr_eq|intros; tvr_eq].
Qed.

Lemma try_commit_tvr r : tvr (fst (try_commit r)) = tvr r.
Proof.
  unfold try_commit. destruct (negb (is_leader r)); [reflexivity|].
  destruct (log_try_commit _ _ _); reflexivity.
Qed.
#[export] Hint Rewrite try_commit_tvr : tv.

Lemma append_entries_tvr r ents : tvr (append_entries r ents) = tvr r.
Proof.
  unfold append_entries. cbv zeta. destruct (log_append _ _); [|reflexivity].
  destruct (alookup _ _); [|reflexivity].
  destruct (is_single_node_quorum _); tvr_eq.
Qed.

Lemma reset_leader_tle a r t b l : tle a (tv r) -> r_term r <= t -> tle a (tv (set_leader_id (reset r t b) l)).
Proof. intros Ha H. rewrite set_leader_id_tvr. exact (tle_trans _ _ _ Ha (reset_tle r t b H)). Qed.
Lemma reset_leader_same_tv r k b l : tv (set_leader_id (reset (r <| r_role := k |>) (r_term r) b) l) = tv r.
Proof.
  rewrite set_leader_id_tvr, reset_tvr. change (r_term (r <| r_role := k |>)) with (r_term r).
  now rewrite N.eqb_refl.
Qed.

Lemma to_follower_state_tle r t l rt : r_term r <= t -> tle (tv r) (tv (to_follower_state r t l rt)).
Proof.
  intros H. unfold to_follower_state. destruct (is_witness r); [apply tle_refl|].
  apply reset_leader_tle; [apply tle_refl|exact H].
Qed.
Lemma become_nonvoting_tle r t l : r_term r <= t -> tle (tv r) (tv (become_nonvoting r t l)).
Proof.
  intros H. unfold become_nonvoting. destruct (negb _); [apply tle_refl|].
  apply reset_leader_tle; [apply tle_refl|exact H].
Qed.
Lemma become_witness_tle r t l : r_term r <= t -> tle (tv r) (tv (become_witness r t l)).
Proof.
  intros H. unfold become_witness. destruct (negb _); [apply tle_refl|].
  apply reset_leader_tle; [apply tle_refl|exact H].
Qed.

Lemma become_follower_same_tv r l : tv (become_follower r (r_term r) l) = tv r.
Proof.
  unfold become_follower, to_follower_state. destruct (is_witness r); [reflexivity|].
  apply reset_leader_same_tv.
Qed.
Lemma become_prevote_candidate_tv r : tv (become_prevote_candidate r) = tv r.
Proof.
  unfold become_prevote_candidate. destruct (_ || _); [reflexivity|].
  apply reset_leader_same_tv.
Qed.

Lemma become_candidate_tvr r :
  is_leader r || is_nonvoting r || is_witness r = false ->
  tvr (become_candidate r) = (r_term r + 1, r_id r, Candidate).
Proof.
  intros H. unfold become_candidate. rewrite H, vote_upd_tvr, set_leader_id_tvr, reset_tvr.
  destruct (N.eqb_spec (r_term (r <| r_role := Candidate |>)) (r_term r + 1)) as [E|_]; [|reflexivity].
  cbn in E. lia.
Qed.
Lemma become_candidate_tle r : tle (tv r) (tv (become_candidate r)).
Proof.
  destruct (is_leader r || is_nonvoting r || is_witness r) eqn:E.
  - unfold become_candidate. rewrite E. apply tle_refl.
  - rewrite (become_candidate_tvr r E). apply tle_raise. unfold tvr. cbn [fst]. lia.
Qed.

Lemma become_leader_pending_stage_tvr (r1 : raft) :
  tvr (if 1 <? pending_cc_count r1 then panic r1
       else if pending_cc_count r1 =? 1 then r1 <| r_pending_cc := true |> else r1) = tvr r1.
Proof. destruct (1 <? _); [|destruct (_ =? 1)]; reflexivity. Qed.
Lemma become_leader_tv r : tv (become_leader r) = tv r.
Proof.
  unfold become_leader. destruct (_ && _); [reflexivity|]. cbv zeta.
  now rewrite append_entries_tvr, become_leader_pending_stage_tvr, reset_leader_same_tv.
Qed.

Lemma handle_vote_resp_tvr r from rej : tvr (fst (handle_vote_resp r from rej)) = tvr r.
Proof. reflexivity. Qed.

Lemma campaign_tle r : tle (tv r) (tv (campaign r)).
Proof.
  unfold campaign. cbv zeta. destruct (is_single_node_quorum _).
  - rewrite become_leader_tv, handle_vote_resp_tvr. apply become_candidate_tle.
  - rewrite (fold_left_keeps tvr); [apply become_candidate_tle|].
    intros r' k. destruct (k =? r_id r); tvr_eq.
Qed.
Lemma prevote_campaign_tv r : tv_le r (prevote_campaign r).
Proof.
  apply tv_le_tle. unfold prevote_campaign. cbv zeta. destruct (is_single_node_quorum _).
  - eapply tle_trans; [|apply campaign_tle]. rewrite handle_vote_resp_tvr, become_prevote_candidate_tv. apply tle_refl.
  - rewrite (fold_left_keeps tvr); [rewrite handle_vote_resp_tvr, become_prevote_candidate_tv; apply tle_refl|].
    intros r' k. destruct (k =? r_id r); tvr_eq.
Qed.

Lemma add_node_tv r id : tv (add_node r id) = tv r.
Proof.
  unfold add_node. cbv zeta. destruct (_ && _); [reflexivity|].
  destruct (amem id (r_remotes _)); [reflexivity|].
  destruct (alookup id (r_nonvotings _)).
  - destruct (id =? _); [now rewrite become_follower_same_tv|reflexivity].
  - destruct (amem id (r_witnesses _)); reflexivity.
Qed.
Lemma add_nonvoting_tvr r id : tvr (add_nonvoting r id) = tvr r.
Proof. unfold add_nonvoting. cbv zeta. destruct (_ && _); [|destruct (amem _ _)]; reflexivity. Qed.
Lemma add_witness_tvr r id : tvr (add_witness r id) = tvr r.
Proof. unfold add_witness. cbv zeta. destruct (_ && _); [|destruct (amem _ _)]; reflexivity. Qed.

Lemma remove_node_commit_stage_tvr (r2 : raft) :
  tvr (let '(r3, ok) := try_commit r2 in if ok then broadcast_replicate r3 else r3) = tvr r2.
Proof.
  rewrite <- (try_commit_tvr r2). destruct (try_commit r2) as [r3 []]; [apply broadcast_replicate_tvr|reflexivity].
Qed.

(* removeNode: the three stages on variables, so that no step looks through the previous one *)
Lemma remove_node_tv r id : tv (remove_node r id) = tv r.
Proof.
  unfold remove_node. cbv zeta.
  set (r0 := r <| r_remotes := _ |> <| r_nonvotings := _ |> <| r_witnesses := _ |> <| r_pending_cc := false |>).
  change (tv r) with (tv r0). clearbody r0.
  set (r1 := if (r_id r0 =? id) && is_leader r0 then _ else r0).
  assert (H1 : tv r1 = tv r0) by (subst r1; destruct (_ && _); [apply become_follower_same_tv|reflexivity]).
  rewrite <- H1. clearbody r1.
  set (r2 := if leader_transfering r1 && _ then _ else r1).
  assert (H2 : tvr r2 = tvr r1) by (subst r2; destruct (_ && _); reflexivity).
  rewrite <- H2. clearbody r2.
  destruct (_ && _); [now rewrite remove_node_commit_stage_tvr|reflexivity].
Qed.

Lemma restore_tvr r s : tvr (fst (restore r s)) = tvr r.
Proof.
  unfold restore. cbv zeta. destruct (_ <=? _); [reflexivity|].
  destruct (_ && _); [reflexivity|]. destruct (_ && _); [reflexivity|].
  destruct (match_term _ _ _); [destruct (log_commit_to _ _)|]; reflexivity.
Qed.

Lemma rr_step_addr_tv r id : tv (rr_step_addr r id) = tv r.
Proof.
  unfold rr_step_addr. cbv zeta.
  set (r1 := if (id =? r_id r) && is_nonvoting r then _ else r).
  assert (H1 : tv r1 = tv r) by (subst r1; destruct (_ && _); [apply become_follower_same_tv|reflexivity]).
  rewrite <- H1. clearbody r1. destruct (amem _ _); reflexivity.
Qed.
Lemma rr_step_down_tv r : tv (rr_step_down r) = tv r.
Proof. unfold rr_step_down. destruct (_ && _); [apply become_follower_same_tv|reflexivity]. Qed.
Lemma restore_remotes_tv r s : tv (restore_remotes r s) = tv r.
Proof.
  unfold restore_remotes. cbv zeta.
  rewrite (fold_left_keeps tvr), witnesses_upd_tvr, (fold_left_keeps tvr), nonvotings_upd_tvr, rr_step_down_tv
    by reflexivity.
  now rewrite (fold_left_keeps (fun r => tv r)) by apply rr_step_addr_tv.
Qed.

Lemma ri_add_request_tvr r i c f : tvr (ri_add_request r i c f) = tvr r.
Proof.
  unfold ri_add_request. destruct (existsb _ _); [reflexivity|].
  destruct (r_reads r); [|destruct (_ <? _)]; reflexivity.
Qed.
Lemma ri_confirm_tvr r c f q : tvr (fst (ri_confirm r c f q)) = tvr r.
Proof.
  unfold ri_confirm. destruct (split_at_ctx _ _ _) as [[[before rs] after]|]; [|reflexivity].
  cbv zeta. destruct (_ <? q); [|destruct (existsb _ _)]; reflexivity.
Qed.
#[export] Hint Rewrite ri_add_request_tvr : tv.

Lemma handle_log_query_tvr r m : tvr (handle_log_query r m) = tvr r.
Proof.
  unfold handle_log_query. destruct (r_log_query r); [reflexivity|]. cbv zeta.
  destruct (_ || _); [reflexivity|]. destruct (_ =? _); [reflexivity|].
  destruct (_ <? _); [reflexivity|]. destruct (_ && _); reflexivity.
Qed.
Lemma handle_heartbeat_message_tvr r m : tvr (handle_heartbeat_message r m) = tvr r.
Proof. unfold handle_heartbeat_message. destruct (log_commit_to _ _); tvr_eq. Qed.
Lemma handle_install_snapshot_message_tvr r m : tvr (handle_install_snapshot_message r m) = tvr r.
Proof.
  unfold handle_install_snapshot_message. rewrite <- (restore_tvr r (m_snapshot m)).
  destruct (restore r (m_snapshot m)) as [r1 ok]. apply send_tvr.
Qed.
Lemma handle_replicate_message_tvr r m : tvr (handle_replicate_message r m) = tvr r.
Proof.
  unfold handle_replicate_message. cbv zeta. destruct (_ <? _); [apply send_tvr|].
  destruct (match_term _ _ _); [|apply send_tvr].
  destruct (log_try_append _ _ _); [|reflexivity]. destruct (log_commit_to _ _); tvr_eq.
Qed.

Lemma handle_node_election_tle r m : tle (tv r) (tv (handle_node_election r m)).
Proof.
  unfold handle_node_election. destruct (is_leader r); [apply tle_refl|].
  destruct (has_config_change_to_apply r); [apply tle_refl|].
  destruct (_ && _); [apply prevote_campaign_tv|apply campaign_tle].
Qed.
Lemma handle_node_request_prevote_tvr r m : tvr (handle_node_request_prevote r m) = tvr r.
Proof.
  unfold handle_node_request_prevote. cbv zeta. destruct (_ <? _); [reflexivity|].
  destruct (_ && _); apply send_tvr.
Qed.

(* the vote grant: allowed only when no vote was cast in this term, or for the same candidate *)
Lemma handle_node_request_vote_tle r m :
  m_term m <= r_term r -> tle (tv r) (tv (handle_node_request_vote r m)).
Proof.
  intros Hm. unfold handle_node_request_vote. cbv zeta.
  destruct (can_grant_vote r m && up_to_date _ _ _) eqn:E; rewrite send_tvr; [|apply tle_refl].
  apply andb_prop in E. destruct E as [Eg _]. unfold can_grant_vote, gen_canGrantVote in Eg.
  split; [apply N.le_refl|]. intros _ Hv. cbn.
  destruct (N.eqb_spec (r_vote r) 0); [contradiction|].
  destruct (N.eqb_spec (r_vote r) (m_from m)); [congruence|].
  destruct (N.ltb_spec (r_term r) (m_term m)); [lia|discriminate].
Qed.

Lemma handle_node_config_change_tv r m : tv (handle_node_config_change r m) = tv r.
Proof.
  unfold handle_node_config_change. destruct (m_reject m); [reflexivity|]. cbv zeta.
  destruct (_ =? cc_AddNode); [apply add_node_tv|]. destruct (_ =? cc_RemoveNode); [apply remove_node_tv|].
  destruct (_ =? cc_AddNonVoting); [now rewrite add_nonvoting_tvr|].
  destruct (_ =? cc_AddWitness); [now rewrite add_witness_tvr|reflexivity].
Qed.

Lemma handle_leader_check_quorum_tv r : tv (handle_leader_check_quorum r) = tv r.
Proof.
  unfold handle_leader_check_quorum. destruct (negb _); [reflexivity|]. cbv zeta.
  destruct (_ <? _); [now rewrite become_follower_same_tv|reflexivity].
Qed.

Lemma propose_scan_tvr : forall ents r acc, tvr (fst (propose_scan r ents acc)) = tvr r.
Proof.
  induction ents as [|e rest IH]; intros r acc; cbn [propose_scan]; [reflexivity|].
  destruct (_ =? _); [destruct (r_pending_cc r)|]; now rewrite IH.
Qed.
Lemma handle_leader_propose_tvr r m : tvr (handle_leader_propose r m) = tvr r.
Proof.
  unfold handle_leader_propose. destruct (negb _); [reflexivity|].
  destruct (leader_transfering r); [reflexivity|].
  rewrite <- (propose_scan_tvr (m_entries m) r []). destruct (propose_scan r (m_entries m) []) as [r1 ents].
  now rewrite broadcast_replicate_tvr, append_entries_tvr.
Qed.

Lemma handle_leader_read_index_tvr r m : tvr (handle_leader_read_index r m) = tvr r.
Proof.
  unfold handle_leader_read_index. destruct (negb (is_leader r)); [reflexivity|]. cbv zeta.
  destruct (amem _ _); [reflexivity|]. destruct (negb (is_single_node_quorum r)).
  - destruct (_ =? 0); [reflexivity|]. destruct (negb _); tvr_eq.
  - destruct (_ && _); tvr_eq.
Qed.

Lemma send_timeout_now_tvr r to : tvr (send_timeout_now r to) = tvr r.
Proof. apply send_tvr. Qed.
#[export] Hint Rewrite send_timeout_now_tvr : tv.

Lemma handle_leader_replicate_resp_tvr r m k rp : tvr (handle_leader_replicate_resp r m k rp) = tvr r.
Proof.
  unfold handle_leader_replicate_resp. destruct (negb (is_leader r)); [reflexivity|]. cbv zeta.
  destruct (negb (m_reject m)).
  - destruct (rm_try_update _ _) as [rp1 []]; [|tvr_eq].
    pose proof (try_commit_tvr (set_peer r k (m_from m) (rm_responded_to rp1))) as H2.
    rewrite set_peer_tvr in H2. destruct (try_commit _) as [r2 ok]. cbn [fst] in H2. rewrite <- H2.
    destruct (_ && _ && _); rewrite ?send_timeout_now_tvr; destruct ok; try destruct (rm_is_paused _); tvr_eq.
  - destruct (rm_decrease_to _ _ _) as [rp1 []]; tvr_eq.
Qed.

Lemma handle_read_index_leader_confirmation_tvr r m : tvr (handle_read_index_leader_confirmation r m) = tvr r.
Proof.
  unfold handle_read_index_leader_confirmation. cbv zeta.
  rewrite <- (ri_confirm_tvr r (m_hint m, m_hinthigh m) (m_from m) (quorum r)).
  destruct (ri_confirm _ _ _ _) as [r1 ris]. apply fold_left_keeps.
  intros r' s. destruct (_ || _); tvr_eq.
Qed.
#[export] Hint Rewrite handle_read_index_leader_confirmation_tvr : tv.

Lemma handle_leader_heartbeat_resp_tvr r m k rp : tvr (handle_leader_heartbeat_resp r m k rp) = tvr r.
Proof.
  unfold handle_leader_heartbeat_resp. destruct (negb (is_leader r)); [reflexivity|]. cbv zeta.
  destruct (negb (m_hint m =? 0)); destruct (_ <? _); tvr_eq.
Qed.

Lemma handle_leader_transfer_tvr r m : tvr (handle_leader_transfer r m) = tvr r.
Proof.
  unfold handle_leader_transfer. destruct (negb (is_leader r)); [reflexivity|]. cbv zeta.
  destruct (_ =? 0); [reflexivity|]. destruct (leader_transfering r); [reflexivity|].
  destruct (_ =? _); [reflexivity|]. destruct (alookup _ _); [|reflexivity]. destruct (_ =? _); tvr_eq.
Qed.

Lemma handle_leader_snapshot_status_tvr r m k rp : tvr (handle_leader_snapshot_status r m k rp) = tvr r.
Proof.
  unfold handle_leader_snapshot_status. destruct (rm_state rp); try reflexivity.
  destruct (_ =? 0); destruct k; reflexivity.
Qed.
Lemma handle_leader_unreachable_tvr r m k rp : tvr (handle_leader_unreachable r m k rp) = tvr r.
Proof. apply set_peer_tvr. Qed.

Lemma handle_follower_propose_tvr r m : tvr (handle_follower_propose r m) = tvr r.
Proof. unfold handle_follower_propose. destruct (_ =? 0); tvr_eq. Qed.
Lemma handle_follower_read_index_tvr r m : tvr (handle_follower_read_index r m) = tvr r.
Proof. unfold handle_follower_read_index. destruct (_ =? 0); tvr_eq. Qed.
Lemma handle_follower_leader_transfer_tvr r m : tvr (handle_follower_leader_transfer r m) = tvr r.
Proof. unfold handle_follower_leader_transfer. destruct (_ =? 0); tvr_eq. Qed.
Lemma leader_is_available_tvr r m : tvr (leader_is_available r m) = tvr r.
Proof. reflexivity. Qed.
Lemma handle_follower_read_index_resp_tvr r m : tvr (handle_follower_read_index_resp r m) = tvr r.
Proof. reflexivity. Qed.
Lemma handle_candidate_read_index_tvr r m : tvr (handle_candidate_read_index r m) = tvr r.
Proof. reflexivity. Qed.

Lemma handle_candidate_request_vote_resp_tv r m : tv (handle_candidate_request_vote_resp r m) = tv r.
Proof.
  unfold handle_candidate_request_vote_resp. destruct (amem _ _); [reflexivity|].
  rewrite <- (handle_vote_resp_tvr r (m_from m) (m_reject m)).
  destruct (handle_vote_resp _ _ _) as [r1 count]. cbn [fst].
  destruct (_ =? _); [now rewrite broadcast_replicate_tvr, become_leader_tv|].
  destruct (_ =? _); [apply become_follower_same_tv|reflexivity].
Qed.
Lemma handle_prevote_candidate_resp_tle r m : tle (tv r) (tv (handle_prevote_candidate_resp r m)).
Proof.
  unfold handle_prevote_candidate_resp. destruct (amem _ _); [apply tle_refl|].
  rewrite <- (handle_vote_resp_tvr r (m_from m) (m_reject m)).
  destruct (handle_vote_resp _ _ _) as [r1 count]. cbn [fst].
  destruct (_ =? _); [apply campaign_tle|]. destruct (_ =? _); rewrite ?become_follower_same_tv; apply tle_refl.
Qed.

Create HintDb tvh.
#[export] Hint Resolve tle_refl tle_tv tle_tvr
  become_follower_same_tv leader_is_available_tvr handle_candidate_read_index_tvr
  handle_candidate_request_vote_resp_tv handle_prevote_candidate_resp_tle handle_node_election_tle
  handle_node_request_vote_tle handle_node_request_prevote_tvr handle_node_config_change_tv
  restore_remotes_tv handle_log_query_tvr handle_follower_propose_tvr handle_follower_read_index_tvr
  handle_follower_leader_transfer_tvr handle_follower_read_index_resp_tvr broadcast_heartbeat_tvr
  handle_leader_check_quorum_tv handle_leader_propose_tvr handle_leader_read_index_tvr
  handle_leader_replicate_resp_tvr handle_leader_heartbeat_resp_tvr handle_leader_snapshot_status_tvr
  handle_leader_unreachable_tvr handle_leader_transfer_tvr : tvh.
Lemma run_handler_tle h r m :
  (h = H_handleNodeRequestVote -> m_term m <= r_term r) -> tle (tv r) (tv (run_handler h r m)).
Proof.
  intros Hrv. unfold run_handler. cbv zeta.
  destruct h; try destruct (find_peer r (m_from m)) as [[k rp]|];
    rewrite ?handle_heartbeat_message_tvr, ?handle_replicate_message_tvr, ?handle_install_snapshot_message_tvr;
    auto with tvh.
Qed.

Lemma drop_request_vote_tvr r m : tvr (fst (drop_request_vote_from_high_term r m)) = tvr r.
Proof.
  unfold drop_request_vote_from_high_term.
  destruct (_ || _); [reflexivity|]. destruct (_ =? _); [reflexivity|].
  destruct (_ && _); [reflexivity|]. destruct (_ && _); reflexivity.
Qed.

Lemma on_message_term_not_matched_tle r m : tle (tv r) (tv (fst (on_message_term_not_matched r m))).
Proof.
  unfold on_message_term_not_matched. destruct (_ || _); [apply tle_refl|].
  rewrite <- (drop_request_vote_tvr r m).
  destruct (drop_request_vote_from_high_term r m) as [r0 []]; [apply tle_refl|]. cbn [fst].
  destruct (N.ltb_spec (r_term r0) (m_term m)) as [Hlt|Hge].
  - apply N.lt_le_incl in Hlt.
    destruct (gen_isPreVoteMessageWithExpectedHigherTerm _ _); [apply tle_refl|]. cbv zeta.
    destruct (is_nonvoting r0); [apply become_nonvoting_tle, Hlt|].
    destruct (is_witness r0); [apply become_witness_tle, Hlt|].
    destruct (_ =? _); apply to_follower_state_tle, Hlt.
  - destruct (_ || _); cbn [fst]; rewrite ?send_tvr; apply tle_refl.
Qed.

(* raft.Handle, tick and checkPendingSnapshotAck call each other; their bodies over the
   functions called, so that the facts about one level of the recursion are proved without it.
   tick is divided as in raft.go: leaderTick (check quorum, abort a transfer, heartbeat, then
   the delayed snapshot acks) and nonLeaderTick. They repeat the text of handle, tick and
   check_pending_snapshot_ack in Model/RaftCore.v; handle_S, tick_S, check_S below tie them to it. *)
Definition handle_body (tk : raft -> raft) (r : raft) (m : msg) : raft :=
  if r_panic r then r
  else if negb (r_prevote r) && is_prevote_message (m_type m) then panic r
  else
    let '(r1, ignore) := on_message_term_not_matched r m in
    if ignore || r_panic r1 then r1
    else if negb (is_prevote_message (m_type m)) && negb (m_term m =? 0) && negb (r_term r1 =? m_term m)
    then panic r1
    else
      let h := handler_of (role_num (r_role r1)) (m_type m) in
      match h with
      | H_handleLocalTick => if m_reject m then quiesced_tick r1 else tk r1
      | H_handleFollowerTimeoutNow =>
        (tk (r1 <| r_election_tick := r_rand_timeout r1 |> <| r_is_transfer_target := true |>))
          <| r_is_transfer_target := false |>
      | _ => run_handler h r1 m
      end.

Definition leader_tick (hd : raft -> msg -> raft) (ck : raft -> raft) (r0 : raft) : raft :=
  let r1 := r0 <| r_election_tick := r_election_tick r0 + 1 |> in
  let abort := gen_timeToAbortLeaderTransfer (r_election_tick r1) (r_election_timeout r1) (leader_transfering r1) in
  let r2 := if gen_timeForCheckQuorum (r_election_tick r1) (r_election_timeout r1) then
              let r1' := r1 <| r_election_tick := 0 |> in
              if r_check_quorum r1' then hd r1' ((msg0 mt_CheckQuorum) <| m_from := r_id r1' |>) else r1'
            else r1 in
  let r3 := if abort then r2 <| r_transfer_target := 0 |> else r2 in
  let r4 := r3 <| r_heartbeat_tick := r_heartbeat_tick r3 + 1 |> in
  let r5 := if gen_timeForHeartbeat (r_heartbeat_tick r4) (r_heartbeat_timeout r4) then
              hd (r4 <| r_heartbeat_tick := 0 |>) ((msg0 mt_LeaderHeartbeat) <| m_from := r_id r4 |>)
            else r4 in
  ck r5.
Definition non_leader_tick (hd : raft -> msg -> raft) (r0 : raft) : raft :=
  let r1 := r0 <| r_election_tick := r_election_tick r0 + 1 |> in
  if is_nonvoting r1 || is_witness r1 then r1
  else if negb (self_removed r1) && gen_timeForElection (r_election_tick r1) (r_rand_timeout r1) then
    hd (r1 <| r_election_tick := 0 |>) ((msg0 mt_Election) <| m_from := r_id r1 |>)
  else r1.
Definition tick_body (hd : raft -> msg -> raft) (ck : raft -> raft) (r : raft) : raft :=
  let r0 := r <| r_quiesce := false |> <| r_tick_count := r_tick_count r + 1 |> in
  if is_leader r0 then leader_tick hd ck r0 else non_leader_tick hd r0.

Definition ack_step (hd : raft -> msg -> raft) (acc : raft) (id : N) : raft :=
  match find_peer acc id with
  | Some (k', rp) =>
    match rm_state rp with
    | RSnapshot =>
      if 0 <? rm_ack_tick rp then
        let rp1 := rp <| rm_ack_tick := rm_ack_tick rp - 1 |> in
        if rm_ack_tick rp1 =? 0 then
          let acc1 := set_peer acc k' id rp1 in
          let acc2 := hd acc1 ((msg0 mt_SnapshotStatus) <| m_from := id |> <| m_reject := rm_ack_rej rp1 |>) in
          match find_peer acc2 id with
          | Some (k2, rp2) => set_peer acc2 k2 id (rm_clear_ack rp2)
          | None => acc2
          end
        else (set_peer acc k' id rp1) <| r_snapshotting := true |>
      else acc <| r_snapshotting := true |>
    | _ => acc
    end
  | None => acc
  end.
Definition check_body (hd : raft -> msg -> raft) (r : raft) : raft :=
  if is_leader r && r_snapshotting r then
    let r0 := r <| r_snapshotting := false |> in
    let r1 := fold_left (ack_step hd) (akeys (r_remotes r0)) r0 in
    let r2 := fold_left (ack_step hd) (akeys (r_nonvotings r1)) r1 in
    fold_left (ack_step hd) (akeys (r_witnesses r2)) r2
  else r.

Section Bodies.
  Variables (hd : raft -> msg -> raft) (tk ck : raft -> raft).
  Hypothesis HH : forall r m, tle (tv r) (tv (hd r m)).
  Hypothesis HT : forall r, tle (tv r) (tv (tk r)).
  Hypothesis HC : forall r, tle (tv r) (tv (ck r)).

  Lemma handle_body_tle r m : tle (tv r) (tv (handle_body tk r m)).
  Proof.
    unfold handle_body. destruct (r_panic r); [apply tle_refl|]. destruct (_ && _); [apply tle_refl|].
    pose proof (on_message_term_not_matched_tle r m) as H1.
    destruct (on_message_term_not_matched r m) as [r1 ignore]. cbn [fst] in H1.
    destruct (_ || _); [exact H1|]. apply (tle_trans _ _ _ H1).
    destruct (negb (is_prevote_message (m_type m)) && negb (m_term m =? 0) && negb (r_term r1 =? m_term m)) eqn:Echk;
      [apply tle_refl|].
    cbv zeta. set (h := handler_of _ _).
    (* a RequestVote that gets this far carries the replica's own term, or term 0 *)
    assert (Hrv : h = H_handleNodeRequestVote -> m_term m <= r_term r1).
    { intros Hh. apply request_vote_handler_type in Hh. rewrite Hh in Echk.
      destruct (N.eqb_spec (m_term m) 0); [lia|]. destruct (N.eqb_spec (r_term r1) (m_term m)); [lia|discriminate]. }
    destruct h; try (apply run_handler_tle, Hrv).
    - rewrite is_transfer_target_upd_tvr. eapply tle_trans; [|apply HT]. exact (tle_refl _).
    - destruct (m_reject m); [apply tle_refl|apply HT].
  Qed.

  (* the let chain of leaderTick is walked one binding at a time: expanding it multiplies the term *)
  Lemma tle_let {A} a (e : A) (f : A -> raft) :
    (forall x, x = e -> tle a (tv (f x))) -> tle a (tv (let x := e in f x)).
  Proof. intros Hx. exact (Hx e eq_refl). Qed.
  Ltac let_step x E :=
    match goal with |- tle ?a (tv (let y := ?e in @?f y)) => apply (tle_let a e f); intros x E; cbv beta end.

  Lemma leader_tick_tle r0 : tle (tv r0) (tv (leader_tick hd ck r0)).
  Proof.
    cbv beta delta [leader_tick].
    let_step r1 E1. assert (H1 : tv r1 = tv r0) by (subst r1; reflexivity). rewrite <- H1. clear E1 H1.
    let_step abort Ea. clear Ea.
    let_step r2 E2.
    assert (H2 : tle (tv r1) (tv r2)).
    { subst r2. destruct (gen_timeForCheckQuorum _ _); [|apply tle_refl]. cbv zeta.
      destruct (r_check_quorum _); [|apply tle_refl]. eapply tle_trans; [|apply HH]. exact (tle_refl _). }
    apply (tle_trans _ _ _ H2). clear E2 H2.
    let_step r3 E3. assert (H3 : tv r3 = tv r2) by (subst r3; destruct abort; reflexivity).
    rewrite <- H3. clear E3 H3.
    let_step r4 E4. assert (H4 : tv r4 = tv r3) by (subst r4; reflexivity). rewrite <- H4. clear E4 H4.
    let_step r5 E5. eapply tle_trans; [|apply HC].
    subst r5. destruct (gen_timeForHeartbeat _ _); [|apply tle_refl].
    eapply tle_trans; [|apply HH]. exact (tle_refl _).
  Qed.

  Lemma tick_body_tle r : tle (tv r) (tv (tick_body hd ck r)).
  Proof.
    cbv beta delta [tick_body]. let_step r0 E0.
    assert (H0 : tv r0 = tv r) by (subst r0; reflexivity). rewrite <- H0. clear E0 H0.
    destruct (is_leader r0); [apply leader_tick_tle|].
    unfold non_leader_tick. cbv zeta. destruct (_ || _); [apply tle_refl|].
    destruct (_ && _); [|apply tle_refl]. eapply tle_trans; [|apply HH]. exact (tle_refl _).
  Qed.

  Lemma ack_step_tle acc id : tle (tv acc) (tv (ack_step hd acc id)).
  Proof.
    unfold ack_step. destruct (find_peer acc id) as [[k' rp]|]; [|apply tle_refl].
    destruct (rm_state rp); try apply tle_refl. destruct (0 <? _); [|apply tle_refl]. cbv zeta.
    destruct (_ =? 0); [|apply tle_tvr; destruct k'; reflexivity].
    destruct (find_peer _ id) as [[k2 rp2]|]; rewrite ?set_peer_tvr;
      (eapply tle_trans; [|apply HH]); apply tle_tvr, set_peer_tvr.
  Qed.
  Lemma check_body_tle r : tle (tv r) (tv (check_body hd r)).
  Proof.
    unfold check_body. destruct (_ && _); [|apply tle_refl]. cbv zeta.
    do 3 (eapply tle_trans; [|apply fold_left_tle, ack_step_tle]). apply tle_refl.
  Qed.
End Bodies.

(* Comparing the unfolded fixpoint with a body is dear: the kernel compares the let-expanded terms,
   so every reference to a let-bound state is compared again, and each recursive call met on the
   way compares the three bodies of the fixpoint once more. Unfolding both sides without zeta
   first makes them syntactically equal, so that this is paid once, at Qed. *)
Lemma handle_S f r m : handle (S f) r m = handle_body (tick f) r m.
Proof. cbv beta delta [handle_body]. cbn beta iota delta [handle]. reflexivity. Qed.
Lemma tick_S f r : tick (S f) r = tick_body (handle f) (check_pending_snapshot_ack f) r.
Proof. cbv beta delta [tick_body leader_tick non_leader_tick]. cbn beta iota delta [tick]. reflexivity. Qed.
Lemma check_S f r : check_pending_snapshot_ack (S f) r = check_body (handle f) r.
Proof. cbv beta delta [check_body ack_step]. cbn beta iota delta [check_pending_snapshot_ack]. reflexivity. Qed.

Lemma handle_tick_check_tv_le f :
  (forall r m, tv_le r (handle f r m)) /\ (forall r, tv_le r (tick f r)) /\
  (forall r, tv_le r (check_pending_snapshot_ack f r)).
Proof.
  induction f as [|f (Hh & Ht & Hc)]; [repeat split; apply N.le_refl|].
  split; [|split]; intros r; [intros m; rewrite handle_S|rewrite tick_S|rewrite check_S]; apply tv_le_tle.
  - apply handle_body_tle, Ht.
  - apply tick_body_tle; assumption.
  - apply check_body_tle, Hh.
Qed.

Lemma handle_tv_le f r m : tv_le r (handle f r m).
Proof. apply handle_tick_check_tv_le. Qed.

(* the equations in relational form *)
Definition tv_eq (r r' : raft) : Prop := r_term r' = r_term r /\ r_vote r' = r_vote r.
Lemma tv_eq_tv r r' : tv r' = tv r -> tv_eq r r'.
Proof. intros E. split; [exact (f_equal fst E)|exact (f_equal snd E)]. Qed.
Lemma reset_peers_tv r : tv_eq r (reset_peers r). Proof. split; reflexivity. Qed.
Lemma send_heartbeat_tv r to c mt : tv_eq r (send_heartbeat r to c mt).
Proof. apply tv_eq_tv. now rewrite send_heartbeat_tvr. Qed.
