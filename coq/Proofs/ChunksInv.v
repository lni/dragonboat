(* C15, finalize_iff_complete_valid_sequence. ONLY IF: an invariant of runs keeps, for every
   tracked stream and every final directory, the delivered chunks it came from. IF: the
   chunks of the stream are followed through whatever else arrives in between. *)
From Coq Require Import List NArith Bool Lia.
From DB Require Import Base.Bytes Model.Chunks Proofs.Chunks Proofs.ChunksFrame.
Import ListNotations.
Open Scope N_scope.

Inductive subseq {A : Type} : list A -> list A -> Prop :=
| sub_nil : subseq [] []
| sub_skip : forall l1 l2 x, subseq l1 l2 -> subseq l1 (x :: l2)
| sub_take : forall l1 l2 x, subseq l1 l2 -> subseq (x :: l1) (x :: l2).

Lemma subseq_nil_l : forall (A : Type) (l : list A), subseq [] l.
Proof. induction l; [apply sub_nil|apply sub_skip; auto]. Qed.
Lemma subseq_refl : forall (A : Type) (l : list A), subseq l l.
Proof. induction l; [apply sub_nil|apply sub_take; auto]. Qed.
Lemma subseq_app : forall (A : Type) (a h t : list A), subseq a h -> subseq a (h ++ t).
Proof.
  intros A a h t H. induction H; simpl.
  - apply subseq_nil_l.
  - apply sub_skip. assumption.
  - apply sub_take. assumption.
Qed.
Lemma subseq_app_r : forall (A : Type) (a h : list A) x, subseq a h -> subseq a (h ++ [x]).
Proof. intros. apply subseq_app. assumption. Qed.
Lemma subseq_snoc : forall (A : Type) (a h : list A) x, subseq a h -> subseq (a ++ [x]) (h ++ [x]).
Proof.
  induction 1; simpl.
  - apply sub_take. apply sub_nil.
  - apply sub_skip. assumption.
  - apply sub_take. assumption.
Qed.
Lemma subseq_single : forall (A : Type) (h : list A) x, subseq [x] (h ++ [x]).
Proof. intros. apply (subseq_snoc _ [] h), subseq_nil_l. Qed.

Lemma nlen_snoc : forall (A : Type) (l : list A) x, nlen (l ++ [x]) = nlen l + 1.
Proof. intros. unfold nlen. rewrite app_length. simpl. lia. Qed.

Section Snoc.
  Variable D : Type.
  Notation chunk := (chunk D).

  Lemma ids_from_snoc : forall (l : list chunk) i m d,
      ids_from D i l -> c_id m = i + nlen l -> ids_from D i (l ++ [(m, d)]).
  Proof.
    induction l as [|[m0 d0] l IH]; intros i m d H Hid; simpl.
    - rewrite Hid. split; auto. apply N.add_0_r.
    - destruct H as [H1 H2]. split; auto. apply IH; auto.
      rewrite Hid. unfold nlen. simpl length. lia.
  Qed.

  Definition no_last (l : list chunk) : Prop := Forall (fun c : chunk => is_last (fst c) = false) l.

  Lemma last_only_snoc : forall (l : list chunk) m d,
      no_last l -> is_last m = true -> last_only D (l ++ [(m, d)]).
  Proof.
    induction l as [|[m0 d0] l IH]; intros m d Hn Hl; simpl; auto.
    inversion Hn; subst. simpl in H1.
    destruct (l ++ [(m, d)]) eqn:E.
    - destruct l; discriminate.
    - rewrite <- E. split; auto.
  Qed.
End Snoc.

Section Inv.
  Variable D : Type.
  Variable dapp : D -> D -> D.
  Variable V : Type.
  Variable vinit : V.
  Variable vadd : V -> D -> N -> vres V.
  Variable vfinal : V -> bool.
  Variables my_did gc_tick timeout max_slots : N.

  Notation state := (state D V).
  Notation chunk := (chunk D).
  (* the repaired receiver *)
  Notation addM := (add D dapp V vinit vadd vfinal true true my_did max_slots).
  Notation stepM := (step D dapp V vinit vadd vfinal true true my_did gc_tick timeout max_slots).
  Notation runM := (run D dapp V vinit vadd vfinal true true my_did gc_tick timeout max_slots).
  Notation contM := (cont D dapp V vadd vfinal true).
  Notation replayM := (replay D dapp).
  Notation vfoldM := (vfold D V vadd).
  Notation midM := (mid D V).

  Record stream_prefix (k : key) (td : tracked V) (acc : list chunk) : Prop := mkSP {
    sp_first : exists d0 r, acc = (t_first td, d0) :: r;
    sp_key : key_of (t_first td) = k;
    sp_ids : ids_from D 0 acc;
    sp_same : same_stream D my_did (t_first td) acc;
    sp_next : t_next td = nlen acc;
    sp_files : t_files td = fileinfos D [] acc }.

  Definition live (st : state) (td : tracked V) (acc : list chunk) : Prop :=
    no_last D acc /\ vfoldM vinit acc = Some (t_v td) /\
    exists files, replayM [] acc = Some files /\ tmp st (tkey_of (t_first td)) = Some files.

  Definition complete (k : key) (acc : list chunk) (fd : fdir D) : Prop :=
    exists m0 d0 r v files,
      acc = (m0, d0) :: r /\ key_of m0 = k /\ ids_from D 0 acc /\ same_stream D my_did m0 acc /\
      last_only D acc /\ vfoldM vinit acc = Some v /\ vfinal v = true /\ replayM [] acc = Some files /\
      fd = mkFDir (adel bytes_eqb snapshot_flag_filename files) (to_message m0 (fileinfos D [] acc)).

  Definition invK (h : list chunk) (st : state) (k : key) : Prop :=
    (forall td, trk st k = Some td ->
        exists acc, subseq acc h /\ stream_prefix k td acc /\
                    (is_removed st (node_of (t_first td)) = false -> live st td acc)) /\
    (forall fd, fin st k = Some fd -> exists acc, subseq acc h /\ complete k acc fd) /\
    (forall tk files, tkey_key tk = k -> tmp st tk = Some files ->
        exists td, trk st k = Some td /\ tkey_of (t_first td) = tk).

  Definition inv (h : list chunk) (st : state) : Prop :=
    (forall k, invK h st k) /\ NoDup (map fst (s_tracked st)).

  Lemma invK_weaken : forall h t st k, invK h st k -> invK (h ++ t) st k.
  Proof.
    intros h t st k [I1 [I2 I3]]. split; [|split]; auto.
    - intros td L. destruct (I1 td L) as [acc [S R]]. exists acc. split; auto. apply subseq_app. exact S.
    - intros fd L. destruct (I2 fd L) as [acc [S R]]. exists acc. split; auto. apply subseq_app. exact S.
  Qed.

  (* invK only looks at snapshot k's part of the state and at the removed set *)
  Lemma invK_transfer : forall h (st st' : state) k,
      same_at D V k st st' -> s_removed st' = s_removed st -> invK h st k -> invK h st' k.
  Proof.
    intros h st st' k [S1 [S2 S3]] SR [I1 [I2 I3]]. split; [|split].
    - intros td L. rewrite S1 in L. destruct (I1 td L) as [acc [Sq [P Lv]]]. exists acc. split; auto. split; auto.
      intro R. unfold is_removed in *. rewrite SR in R. destruct (Lv R) as [A [B [files [C E]]]].
      split; auto. split; auto. exists files. split; auto. rewrite S2; auto.
      rewrite tkey_key_of. apply (sp_key _ _ _ P).
    - intros fd L. rewrite S3 in L. auto.
    - intros tk files Hk L. rewrite S2 in L by exact Hk. destruct (I3 tk files Hk L) as [td [A B]].
      exists td. rewrite S1. auto.
  Qed.

  Lemma invK_gone : forall h (st : state) k,
      trk st k = None -> (forall tk, tkey_key tk = k -> tmp st tk = None) ->
      (forall fd, fin st k = Some fd -> exists acc, subseq acc h /\ complete k acc fd) ->
      invK h st k.
  Proof.
    intros h st k H1 H2 H3. split; [|split]; auto.
    - intros td L. congruence.
    - intros tk files Hk L. rewrite H2 in L by exact Hk. discriminate.
  Qed.

  Lemma inv_wf : forall h st, inv h st -> tracked_wf D V st.
  Proof.
    intros h st [I _] k td L. destruct (I k) as [I1 _]. destruct (I1 td L) as [acc [_ [P _]]].
    apply (sp_key _ _ _ P).
  Qed.

  Lemma prefix_set_v : forall k td v acc, stream_prefix k td acc -> stream_prefix k (set_v td v) acc.
  Proof. intros k td v acc [A B C E F G]. constructor; simpl; auto. Qed.

  (* [st1], [td] are what record returned for (m, d): the chunk is already counted in [td];
     [accp] are the chunks recorded before it, still what the temp dir holds *)
  Lemma cont_inv :
    forall h' (st1 st' : state) td m d accp b,
      let k := key_of m in
      let acc1 := accp ++ [(m, d)] in
      trk st1 k = Some td ->
      stream_prefix k td acc1 -> subseq acc1 h' ->
      tkey_of (t_first td) = tkey_of m ->
      (forall tk, tkey_key tk = k -> tk <> tkey_of m -> tmp st1 tk = None) ->
      (forall fd, fin st1 k = Some fd -> exists acc, subseq acc h' /\ complete k acc fd) ->
      (is_removed st1 (node_of m) = false ->
       no_last D accp /\
       exists filesp, replayM [] accp = Some filesp /\
                      (if c_id m =? 0 then tmp st1 (tkey_of m) = None /\ filesp = []
                       else tmp st1 (tkey_of m) = Some filesp) /\
                      (forall v', validated D V vadd td m d = VOk v' -> vfoldM vinit acc1 = Some v')) ->
      contM st1 td (m, d) = Done st' b ->
      invK h' st' k.
  Proof.
    intros h' st1 st' td m d accp b k0 acc0 Htr HP Hsub Htk HT Hfin Hlive H.
    subst k0 acc0.
    pose proof (node_of_same _ _ (sp_key _ _ _ HP)) as Hnode.
    (* once the temp dir of the chunk's sender is removed the snapshot has no temp dir *)
    assert (Gone : forall s : state, (forall tk, tk <> tkey_of m -> tmp s tk = tmp st1 tk) ->
                     forall tk, tkey_key tk = key_of m -> tmp (remove_temp (tkey_of m) s) tk = None).
    { intros s Hs tk Hk. simpl. destruct (tkey_eqb_spec tk (tkey_of m)) as [->|E].
      - apply alookup_adel_same.
      - rewrite alookup_adel_other by (exact tkey_eqb_eq || exact E). rewrite Hs by exact E. auto. }
    apply cont_done in H as [(Rm & -> & ->)|(Rm & H)].
    - (* the replica is removed: the temp dir goes, the stream stays tracked *)
      split; [|split].
      + intros td0 L. simpl in L. rewrite Htr in L. injection L as <-.
        exists (accp ++ [(m, d)]). split; auto. split; auto.
        intro R. unfold is_removed in *. simpl in R. rewrite Hnode in R. congruence.
      + exact Hfin.
      + intros tk files Hk L. rewrite (Gone st1) in L by auto. discriminate.
    - destruct (Hlive Rm) as [Hnl [filesp [Hrp [Hpre Hv]]]].
      destruct H as [(v' & _ & -> & ->)|(v' & files0 & files1 & Val & O & R1 & H)].
      + apply invK_gone; simpl.
        * apply alookup_adel_same.
        * apply (Gone st1). auto.
        * exact Hfin.
      + specialize (Hv v' Val). set (st3 := set_temps _ _) in H. cbv zeta in H.
        assert (E0 : files0 = filesp).
        { rewrite open_temps_same in O.
          destruct (c_id m =? 0); [destruct Hpre as [Hp ->]; rewrite Hp in O|]; congruence. }
        subst files0.
        assert (Rep : replayM [] (accp ++ [(m, d)]) = Some files1) by (rewrite replay_app, Hrp; exact R1).
        assert (T3 : tmp st3 (tkey_of m) = Some files1)
          by (simpl; apply alookup_aset_same; exact tkey_eqb_eq).
        assert (Tm3 : forall tk, tk <> tkey_of m -> tmp st3 tk = tmp st1 tk).
        { intros tk Hn. simpl. rewrite alookup_aset_other by (exact tkey_eqb_eq || exact Hn).
          exact (open_temps_other D V st1 m tk Hn). }
        assert (Tr3 : trk st3 (key_of m) = Some (set_v td v'))
          by (simpl; apply alookup_aset_same; exact key_eqb_eq).
        destruct (is_last m) eqn:Last.
        * apply finish_done in H as [[_ ->]|[_ [Vf [F3 [files [T3' ->]]]]]]; apply invK_gone; simpl.
          -- apply alookup_adel_same.
          -- apply (Gone (untrack (key_of m) st3)). exact Tm3.
          -- exact Hfin.
          -- apply alookup_adel_same.
          -- apply (Gone st3). exact Tm3.
          -- intros fd L. rewrite alookup_aset_same in L by exact key_eqb_eq. injection L as <-.
             exists (accp ++ [(m, d)]). split; auto.
             destruct HP as [[d0 [r Hf]] Hk Hi Hsm Hn Hfl].
             rewrite T3 in T3'. injection T3' as <-.
             exists (t_first td), d0, r, v', files1. repeat split; auto.
             ++ apply last_only_snoc; assumption.
             ++ simpl. rewrite Hfl. reflexivity.
        * destruct H as [-> ->]. split; [|split].
          -- intros td0 L. rewrite Tr3 in L. injection L as <-.
             exists (accp ++ [(m, d)]). split; auto. split; [apply prefix_set_v; exact HP|].
             intro R. split; [apply Forall_app; split; auto|].
             split; [exact Hv|]. exists files1. split; auto. simpl t_first. rewrite Htk. exact T3.
          -- exact Hfin.
          -- intros tk files Hk L. exists (set_v td v'). split; auto. simpl t_first. rewrite Htk.
             destruct (tkey_eqb_spec tk (tkey_of m)) as [->|E]; auto.
             rewrite Tm3, HT in L by auto. discriminate.
  Qed.

  Lemma add_inv_key :
    forall h (st st' : state) m d b,
      inv h st -> addM st (m, d) = Done st' b -> invK (h ++ [(m, d)]) st' (key_of m).
  Proof.
    intros h st st' m d b [I ND] H.
    destruct (I (key_of m)) as [I1 [I2 I3]].
    assert (W : invK (h ++ [(m, d)]) st (key_of m)) by (apply invK_weaken; split; [|split]; assumption).
    rewrite add_cont in H. simpl fst in H.
    destruct (c_did m =? my_did) eqn:Edid; cbn [negb orb] in H; [|injection H as <- <-; exact W].
    destruct (c_binver m =? transport_bin_version) eqn:Ebv; cbn [negb orb] in H; [|injection H as <- <-; exact W].
    apply N.eqb_eq in Edid. apply N.eqb_eq in Ebv.
    destruct (record D V vinit vadd true max_slots st (m, d)) as [s1|s1 td|] eqn:R; try discriminate.
    { injection H as <- <-. apply record_ignore in R as [->|[F _]]; [exact W|discriminate]. }
    apply record_tracked in R as [[Eid [[v0 [Hv0 ->]] ->]]|[Eid [td0 [Ltr [Enext [Efrom [-> ->]]]]]]].
    - assert (T0 : forall tk, tkey_key tk = key_of m -> tmp (discard D V (key_of m) st) tk = None).
      { intros tk Hk. unfold discard. destruct (tmp st tk) as [files|] eqn:L.
        - destruct (I3 tk files Hk L) as [td' [A B]]. rewrite A. subst tk. simpl.
          apply alookup_adel_same.
        - destruct (trk st (key_of m)); auto. simpl. apply alookup_adel_none; exact L. }
      destruct (discard_fields D V (key_of m) st) as [Fd _].
      refine (cont_inv (h ++ [(m, d)]) _ st' _ m d [] b _ _ _ _ _ _ _ H).
      + simpl. apply alookup_aset_same; exact key_eqb_eq.
      + constructor; simpl; eauto. constructor; [|constructor]. simpl. auto.
      + simpl. apply subseq_single.
      + reflexivity.
      + intros tk Hk Hn. simpl. apply T0. exact Hk.
      + intros fd L. simpl in L. rewrite Fd in L. destruct W as [_ [W2 _]]. auto.
      + intro R. split; [constructor|]. exists []. split; [reflexivity|]. split.
        * rewrite Eid. simpl. split; [apply T0; reflexivity|reflexivity].
        * intros v' Hval. rewrite validated_first in Hval by exact Eid.
          injection Hval as <-. simpl. rewrite Eid.
          destruct (c_hasfi m); [injection Hv0 as <-; reflexivity|rewrite Hv0; reflexivity].
    - destruct (I1 td0 Ltr) as [acc [Sq [P Lv]]].
      destruct P as [[d0 [r Hacc]] Pk Pids Psame Pnext Pfiles].
      assert (Htk : tkey_of (t_first td0) = tkey_of m) by (symmetry; apply tkey_of_same; auto).
      assert (Hnd : node_of (t_first td0) = node_of m) by (symmetry; apply node_of_same; auto).
      refine (cont_inv (h ++ [(m, d)]) _ st' _ m d acc b _ _ _ _ _ _ _ H).
      + simpl. apply alookup_aset_same; exact key_eqb_eq.
      + constructor; cbn [t_first t_next t_files].
        * exists d0, (r ++ [(m, d)]). rewrite Hacc. reflexivity.
        * exact Pk.
        * apply ids_from_snoc; auto. rewrite N.add_0_l. rewrite <- Enext. exact Pnext.
        * apply Forall_app. split; auto.
        * rewrite nlen_snoc. rewrite <- Enext. f_equal. exact Pnext.
        * rewrite fileinfos_snoc. rewrite <- Pfiles. reflexivity.
      + apply subseq_snoc. exact Sq.
      + exact Htk.
      + intros tk Hk Hn. simpl. destruct (tmp st tk) as [files|] eqn:L; auto.
        destruct (I3 tk files Hk L) as [td' [A B]]. exfalso. apply Hn. congruence.
      + intros fd L. simpl in L. destruct W as [_ [W2 _]]. auto.
      + intro R. unfold is_removed in R. simpl in R. rewrite <- Hnd in R.
        destruct (Lv R) as [Nl [Vf [files [Rp Tp]]]].
        split; [exact Nl|]. exists files. split; [exact Rp|]. split.
        * apply N.eqb_neq in Eid. rewrite Eid. simpl. rewrite <- Htk. exact Tp.
        * intros v' Hval. rewrite vfold_app, Vf. exact (proj1 (validated_vfold D V vadd _ m d v' Eid) Hval).
  Qed.

  Lemma add_inv : forall h (st st' : state) c b,
      inv h st -> addM st c = Done st' b -> inv (h ++ [c]) st'.
  Proof.
    intros h st st' [m d] b Hi H.
    pose proof (add_touch _ _ _ _ _ _ _ _ _ _ _ _ _ _ (inv_wf _ _ Hi) H) as T. simpl fst in T.
    split; [|exact (touch_nodup _ _ _ _ _ (proj2 Hi) T)].
    intro k. destruct (key_eqb_spec k (key_of m)) as [->|E].
    - eapply add_inv_key; eauto.
    - apply invK_weaken. eapply invK_transfer; [|exact (proj1 (touch_fields _ _ _ _ _ T))|apply (proj1 Hi)].
      exact (touch_same_at _ _ _ _ _ _ E T).
  Qed.

  Lemma drop_inv : forall h (st : state) k td,
      inv h st -> trk st k = Some td -> inv h (untrack k (remove_temp (tkey_of (t_first td)) st)).
  Proof.
    intros h st k td Hi L.
    pose proof (touch_drop _ _ k td st st (inv_wf _ _ Hi) L (touch_refl _ _ _ _)) as T.
    destruct Hi as [I ND]. split; [|exact (touch_nodup _ _ _ _ _ ND T)].
    intro k'. destruct (key_eqb_spec k' k) as [->|E].
    - destruct (I k) as [I1 [I2 I3]]. apply invK_gone; simpl; auto.
      + apply alookup_adel_same.
      + intros tk Hk. destruct (tkey_eqb_spec tk (tkey_of (t_first td))) as [->|E2].
        * apply alookup_adel_same.
        * rewrite alookup_adel_other by (exact tkey_eqb_eq || exact E2).
          destruct (tmp st tk) as [files|] eqn:L0; auto.
          destruct (I3 tk files Hk L0) as [td' [A B]]. congruence.
    - eapply invK_transfer; [exact (touch_same_at _ _ _ _ _ _ E T)|reflexivity|apply I].
  Qed.

  Lemma gc_list_inv : forall h t l (st : state),
      inv h st -> NoDup (map fst l) -> (forall k td, In (k, td) l -> trk st k = Some td) ->
      inv h (gc_list D V t l st).
  Proof.
    induction l as [|[k td] l IH]; intros st Hi ND Hin; simpl; auto.
    inversion ND as [|? ? Hnot ND']; subst.
    destruct (t <=? s_tick st - t_tick td); [|apply IH; auto; intros; apply Hin; right; assumption].
    apply IH; auto.
    - apply (drop_inv h st k td Hi). apply Hin. left. reflexivity.
    - intros k1 td1 H1. simpl. rewrite alookup_adel_other; [apply Hin; right; exact H1|exact key_eqb_eq|].
      intro X. subst k1. apply Hnot. apply (in_map fst _ _ H1).
  Qed.

  Lemma inv_tick_field : forall h (st : state) t,
      inv h st -> inv h (mkState t (s_tracked st) (s_temps st) (s_finals st) (s_removed st) (s_out st)).
  Proof.
    intros h st t [I ND]. split; [|exact ND]. intro k.
    eapply invK_transfer; [| |apply I]; [repeat split; auto|reflexivity].
  Qed.

  Lemma removed_mono : forall (st : state) n n',
      is_removed (mark_removed st n) n' = false -> is_removed st n' = false.
  Proof.
    intros st n n' H. unfold is_removed, mark_removed in *. simpl in H.
    destruct (eqb_spec node_eqb node_eqb_eq n' n) as [->|E].
    - rewrite alookup_aset_same in H by exact node_eqb_eq. discriminate.
    - rewrite alookup_aset_other in H by (exact node_eqb_eq || assumption). exact H.
  Qed.

  Lemma step_inv : forall h (st st' : state) o b,
      inv h st -> stepM st o = Done st' b ->
      inv (h ++ match o with OAdd c => [c] | _ => [] end) st'.
  Proof.
    intros h st st' o b Hi H.
    assert (All : forall k td, In (k, td) (s_tracked st) -> trk st k = Some td)
      by (intros k td; apply nodup_lookup; [exact key_eqb_eq|exact (proj2 Hi)]).
    destruct o as [c| |s r|]; simpl in H; [eapply add_inv; eauto|..];
      injection H as <- <-; rewrite app_nil_r.
    - unfold tick. pose proof (inv_tick_field h st (s_tick st + 1) Hi) as Hi'.
      destruct (_ =? 0); [|exact Hi']. apply gc_list_inv; auto. exact (proj2 Hi).
    - destruct Hi as [I ND]. split; [|exact ND].
      intro k. destruct (I k) as [I1 [I2 I3]]. split; [|split]; auto.
      intros td L. destruct (I1 td L) as [acc [Sq [P Lv]]]. exists acc. split; auto. split; auto.
      intro R. apply removed_mono in R. exact (Lv R).
    - unfold close. rewrite close_list_gc. apply gc_list_inv; auto. exact (proj2 Hi).
  Qed.

  Definition chunks_of (ops : list (op D)) : list chunk :=
    flat_map (fun o => match o with OAdd c => [c] | _ => [] end) ops.

  Lemma run_inv : forall ops h (st st' : state),
      inv h st -> runM st ops = Some st' -> inv (h ++ chunks_of ops) st'.
  Proof.
    induction ops as [|o ops IH]; intros h st st' Hi H; simpl in H.
    - injection H as <-. simpl. rewrite app_nil_r. exact Hi.
    - destruct (stepM st o) as [s1 b|] eqn:Hs; [|discriminate].
      pose proof (step_inv _ _ _ _ _ Hi Hs) as Hi1.
      specialize (IH _ _ _ Hi1 H). simpl chunks_of. rewrite app_assoc. exact IH.
  Qed.

  Lemma init_inv : inv [] (@init D V).
  Proof.
    split; [|constructor]. intro k. split; [|split]; intros; discriminate.
  Qed.

  Lemma finalized_only_if_complete :
    forall ops (st : state) k fd,
      runM init ops = Some st -> fin st k = Some fd ->
      exists acc, subseq acc (chunks_of ops) /\ complete k acc fd.
  Proof.
    intros ops st k fd Hr L.
    pose proof (run_inv ops [] init st init_inv Hr) as [I _]. simpl in I.
    destruct (I k) as [_ [I2 _]]. auto.
  Qed.
End Inv.

(* The converse needs no history: a complete valid sequence delivered in order, with other
   traffic in between, is finalised from any state whose tracked table is in order. *)
Section Deliver.
  Variable D : Type.
  Variable dapp : D -> D -> D.
  Variable V : Type.
  Variable vinit : V.
  Variable vadd : V -> D -> N -> vres V.
  Variable vfinal : V -> bool.
  Variables my_did gc_tick timeout max_slots : N.

  Notation state := (state D V).
  Notation chunk := (chunk D).
  Notation addM := (add D dapp V vinit vadd vfinal true true my_did max_slots).
  Notation stepM := (step D dapp V vinit vadd vfinal true true my_did gc_tick timeout max_slots).
  Notation runM := (run D dapp V vinit vadd vfinal true true my_did gc_tick timeout max_slots).
  Notation finishM := (finish D V vfinal).
  Notation replayM := (replay D dapp).
  Notation vfoldM := (vfold D V vadd).
  Notation midM := (mid D V).

  (* what may come between the chunks of the stream started by [m0] once [j] of them were
     delivered: chunks of other snapshots (whatever happens to them), foreign chunks, chunks
     of this snapshot that are not chunk 0 and not the next expected chunk of this sender
     (duplicates, gaps, out of order, other senders), ticks, removal of other replicas *)
  Definition noise (m0 : cmeta) (j : N) (o : op D) : Prop :=
    match o with
    | OAdd c => key_of (fst c) <> key_of m0 \/
                c_did (fst c) <> my_did \/ c_binver (fst c) <> transport_bin_version \/
                (c_id (fst c) <> 0 /\ (c_id (fst c) <> j \/ c_from (fst c) <> c_from m0))
    | OTick => True
    | ORemoved s r => (s, r) <> node_of m0
    | OClose => False
    end.

  Inductive delivers (m0 : cmeta) : N -> list chunk -> list (op D) -> Prop :=
  | dl_done : forall j, delivers m0 j [] []
  | dl_chunk : forall j c r ops, delivers m0 (j + 1) r ops -> delivers m0 j (c :: r) (OAdd c :: ops)
  | dl_noise : forall j c r o ops, noise m0 j o -> delivers m0 j (c :: r) ops -> delivers m0 j (c :: r) (o :: ops).

  Lemma noise_step :
    forall (st s1 : state) m0 v fi files j tk0 o b,
      table_ok D V st -> midM st m0 v fi files j tk0 -> tk0 <= s_tick st ->
      noise m0 j o ->
      (o = OTick -> s_tick st + 1 < tk0 + timeout) ->
      stepM st o = Done s1 b ->
      midM s1 m0 v fi files j tk0 /\
      s_tick s1 = s_tick st + (match o with OTick => 1 | _ => 0 end).
  Proof.
    intros st s1 m0 v fi files j tk0 o b [WF ND] Hm Htk Hn Hb H.
    destruct o as [[m d]| |s r|]; simpl in H, Hn.
    - destruct (key_eqb_spec (key_of m) (key_of m0)) as [E|E].
      + (* same snapshot: it is ignored without effect *)
        assert (Ig : ignorable D V vinit vadd my_did max_slots st (m, d)).
        { destruct Hn as [Hn|[Hn|[Hn|[Hid Hn]]]]; [contradiction|left; left; exact Hn|left; right; exact Hn|].
          right. left. simpl. split; [exact Hid|].
          intros [td [L [Nx Fr]]]. rewrite E in L. destruct Hm as [A _]. rewrite A in L.
          injection L as <-. simpl in Nx, Fr. destruct Hn as [Hn|Hn]; congruence. }
        rewrite (ignorable_no_effect D dapp V vinit vadd vfinal true true my_did max_slots eq_refl st (m, d) Ig) in H.
        injection H as <- <-. split; [exact Hm|lia].
      + pose proof (add_touch _ _ _ _ _ _ _ _ _ _ _ _ _ _ WF H) as T. simpl fst in T.
        destruct (touch_fields _ _ _ _ _ T) as [SR ST].
        split; [|rewrite ST; lia].
        eapply mid_transfer; [apply (touch_same_at _ _ _ _ _ _ (not_eq_sym E) T)|exact SR|exact Hm].
    - injection H as <- <-. specialize (Hb eq_refl). unfold tick.
      set (st1 := mkState (s_tick st + 1) (s_tracked st) (s_temps st) (s_finals st) (s_removed st) (s_out st)).
      assert (M1 : midM st1 m0 v fi files j tk0) by exact Hm.
      destruct (_ =? 0); [|split; [exact M1|reflexivity]].
      assert (All : forall k td, In (k, td) (s_tracked st1) -> trk st1 k = Some td)
        by (intros k td; apply nodup_lookup; [exact key_eqb_eq|exact ND]).
      destruct (gc_list_fields D V timeout (s_tracked st1) st1) as [_ [_ [Tk R]]].
      split; [|exact Tk].
      apply (mid_transfer _ _ st1); [|exact R|exact M1].
      apply (gc_list_same_at _ _ timeout (s_tracked st1) st1 (key_of m0) All ND WF).
      intros td1 Hin. apply All in Hin. destruct Hm as [A _]. simpl in Hin. rewrite A in Hin.
      injection Hin as <-. unfold st1. cbn [s_tick t_tick]. lia.
    - injection H as <- <-. split; [|simpl; lia].
      destruct Hm as [A [B [C E]]]. split; [exact A|]. split; [exact B|]. split; [exact C|].
      unfold is_removed, mark_removed in *. simpl.
      rewrite alookup_aset_other; [exact E|exact node_eqb_eq|]. intro X. apply Hn. symmetry. exact X.
    - destruct Hn.
  Qed.

  Fixpoint count_ticks (ops : list (op D)) : N :=
    match ops with
    | [] => 0
    | OTick :: r => 1 + count_ticks r
    | _ :: r => count_ticks r
    end.

  Definition finalized_as (st : state) (m0 : cmeta) (fi : list sfile) (files : dir D) : Prop :=
    fin st (key_of m0) = Some (mkFDir (adel bytes_eqb snapshot_flag_filename files) (to_message m0 fi)) /\
    In (to_message m0 fi) (s_out st) /\
    trk st (key_of m0) = None /\ tmp st (tkey_of m0) = None.

  Lemma done_finalized : forall (st : state) m0 fi files out,
      done_with D V st m0 fi files out -> finalized_as st m0 fi files.
  Proof. intros st m0 fi files out [A [B [C E]]]. repeat split; auto. rewrite E. left. reflexivity. Qed.

  (* As in rest_in_order, [st3] is the state after chunk (m, d) was written, before the
     last-chunk test; it is a state of the run (and its table in order) unless (m, d) is last. *)
  Lemma deliver_rest :
    forall m0 ops j r, delivers m0 j r ops ->
    forall (st3 st' : state) m d v1 fi1 files1 tk v' files',
      j <> 0 -> (is_last m = false -> table_ok D V st3) ->
      midM st3 m0 v1 fi1 files1 j tk -> tk <= s_tick st3 ->
      s_tick st3 + count_ticks ops < tk + timeout ->
      key_of m = key_of m0 -> c_from m = c_from m0 -> last_only D ((m, d) :: r) ->
      same_stream D my_did m0 r -> ids_from D j r ->
      vfoldM v1 r = Some v' -> vfinal v' = true -> replayM files1 r = Some files' ->
      match (if is_last m then finishM st3 m (mkTracked m0 v1 fi1 tk j) else Done st3 true) with
      | Done s _ => runM s ops
      | Panic => None
      end = Some st' ->
      finalized_as st' m0 (fileinfos D fi1 r) files'.
  Proof.
    intros m0 ops j r Hd. induction Hd as [j|j [m2 d2] r ops Hd IH|j c r o ops Hn Hd IH];
      intros st3 st' m d v1 fi1 files1 tk v' files' Hj Hok Hm Htk Hbud Hk Hfrom Hl Hs Hid Hv Hf Hr Hrun.
    - simpl in Hl, Hv, Hr. injection Hv as ->. injection Hr as ->. rewrite Hl in Hrun.
      destruct (finish_mid D V vfinal _ _ m _ _ _ _ _ Hm Hk Hfrom Hf) as [s [E Hdone]].
      rewrite E in Hrun. injection Hrun as <-. exact (done_finalized _ _ _ _ _ Hdone).
    - destruct Hl as [Hnl Hl]. rewrite Hnl in Hrun. specialize (Hok Hnl). simpl in Hrun.
      inversion Hs as [|? ? [Hk2 [Hfrom2 Hgood2]] Hs']; subst. destruct Hid as [Hid2 Hid'].
      change ((m2, d2) :: r) with ([(m2, d2)] ++ r) in Hv, Hr. rewrite vfold_app in Hv. rewrite replay_app in Hr.
      destruct (vfoldM v1 [(m2, d2)]) as [v2|] eqn:Hv2; [|discriminate].
      destruct (replayM files1 [(m2, d2)]) as [files2|] eqn:Hr2; [|discriminate].
      destruct (later_chunk D dapp V vinit vadd vfinal true true my_did max_slots
                            st3 m0 v1 fi1 files1 j tk m2 d2 v2 files2 Hj Hm Hk2 Hfrom2 Hgood2 Hid2 Hv2 Hr2)
        as [st4 [Hm4 [Ht4 [_ Ha]]]].
      rewrite Ha in Hrun. assert (Hj1 : j + 1 <> 0) by lia.
      apply (IH st4 st' m2 d2 v2 _ files2 (s_tick st3) v' files' Hj1); auto; try (rewrite Ht4; lia).
      + intro E. rewrite E in Ha. exact (touch_ok _ _ _ _ _ Hok (add_touch _ _ _ _ _ _ _ _ _ _ _ _ _ _ (proj1 Hok) Ha)).
      + rewrite Ht4. cbn [count_ticks] in Hbud. lia.
    - destruct Hl as [Hnl Hl]. rewrite Hnl in Hrun. specialize (Hok Hnl). simpl in Hrun.
      destruct (stepM st3 o) as [s1 b|] eqn:Hs1; [|discriminate].
      assert (Hb : o = OTick -> s_tick st3 + 1 < tk + timeout).
      { intros ->. cbn [count_ticks] in Hbud. lia. }
      destruct (noise_step st3 s1 m0 v1 fi1 files1 j tk o b Hok Hm Htk Hn Hb Hs1) as [Hm1 Ht1].
      apply (IH s1 st' m d v1 fi1 files1 tk v' files' Hj); auto.
      + intros _. exact (step_ok _ _ _ _ _ _ _ _ _ _ _ _ _ _ _ _ Hok Hs1).
      + rewrite Ht1. lia.
      + rewrite Ht1. destruct o; cbn [count_ticks] in Hbud |- *; lia.
      + split; assumption.
      + rewrite Hnl. exact Hrun.
  Qed.

  Lemma complete_sequence_finalizes :
    forall (st st' : state) m0 d0 r ops v' files',
      table_ok D V st -> clean D V max_slots st m0 ->
      delivers m0 1 r ops -> count_ticks ops < timeout ->
      same_stream D my_did m0 ((m0, d0) :: r) -> ids_from D 0 ((m0, d0) :: r) -> last_only D ((m0, d0) :: r) ->
      vfoldM vinit ((m0, d0) :: r) = Some v' -> vfinal v' = true ->
      replayM [] ((m0, d0) :: r) = Some files' ->
      runM st (OAdd (m0, d0) :: ops) = Some st' ->
      finalized_as st' m0 (fileinfos D [] ((m0, d0) :: r)) files'.
  Proof.
    intros st st' m0 d0 r ops v' files' Hok Hc Hd Hbud Hs Hid Hl Hv Hf Hr Hrun.
    inversion Hs as [|? ? [_ [_ Hgood]] Hs']; subst. destruct Hid as [Hid0 Hid'].
    change ((m0, d0) :: r) with ([(m0, d0)] ++ r) in Hv, Hr. rewrite vfold_app in Hv. rewrite replay_app in Hr.
    destruct (vfoldM vinit [(m0, d0)]) as [v1|] eqn:Hv1; [|discriminate].
    destruct (replayM [] [(m0, d0)]) as [files1|] eqn:Hr1; [|discriminate].
    destruct (first_chunk D dapp V vinit vadd vfinal true true my_did max_slots
                          st m0 d0 v1 files1 Hc Hgood Hid0 Hv1 Hr1) as [st3 [Hm3 [Ht3 [_ Ha]]]].
    simpl in Hrun. rewrite Ha in Hrun. assert (H1 : (1 : N) <> 0) by discriminate.
    apply (deliver_rest m0 ops 1 r Hd st3 st' m0 d0 v1 _ files1 (s_tick st) v' files' H1); auto; try (rewrite Ht3; lia).
    intro E. rewrite E in Ha. exact (touch_ok _ _ _ _ _ Hok (add_touch _ _ _ _ _ _ _ _ _ _ _ _ _ _ (proj1 Hok) Ha)).
  Qed.
End Deliver.
