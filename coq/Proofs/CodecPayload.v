(* payload_roundtrip: GetPayload (GetEncoded ct cmd) = cmd, for the compression
   contract  decompress (compress x) = Some x  and the snappy block property that a
   block starts with the uvarint of the uncompressed length. *)
From DB Require Import Base.Bytes Model.CodecPayload Model.CodecUpdate Proofs.Bytes Proofs.CodecUpdate.
From Coq Require Import ZifyN ZifyNat ZifyBool.
Open Scope N_scope.

Lemma uvarint_std_read : forall i shift acc d,
  uvarint_std i shift acc d =
  match read_uvarint i shift acc d with Some (x, _) => Some x | None => None end.
Proof.
  induction i as [|i IH]; intros shift acc d; destruct d as [|b r]; cbn [uvarint_std read_uvarint]; try reflexivity.
  - destruct (b <? 128); [|reflexivity]. destruct ((0 =? 0)%nat && (1 <? b)); reflexivity.
  - destruct (b <? 128).
    + destruct ((S i =? 0)%nat && (1 <? b)); reflexivity.
    + apply IH.
Qed.

Section PayloadProofs.
  Variable compress : bytes -> bytes.
  Variable decompress : bytes -> option bytes.
  Hypothesis decompress_compress : forall x, decompress (compress x) = Some x.
  (* snappy block format: the block begins with uvarint(len(src)) *)
  Hypothesis compress_header : forall x, exists rest, compress x = uvarint (nlen x) ++ rest.

  Lemma payload_roundtrip_proved ct cmd enc :
    cmd <> [] -> nlen cmd < 2 ^ 64 ->
    get_encoded compress ct cmd = Some enc ->
    get_decoded decompress enc = POk cmd.
  Proof.
    intros Hne Hlen. unfold get_encoded. destruct cmd as [|c cmd]; [contradiction|].
    intros H. injection H as <-. destruct ct; cbn [ee_header get_decoded].
    - reflexivity.
    - change (2 / 16) with 0. change (2 / 2 mod 8) with 1. change (2 mod 2) with 0.
      cbn [N.eqb negb Pos.eqb]. change (1 =? 0) with false. change (1 =? 1) with true. cbv iota.
      destruct (compress_header (c :: cmd)) as [rest E]. rewrite E.
      rewrite uvarint_std_read. fold (std_uvarint (uvarint (nlen (c :: cmd)) ++ rest)).
      rewrite std_uvarint_enc by exact Hlen.
      destruct (N.eqb_spec (nlen (c :: cmd)) 0) as [F|_]; [unfold nlen in F; simpl in F; lia|].
      rewrite <- E, decompress_compress, N.eqb_refl. reflexivity.
  Qed.

  (* the uncompressed form has exactly its advertised size len(cmd)+1 *)
  Lemma payload_plain_size cmd enc :
    get_encoded compress NoCompression cmd = Some enc -> nlen enc = nlen cmd + 1.
  Proof.
    unfold get_encoded. destruct cmd as [|c cmd]; [discriminate|].
    intros H. injection H as <-. cbn [ee_header]. unfold nlen. simpl length. lia.
  Qed.
End PayloadProofs.
