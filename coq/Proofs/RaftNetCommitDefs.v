(* L2: acknowledgements, commitment, the invariants [inv3a] (inductive for any voter set,
   given [fresh] and [agl]) and [inv3b] (the part that counts quorums), and what follows
   from inv1 .. inv3b in one state (leader completeness). *)
From DB Require Import Model.RaftNet Proofs.RaftNetLists Proofs.RaftNetElection Proofs.RaftNetLog.

Section CommitDefs.
  Variable V : list id.
  Hypothesis V_nodup : NoDup V.

  Definition acked (n : net) t w k : Prop :=
    exists ldr m, k <= m /\ In (Ack t w ldr m) (msgs n).

  Definition ack_quorum (n : net) t k : Prop :=
    exists Q, is_quorum V Q /\ forall w, In w Q -> acked n t w k.

  (* entry k of the leader of term t is committed: it has the leader's own term and a
     quorum acknowledged a prefix >= k of that leader's log in term t *)
  Definition committed (n : net) t k : Prop :=
    1 <= k <= length (llog n t) /\ term_at (llog n t) k = t /\ ack_quorum n t k.

  (* the first c entries of l are covered by a commitment made in a term <= tmax *)
  Definition cprefix (n : net) tmax c (l : list entry) : Prop :=
    c = 0 \/ exists t' k', t' <= tmax /\ c <= k' /\ committed n t' k' /\ agree c l (llog n t').

  (* some leader of a term in (t, T] started without the first k entries of llog t *)
  Definition blamed (n : net) t k T : Prop :=
    exists T', t < T' <= T /\ lead n T' <> None /\ ~ agree k (llog0 n T') (llog n t).

  Definition I_commit_bounds n := forall i,
    commit (nodes n i) <= hcommit (nodes n i) /\ hcommit (nodes n i) <= length (log (nodes n i)).
  Definition I_hcommit n := forall i,
    cprefix n (term (nodes n i)) (hcommit (nodes n i)) (log (nodes n i)).
  Definition I_ae_commit n := forall t ldr prev pt ents lc,
    In (AE t ldr prev pt ents lc) (msgs n) -> cprefix n t lc (llog n t).
  Definition I_hb n := forall t ldr to c,
    In (HB t ldr to c) (msgs n) -> c = 0 \/ (acked n t to c /\ cprefix n t c (llog n t)).
  Definition I_ack_le n := forall t w ldr m,
    In (Ack t w ldr m) (msgs n) -> t <= term (nodes n w) /\ m <= length (llog n t).
  Definition I_ack_node n := forall t w k,
    acked n t w k ->
    agree k (log (nodes n w)) (llog n t) \/ blamed n t k (term (nodes n w)).
  Definition I_vote_pair n := forall T w c vl t k,
    In (Vote T w c vl) (msgs n) -> acked n t w k -> t < T ->
    agree k vl (llog n t) \/ blamed n t k T.
  Definition I_vote_utd n := forall T w c vl,
    In (Vote T w c vl) (msgs n) ->
    exists li lt, In (RV T c li lt) (msgs n) /\ up_to_date li lt vl = true.
  Definition I_rv n := forall T c li lt,
    In (RV T c li lt) (msgs n) ->
    T <= term (nodes n c) /\
    (term (nodes n c) = T -> role (nodes n c) = Candidate ->
     li = length (log (nodes n c)) /\ lt = last_term (log (nodes n c))).
  Definition I_elected n := forall T c,
    lead n T = Some c ->
    exists Q, is_quorum V Q /\ forall w, In w Q ->
      voted_msg n T w c /\
      forall t k, t < T -> 1 <= k -> acked n t w k -> term_at (llog n t) k = t ->
                  agree k (llog0 n T) (llog n t) \/ blamed n t k (T - 1).

  (* the part that does not speak about quorums: inductive for [step V'] with any V',
     given [fresh] and [agl] (the committed prefix of a node agrees with the log of the
     leader of its term) *)
  Record inv3a (n : net) : Prop := {
    i_commit_bounds : I_commit_bounds n;
    i_ack_le : I_ack_le n;
    i_ack_node : I_ack_node n;
    i_vote_pair : I_vote_pair n;
    i_vote_utd : I_vote_utd n;
    i_rv : I_rv n
  }.

  (* the part that does *)
  Record inv3b (n : net) : Prop := {
    i_hcommit : I_hcommit n;
    i_ae_commit : I_ae_commit n;
    i_hb : I_hb n;
    i_elected : I_elected n
  }.

  Definition agl (n : net) : Prop := forall w T,
    term (nodes n w) = T -> lead n T <> None ->
    agree (hcommit (nodes n w)) (log (nodes n w)) (llog n T) /\
    hcommit (nodes n w) <= length (llog n T).

  Lemma acked_le n t w k k' : acked n t w k -> k' <= k -> acked n t w k'.
  Proof. intros (ldr & m & Hm & Hin) Hk. exists ldr, m. split; [lia | exact Hin]. Qed.

  Lemma acked_len n t w k : I_ack_le n -> acked n t w k -> k <= length (llog n t).
  Proof. intros Hle (ldr & m & Hm & Hin). destruct (Hle _ _ _ _ Hin). lia. Qed.

  Lemma acked_term n t w k : I_ack_le n -> acked n t w k -> t <= term (nodes n w).
  Proof. intros Hle (ldr & m & Hm & Hin). destruct (Hle _ _ _ _ Hin). lia. Qed.

  (* what a node acknowledged in its current term it holds *)
  Lemma acked_cur n w k :
    inv3a n -> acked n (term (nodes n w)) w k ->
    agree k (log (nodes n w)) (llog n (term (nodes n w))) /\ k <= length (log (nodes n w)).
  Proof.
    intros H3a Hack. pose proof (acked_len n _ w k (i_ack_le n H3a) Hack) as Hl.
    destruct (i_ack_node n H3a _ w k Hack) as [Hag|(U & HU & _)]; [|lia].
    split; [exact Hag|]. apply agree_sym in Hag. eapply agree_len; eauto.
  Qed.

  Lemma cprefix_le n tmax c c' l : cprefix n tmax c l -> c' <= c -> cprefix n tmax c' l.
  Proof.
    intros [->|(t' & k' & Ht & Hc & Hcm & Hag)] Hle.
    - left. lia.
    - right. exists t', k'. repeat split; try lia; try apply Hcm.
      eapply agree_le; eauto.
  Qed.

  Lemma cprefix_tmax n tmax tmax' c l : cprefix n tmax c l -> tmax <= tmax' -> cprefix n tmax' c l.
  Proof.
    intros [->|(t' & k' & Ht & Hc & Hcm & Hag)] Hle; [now left|].
    right. exists t', k'. repeat split; try lia; try apply Hcm. exact Hag.
  Qed.

  Lemma cprefix_agree n tmax c l l' : cprefix n tmax c l -> agree c l' l -> cprefix n tmax c l'.
  Proof.
    intros [->|(t' & k' & Ht & Hc & Hcm & Hag)] Hl; [now left|].
    right. exists t', k'. repeat split; try lia; try apply Hcm.
    eapply agree_trans; eauto.
  Qed.

  Lemma blamed_mono n t k T T' : blamed n t k T -> T <= T' -> blamed n t k T'.
  Proof. intros (U & HU & Hl & Hna) Hle. exists U. repeat split; try lia; assumption. Qed.

  Lemma is_ack_true t k v m :
    is_ack t k v m = true -> exists ldr mi, m = Ack t v ldr mi /\ k <= mi.
  Proof.
    destruct m; simpl; try discriminate. intros H.
    apply andb_prop in H. destruct H as [H H3]. apply andb_prop in H. destruct H as [H1 H2].
    apply Nat.eqb_eq in H1, H2. apply Nat.leb_le in H3. subst. eauto.
  Qed.

  Lemma existsb_acked n t k v :
    existsb (is_ack t k v) (msgs n) = true -> acked n t v k.
  Proof.
    intros H. apply existsb_exists in H. destruct H as (m & Hm & Ha).
    apply is_ack_true in Ha. destruct Ha as (ldr & mi & -> & Hk). now exists ldr, mi.
  Qed.

  Lemma count_ack_quorum n t k :
    quorum V <= ack_count V (msgs n) t k -> ack_quorum n t k.
  Proof.
    intros H. unfold ack_count in H.
    destruct (filter_quorum V _ V_nodup H) as (Q & HQ & Hf).
    exists Q. split; [exact HQ|]. intros w Hw. apply existsb_acked. now apply Hf.
  Qed.

  Lemma acked_mono n n' t w k : incl (msgs n) (msgs n') -> acked n t w k -> acked n' t w k.
  Proof. intros Hi (ldr & m & Hm & Hin). exists ldr, m. auto. Qed.

  Lemma ack_quorum_mono n n' t k :
    incl (msgs n) (msgs n') -> ack_quorum n t k -> ack_quorum n' t k.
  Proof.
    intros Hi (Q & HQ & H). exists Q. split; [exact HQ|].
    intros w Hw. eapply acked_mono; eauto.
  Qed.

  Lemma agree_gext_r n n' k a t :
    gext n n' -> k <= length (llog n t) -> agree k a (llog n t) -> agree k a (llog n' t).
  Proof.
    intros (_ & _ & He & _) Hk Hag. destruct (He t) as (e & ->). now apply agree_ext_r.
  Qed.

  Lemma agree_gext_r_inv n n' k a t :
    gext n n' -> k <= length (llog n t) -> agree k a (llog n' t) -> agree k a (llog n t).
  Proof.
    intros (_ & _ & He & _) Hk Hag. destruct (He t) as (e & Heq). rewrite Heq in Hag.
    eapply agree_trans; [exact Hag|]. now apply agree_app_l.
  Qed.

  Lemma agree_gext_l n n' k b t :
    gext n n' -> k <= length (llog n t) -> agree k (llog n t) b -> agree k (llog n' t) b.
  Proof. intros Hg Hk Hag. apply agree_sym. eapply agree_gext_r; eauto. now apply agree_sym. Qed.

  Lemma llog_len_gext n n' t : gext n n' -> length (llog n t) <= length (llog n' t).
  Proof. intros (_ & _ & He & _). destruct (He t) as (e & ->). rewrite app_length. lia. Qed.

  Lemma term_at_gext n n' t k :
    gext n n' -> k <= length (llog n t) -> term_at (llog n' t) k = term_at (llog n t) k.
  Proof. intros (_ & _ & He & _) Hk. destruct (He t) as (e & ->). now apply term_at_app_l. Qed.

  Lemma lead_gext n n' t : gext n n' -> lead n t <> None -> lead n' t <> None.
  Proof.
    intros (_ & Hl & _) H. destruct (lead n t) eqn:E; [|congruence]. rewrite (Hl _ _ E). discriminate.
  Qed.

  Lemma committed_gext n n' t k : gext n n' -> committed n t k -> committed n' t k.
  Proof.
    intros Hg (Hr & Ht & Hq). pose proof (llog_len_gext n n' t Hg).
    split; [lia|]. split.
    - rewrite (term_at_gext n n' t k Hg); [exact Ht | lia].
    - eapply ack_quorum_mono; [apply Hg | exact Hq].
  Qed.

  Lemma cprefix_gext n n' tmax c l : gext n n' -> cprefix n tmax c l -> cprefix n' tmax c l.
  Proof.
    intros Hg [->|(t' & k' & Ht & Hc & Hcm & Hag)]; [now left|].
    right. exists t', k'. split; [exact Ht|]. split; [exact Hc|].
    split; [now apply (committed_gext n n')|].
    eapply agree_gext_r; eauto. destruct Hcm as (Hr & _). lia.
  Qed.

  Lemma cprefix_gext_llog n n' t c : gext n n' -> cprefix n t c (llog n t) -> cprefix n' t c (llog n' t).
  Proof.
    intros Hg Hc. pose proof (cprefix_gext n n' _ _ _ Hg Hc) as Hc'.
    destruct Hc as [->|(t' & k' & Ht & Hck & Hcm & Hag)]; [now left|].
    eapply cprefix_agree; [exact Hc'|].
    apply (agree_gext_l n n' c (llog n t) t Hg); [|apply agree_refl].
    destruct Hcm as (Hr & _). apply agree_sym in Hag. eapply agree_len; [exact Hag | lia].
  Qed.

  Lemma blamed_gext n n' t k T :
    gext n n' -> k <= length (llog n t) -> blamed n t k T -> blamed n' t k T.
  Proof.
    intros Hg Hk (U & HU & Hl & Hna). exists U. split; [exact HU|]. split.
    - now apply (lead_gext n n').
    - pose proof Hg as (Hg1 & Hg2 & Hg3 & Hg4). rewrite (Hg4 U Hl).
      intros Hag. apply Hna. apply (agree_gext_r_inv n n' k _ t Hg Hk Hag).
  Qed.

  Lemma leader_completeness0 n :
    inv3b n ->
    forall T t k c, committed n t k -> t < T -> lead n T = Some c ->
                    agree k (llog0 n T) (llog n t).
  Proof.
    intros H3 T. induction T as [T IH] using lt_wf_ind.
    intros t k c Hcm Hlt Hl.
    destruct (i_elected n H3 T c Hl) as (Q & (I1 & N1 & L1) & HQ).
    destruct Hcm as (Hr & Hterm & (Qa & (I2 & N2 & L2) & HQa)).
    destruct (quorum_intersect V Q Qa I1 I2 N1 N2 L1 L2) as (w & Hw1 & Hw2).
    destruct (HQ w Hw1) as (_ & Hpair).
    destruct (Hpair t k Hlt ltac:(lia) (HQa w Hw2) Hterm) as [Hag|(U & HU & HlU & Hna)].
    - exact Hag.
    - exfalso. apply Hna. destruct (lead n U) as [c'|] eqn:E; [|congruence].
      apply (IH U ltac:(lia) t k c'); try lia; try assumption.
      split; [exact Hr|]. split; [exact Hterm|]. exists Qa. repeat split; assumption.
  Qed.

  Lemma leader_completeness1 n :
    inv2 n -> inv3b n ->
    forall T t k, committed n t k -> t < T -> lead n T <> None ->
                  agree k (llog n T) (llog n t).
  Proof.
    intros H2 H3 T t k Hcm Hlt Hl.
    destruct (lead n T) as [c|] eqn:E; [|congruence].
    pose proof (leader_completeness0 n H3 T t k c Hcm Hlt E) as Hag.
    destruct (i_llog0 n H2 T) as (ext & ->).
    apply agree_ext_l; [exact Hag|].
    destruct Hcm as (Hr & _). apply agree_sym in Hag. eapply agree_len; [exact Hag | lia].
  Qed.

  Lemma cprefix_llog n T c l :
    inv2 n -> inv3b n ->
    cprefix n T c l -> lead n T <> None -> agree c l (llog n T).
  Proof.
    intros H2 H3 [->|(t' & k' & Ht & Hc & Hcm & Hag)] Hl; [apply agree_0|].
    destruct (Nat.eq_dec t' T) as [->|Hne]; [exact Hag|].
    eapply agree_trans; [exact Hag|]. apply agree_sym.
    eapply agree_le; [|exact Hc].
    apply (leader_completeness1 n H2 H3); [exact Hcm | lia | exact Hl].
  Qed.

  Lemma cprefix_agree2 n T1 T2 c1 c2 l1 l2 k :
    inv2 n -> inv3b n ->
    cprefix n T1 c1 l1 -> cprefix n T2 c2 l2 -> k <= c1 -> k <= c2 -> agree k l1 l2.
  Proof.
    intros H2 H3 [->|(t1 & k1 & Ht1 & Hc1 & Hcm1 & Hag1)] P2 Hk1 Hk2.
    { replace k with 0 by lia. apply agree_0. }
    destruct P2 as [->|(t2 & k2 & Ht2 & Hc2 & Hcm2 & Hag2)].
    { replace k with 0 by lia. apply agree_0. }
    assert (Hl1 : lead n t1 <> None).
    { intros E. destruct (i_lead_none n H2 t1 E) as (El & _).
      destruct Hcm1 as (Hr & _). rewrite El in Hr. simpl in Hr. lia. }
    assert (Hl2 : lead n t2 <> None).
    { intros E. destruct (i_lead_none n H2 t2 E) as (El & _).
      destruct Hcm2 as (Hr & _). rewrite El in Hr. simpl in Hr. lia. }
    apply (agree_le _ k) in Hag1; [|lia].
    apply (agree_le _ k) in Hag2; [|lia].
    eapply agree_trans; [exact Hag1|]. eapply agree_trans; [|apply agree_sym; exact Hag2].
    destruct (Nat.lt_trichotomy t1 t2) as [Hlt|[->|Hlt]].
    - apply agree_sym. eapply agree_le; [apply (leader_completeness1 n H2 H3 t2 t1 k1)|]; auto. lia.
    - apply agree_refl.
    - eapply agree_le; [apply (leader_completeness1 n H2 H3 t1 t2 k2)|]; auto. lia.
  Qed.

  Lemma agl_fixed n : inv2 n -> inv3a n -> inv3b n -> agl n.
  Proof.
    intros H2 H3a H3b w T HT Hl.
    pose proof (i_hcommit n H3b w) as Hc. rewrite HT in Hc.
    pose proof (cprefix_llog n T _ _ H2 H3b Hc Hl) as Hag.
    split; [exact Hag|]. eapply agree_len; [exact Hag|]. apply (i_commit_bounds n H3a w).
  Qed.

End CommitDefs.
