(* R17L: lemmas about Model/RateQuiesce.v. The limiter is treated through one equation for
   RateLimited() (rl_poll), the quiesce state through record_taken / record_ignored (QRecord) and
   q_tick_enabled (QTick). *)
From DB Require Import Model.RateQuiesce.
From Coq Require Import Lia.
Open Scope N_scope.

Definition rl_inv (r : rlim) : Prop := rl_tick_limited r <= rl_tick r.

Lemma verdict_disabled r : rl_enabled r = false -> limited_by_size r = (false, rl_followers r).
Proof. intros He. unfold limited_by_size. rewrite He. reflexivity. Qed.

Lemma verdict_enabled r : rl_enabled r = true ->
  limited_by_size r =
  ((if rl_limited r then (rl_max r * 7) mod w64 / 10 <=? max_inmem r else rl_max r <? max_inmem r), rl_gc r).
Proof. intros He. unfold limited_by_size. rewrite He. destruct (rl_limited r); reflexivity. Qed.

(* a change of the verdict is taken at the first change, or more than ChangeTickThreashold ticks
   after the previous one *)
Definition hold_off_over (r : rlim) : bool :=
  (rl_tick_limited r =? 0) || (change_tick_threshold <? rl_tick r - rl_tick_limited r).

Lemma hold_off_spec r :
  hold_off_over r = true <-> rl_tick_limited r = 0 \/ change_tick_threshold < rl_tick r - rl_tick_limited r.
Proof. unfold hold_off_over. rewrite orb_true_iff, N.eqb_eq, N.ltb_lt. reflexivity. Qed.

Lemma rl_poll r :
  rl_step r RLimited =
  let take := negb (Bool.eqb (fst (limited_by_size r)) (rl_limited r)) && hold_off_over r in
  let now := if take then fst (limited_by_size r) else rl_limited r in
  (mkRL (rl_size r) (rl_max r) (snd (limited_by_size r)) (rl_tick r)
        (if take then rl_tick r else rl_tick_limited r) now, Some now).
Proof.
  cbn [rl_step]. unfold hold_off_over. destruct (limited_by_size r) as [lim fs]. cbn [fst snd].
  destruct (Bool.eqb lim (rl_limited r)); [reflexivity|]. destruct (_ || _); reflexivity.
Qed.

Lemma rl_poll_keeps r : fst (limited_by_size r) = rl_limited r ->
  rl_step r RLimited =
  (mkRL (rl_size r) (rl_max r) (snd (limited_by_size r)) (rl_tick r) (rl_tick_limited r) (rl_limited r), Some (rl_limited r)).
Proof. intros H. rewrite rl_poll, H, eqb_reflx. reflexivity. Qed.

Lemma rl_poll_takes r : fst (limited_by_size r) = negb (rl_limited r) -> hold_off_over r = true ->
  snd (rl_step r RLimited) = Some (negb (rl_limited r)).
Proof. intros H Ht. rewrite rl_poll, H, Ht. destruct (rl_limited r); reflexivity. Qed.

Lemma rl_poll_answer r : snd (rl_step r RLimited) = Some (rl_limited (fst (rl_step r RLimited))).
Proof. rewrite rl_poll. reflexivity. Qed.

Lemma rl_poll_size r : rl_size (fst (rl_step r RLimited)) = rl_size r.
Proof. rewrite rl_poll. reflexivity. Qed.

Lemma rl_poll_followers r : rl_followers (fst (rl_step r RLimited)) = snd (limited_by_size r).
Proof. rewrite rl_poll. reflexivity. Qed.

Lemma rl_step_max r o : rl_max (fst (rl_step r o)) = rl_max r.
Proof. destruct o; try reflexivity. rewrite rl_poll. reflexivity. Qed.

Lemma rl_enabled_step r o : rl_enabled (fst (rl_step r o)) = rl_enabled r.
Proof. unfold rl_enabled. rewrite rl_step_max. reflexivity. Qed.

Lemma rl_step_inv r o : rl_inv r -> rl_inv (fst (rl_step r o)).
Proof.
  unfold rl_inv. intros H. destruct o; try exact H.
  - cbn. lia.
  - rewrite rl_poll. cbn. destruct (_ && _); [apply N.le_refl|exact H].
Qed.

Lemma rl_new_inv max : rl_inv (rl_new max).
Proof. apply N.le_0_l. Qed.

Lemma disabled_step r o :
  rl_enabled r = false -> rl_limited r = false ->
  rl_limited (fst (rl_step r o)) = false /\ (forall b, snd (rl_step r o) = Some b -> b = false).
Proof.
  intros He Hl. destruct o; try (split; [exact Hl|discriminate]).
  rewrite rl_poll_keeps, Hl by (rewrite verdict_disabled, Hl by exact He; reflexivity).
  split; [reflexivity|]. intros b [= <-]. reflexivity.
Qed.

Lemma disabled_never_limited_proved : forall ops r,
  rl_enabled r = false -> rl_limited r = false ->
  forall b, In (Some b) (snd (rl_run r ops)) -> b = false.
Proof.
  induction ops as [|o ops IH]; intros r He Hl b Hin; cbn [rl_run] in Hin; [destruct Hin|].
  destruct (disabled_step r o He Hl) as [Hl1 Ha]. rewrite <- (rl_enabled_step r o) in He.
  destruct (rl_step r o) as [r1 a]. specialize (IH r1 He Hl1 b). destruct (rl_run r1 ops) as [r2 l].
  destruct Hin as [Hin|Hin]; [exact (Ha b Hin)|exact (IH Hin)].
Qed.

Lemma filter_filter_same {A} (f : A -> bool) l : filter f (filter f l) = filter f l.
Proof.
  induction l as [|a l IH]; [reflexivity|]. cbn [filter]. destruct (f a) eqn:E; [|exact IH].
  cbn [filter]. rewrite E, IH. reflexivity.
Qed.

(* hysteresis: above the limit an unlimited limiter limits, below 70% of it a limited one recovers,
   in between nothing changes *)
Lemma limit_when_over_proved r :
  rl_enabled r = true -> rl_limited r = false -> rl_max r < max_inmem r ->
  (rl_tick_limited r = 0 \/ change_tick_threshold < rl_tick r - rl_tick_limited r) ->
  snd (rl_step r RLimited) = Some true.
Proof.
  intros He Hl Hm Ht. rewrite rl_poll_takes, Hl; [reflexivity| |apply hold_off_spec, Ht].
  rewrite verdict_enabled, Hl by exact He. apply N.ltb_lt, Hm.
Qed.

Lemma unlimit_when_drained_proved r :
  rl_enabled r = true -> rl_limited r = true ->
  max_inmem r < (rl_max r * 7) mod w64 / 10 ->
  (rl_tick_limited r = 0 \/ change_tick_threshold < rl_tick r - rl_tick_limited r) ->
  snd (rl_step r RLimited) = Some false.
Proof.
  intros He Hl Hm Ht. rewrite rl_poll_takes, Hl; [reflexivity| |apply hold_off_spec, Ht].
  rewrite verdict_enabled, Hl by exact He. apply N.leb_gt, Hm.
Qed.

Lemma limited_holds r :
  rl_enabled r = true -> rl_limited r = true -> (rl_max r * 7) mod w64 / 10 <= max_inmem r ->
  rl_step r RLimited = (mkRL (rl_size r) (rl_max r) (rl_gc r) (rl_tick r) (rl_tick_limited r) true, Some true).
Proof.
  intros He Hl Hm. rewrite rl_poll_keeps; rewrite verdict_enabled, Hl by exact He; [reflexivity|apply N.leb_le, Hm].
Qed.

Lemma stay_unlimited r :
  rl_enabled r = true -> rl_limited r = false -> max_inmem r <= rl_max r -> snd (rl_step r RLimited) = Some false.
Proof.
  intros He Hl Hm. rewrite rl_poll_keeps, Hl; [reflexivity|]. rewrite verdict_enabled, Hl by exact He. apply N.ltb_ge, Hm.
Qed.

(* a sane limit: at least 2, so that the 70% mark is positive, and 7*max fits uint64 *)
Lemma sane_enabled r : 2 <= rl_max r -> rl_max r * 7 < w64 -> rl_enabled r = true.
Proof.
  intros H2 Hw. unfold rl_enabled. apply andb_true_iff. split; [apply N.ltb_lt|apply negb_true_iff, N.eqb_neq]; unfold w64 in *; lia.
Qed.

Lemma drained_poll_unlimited r :
  rl_size r = 0 -> 2 <= rl_max r -> rl_max r * 7 < w64 -> rl_gc r = [] ->
  (rl_limited r = true -> change_tick_threshold < rl_tick r - rl_tick_limited r) ->
  snd (rl_step r RLimited) = Some false.
Proof.
  intros Hs H2 Hw Hg Hl. pose proof (sane_enabled r H2 Hw) as Hen.
  assert (Hmax : max_inmem r = 0) by (unfold max_inmem; fold (rl_gc r); rewrite Hg; exact Hs).
  destruct (rl_limited r) eqn:El.
  - apply unlimit_when_drained_proved; [exact Hen|exact El| |right; auto].
    rewrite Hmax, N.mod_small by exact Hw. apply N.div_str_pos. lia.
  - apply stay_unlimited; [exact Hen|exact El|rewrite Hmax; apply N.le_0_l].
Qed.

Lemma add_1_of_nat a k : a + 1 + N.of_nat k = a + N.of_nat (S k).
Proof. lia. Qed.

Lemma rl_ticks r n :
  fst (rl_run r (repeat RTick n)) =
  mkRL (rl_size r) (rl_max r) (rl_followers r) (rl_tick r + N.of_nat n) (rl_tick_limited r) (rl_limited r).
Proof.
  revert r. induction n as [|n IH]; intros r; cbn [repeat rl_run rl_step].
  - rewrite N.add_0_r. destruct r; reflexivity.
  - specialize (IH (mkRL (rl_size r) (rl_max r) (rl_followers r) (rl_tick r + 1) (rl_tick_limited r) (rl_limited r))).
    destruct (rl_run _ (repeat RTick n)) as [r2 l]. cbn [fst] in *. rewrite IH. cbn [rl_size rl_max rl_followers rl_tick rl_tick_limited rl_limited]. rewrite add_1_of_nat. reflexivity.
Qed.

Lemma reset_drained_unlimits r n :
  rl_inv r -> 2 <= rl_max r -> rl_max r * 7 < w64 -> change_tick_threshold < N.of_nat n ->
  snd (rl_step (fst (rl_run (fst (rl_step (fst (rl_step r RReset)) (RSet 0))) (repeat RTick n))) RLimited) = Some false.
Proof.
  intros Hi H2 Hw Hn. rewrite rl_ticks. apply drained_poll_unlimited; try assumption; try reflexivity.
  intros _. unfold rl_inv in Hi. cbn [rl_step fst rl_tick rl_tick_limited]. lia.
Qed.

Theorem huge_limit_never_recovers_refuted :
  exists max, 0 < max /\ max <> w64 - 1 /\
    forall n, snd (rl_step (fst (rl_run (mkRL 0 max [] 1 1 true) (repeat RTick n))) RLimited) = Some true.
Proof.
  exists 2635249153387078803. split; [reflexivity|]. split; [discriminate|]. intros n.
  rewrite rl_ticks, limited_holds; [reflexivity|reflexivity|reflexivity|apply N.le_0_l].
Qed.

Lemma quiesced_enabled q : q_quiesced q = true -> q_enabled q = true.
Proof. intros H. apply andb_true_iff in H. apply H. Qed.

Lemma exit_awake q : q_quiesced (q_exit_quiesce q) = false.
Proof. apply andb_false_r. Qed.

(* a QRecord is ignored only when it is a heartbeat to a replica that is awake or has just quiesced *)
Lemma record_taken q hb :
  hb && (negb (q_quiesced q) || q_new_to_quiesce q) = false -> q_quiesced (fst (q_step q (QRecord hb))) = false.
Proof.
  intros H. cbn [q_step]. destruct (q_enabled q) eqn:He; cbn [negb fst]; [|unfold q_quiesced; rewrite He; reflexivity].
  rewrite H. cbv zeta. destruct (q_quiesced (mkQ _ _ _ _ _ _ _)) eqn:Ec; [apply exit_awake|exact Ec].
Qed.

Lemma record_ignored q : q_enabled q = true -> negb (q_quiesced q) || q_new_to_quiesce q = true ->
  fst (q_step q (QRecord true)) = q.
Proof. intros He H. cbn [q_step]. rewrite He, H. reflexivity. Qed.

Lemma q_tick_enabled q : q_enabled q = true ->
  q_step q QTick =
  let q1 := mkQ true (q_election q) (q_now q + 1) (q_since q) (q_idle q) (q_exit q) (q_flag q) in
  let q2 := if negb (q_quiesced q) && (q_threshold q <? q_now q + 1 - q_idle q) then q_enter q1 else q1 in
  (q2, Some (q_quiesced q2)).
Proof. intros He. cbn [q_step]. unfold q_quiesced. rewrite He. reflexivity. Qed.

Lemma q_tick_awake q : q_enabled q = true -> q_quiesced q = false ->
  let q1 := mkQ true (q_election q) (q_now q + 1) (q_since q) (q_idle q) (q_exit q) (q_flag q) in
  q_quiesced q1 = false /\ q_quiesced (q_enter q1) = true /\
  q_step q QTick = if q_threshold q <? q_now q + 1 - q_idle q then (q_enter q1, Some true) else (q1, Some false).
Proof.
  intros He Hq q1. assert (H1 : q_quiesced q1 = false) by (unfold q_quiesced in *; rewrite He in Hq; exact Hq).
  assert (H2 : q_quiesced (q_enter q1) = true) by (apply N.ltb_lt, N.add_pos_r; reflexivity).
  rewrite (q_tick_enabled q He), Hq. cbv zeta. fold q1. cbn [negb andb]. destruct (_ <? _); rewrite ?H1, ?H2; auto.
Qed.

Lemma q_step_enabled q o : q_enabled (fst (q_step q o)) = q_enabled q.
Proof.
  destruct o as [|hb| |]; cbn [q_step]; [| | |reflexivity].
  - destruct (q_enabled q) eqn:He; cbn [negb fst]; [|exact He]. cbv zeta. destruct (_ && _); reflexivity.
  - destruct (q_enabled q) eqn:He; cbn [negb fst]; [|exact He]. destruct (hb && _); [exact He|]. cbv zeta.
    destruct (q_quiesced _); reflexivity.
  - destruct (q_just_exited q); [reflexivity|]. destruct (negb (q_quiesced q)); reflexivity.
Qed.
