(* L2, part 1: votes and elections.  Inductive invariant [inv1] and election safety. *)
From DB Require Import Model.RaftNet Model.RaftNetCfg Proofs.RaftNetLists.

Lemma upd_eq f i x : upd f i x i = x.
Proof. unfold upd. now rewrite Nat.eqb_refl. Qed.

Lemma upd_neq f i x j : j <> i -> upd f i x j = f j.
Proof. unfold upd. intros H. apply Nat.eqb_neq in H. now rewrite H. Qed.

Lemma updg_eq {A} (f : nat -> A) t x : updg f t x t = x.
Proof. unfold updg. now rewrite Nat.eqb_refl. Qed.

Lemma updg_neq {A} (f : nat -> A) t x u : u <> t -> updg f t x u = f u.
Proof. unfold updg. intros H. apply Nat.eqb_neq in H. now rewrite H. Qed.

(* case analysis on a step; all let-bound names are unfolded.  When the label and the
   state after are variables, plain case analysis does (and makes a far smaller proof term
   than inversion); a voter set or a state before that is not a variable is named first *)
Ltac inv_step H :=
  match type of H with
  | step ?V ?n ?l ?n' =>
    first [ is_var l; is_var n';
            first [ is_var V | let v := fresh "V" in remember V as v in * ];
            first [ is_var n | let m := fresh "n" in remember n as m in * ];
            destruct H
          | inversion H; subst; clear H ]
  end;
  repeat match goal with x := _ |- _ => subst x end; subst;
  cbv zeta in *; cbn [nodes msgs lead llog0 llog] in *.

(* resolve every [upd f k x j]: j = k (substituted) or j <> k *)
Ltac simp_upd :=
  repeat match goal with
  | |- context [upd _ ?k _ ?k] => rewrite upd_eq
  | H : context [upd _ ?k _ ?k] |- _ => rewrite upd_eq in H
  | Hne : ?j <> ?k |- context [upd _ ?k _ ?j] => rewrite (upd_neq _ k _ j Hne)
  | Hne : ?j <> ?k, H : context [upd _ ?k _ ?j] |- _ => rewrite (upd_neq _ k _ j Hne) in H
  | |- context [upd _ ?k _ ?j] =>
    destruct (Nat.eq_dec j k); [first [subst j | subst k] | ]
  | H : context [upd _ ?k _ ?j] |- _ =>
    destruct (Nat.eq_dec j k); [first [subst j | subst k] | ]
  end;
  cbn [term voted role log commit hcommit] in *.

Ltac simp_updg :=
  repeat match goal with
  | |- context [updg _ ?k _ ?k] => rewrite updg_eq
  | H : context [updg _ ?k _ ?k] |- _ => rewrite updg_eq in H
  | Hne : ?j <> ?k |- context [updg _ ?k _ ?j] => rewrite (updg_neq _ k _ j Hne)
  | Hne : ?j <> ?k, H : context [updg _ ?k _ ?j] |- _ => rewrite (updg_neq _ k _ j Hne) in H
  | |- context [updg _ ?k _ ?j] =>
    let E := fresh "Eg" in
    destruct (Nat.eq_dec j k) as [E|E]; [first [subst j | rewrite E in *] | ]
  | H : context [updg _ ?k _ ?j] |- _ =>
    let E := fresh "Eg" in
    destruct (Nat.eq_dec j k) as [E|E]; [first [subst j | rewrite E in *] | ]
  end.

(* split membership in a soup that was extended by explicit messages *)
Ltac msg_cases H :=
  simpl in H;
  repeat (destruct H as [H|H];
          [ first [ discriminate H | (inversion H; subst; clear H) ] | ]).

Lemma step_other V n l n' j : step V n l n' -> j <> actor l -> nodes n' j = nodes n j.
Proof.
  intros H Hne. inv_step H; cbn [actor] in Hne; rewrite ?upd_neq by assumption; reflexivity.
Qed.

(* a fact about node j after a step is settled by step_other unless j is the node that acted *)
Ltac acting j l Hstep :=
  destruct (Nat.eq_dec j (actor l)) as [->|?Hne];
  [|rewrite (step_other _ _ l _ j Hstep Hne)].

Section Election.
  Variable V : list id.
  Hypothesis V_nodup : NoDup V.

  Definition voted_msg (n : net) t w c : Prop := exists vl, In (Vote t w c vl) (msgs n).

  Definition vote_quorum (n : net) t c : Prop :=
    exists Q, is_quorum V Q /\ forall w, In w Q -> voted_msg n t w c.

  Definition I_vote_le n := forall t w c vl,
    In (Vote t w c vl) (msgs n) -> t <= term (nodes n w).
  Definition I_vote_cur n := forall t w c vl,
    In (Vote t w c vl) (msgs n) -> term (nodes n w) = t -> voted (nodes n w) = Some c.
  Definition I_one_vote n := forall t w c1 c2 vl1 vl2,
    In (Vote t w c1 vl1) (msgs n) -> In (Vote t w c2 vl2) (msgs n) -> c1 = c2.
  Definition I_role_term n := forall i,
    role (nodes n i) <> Follower -> 1 <= term (nodes n i).
  Definition I_lead_le n := forall t c,
    lead n t = Some c -> 1 <= t <= term (nodes n c).
  Definition I_lead_quorum n := forall t c,
    lead n t = Some c -> vote_quorum n t c.
  Definition I_lead_cand n := forall t c,
    lead n t = Some c -> term (nodes n c) = t -> role (nodes n c) <> Candidate.
  Definition I_leader n := forall i,
    role (nodes n i) = Leader -> lead n (term (nodes n i)) = Some i.

  (* the part of the election invariant that does not speak about quorums; it is
     inductive for [step V'] with ANY voter set V' as long as no term gets a second
     leader ([fresh]) -- which is where quorums come in (stage 1: fresh_fixed below;
     stage 3: from the configuration argument) *)
  Record inv1 (n : net) : Prop := {
    i_vote_le : I_vote_le n;
    i_vote_cur : I_vote_cur n;
    i_one_vote : I_one_vote n;
    i_role_term : I_role_term n;
    i_lead_le : I_lead_le n;
    i_lead_cand : I_lead_cand n;
    i_leader : I_leader n
  }.

  (* a BecomeLeader step happens in a term that had no leader so far *)
  Definition fresh (n : net) (l : label) : Prop :=
    forall i, l = LBecomeLeader i -> lead n (term (nodes n i)) = None.

  Lemma vote_quorum_unique n t c1 c2 :
    I_one_vote n -> vote_quorum n t c1 -> vote_quorum n t c2 -> c1 = c2.
  Proof.
    intros H1 (Q1 & (I1 & N1 & L1) & HQ1) (Q2 & (I2 & N2 & L2) & HQ2).
    destruct (quorum_intersect V Q1 Q2 I1 I2 N1 N2 L1 L2) as (x & Hx1 & Hx2).
    destruct (HQ1 x Hx1) as (vl1 & Hv1). destruct (HQ2 x Hx2) as (vl2 & Hv2).
    eapply H1; eauto.
  Qed.

  Lemma is_vote_true t c v m :
    is_vote t c v m = true -> exists vl, m = Vote t v c vl.
  Proof.
    destruct m; simpl; try discriminate. intros H.
    apply andb_prop in H. destruct H as [H H3]. apply andb_prop in H. destruct H as [H1 H2].
    apply Nat.eqb_eq in H1, H2, H3. subst. eauto.
  Qed.

  Lemma count_vote_quorum n t c :
    quorum V <= vote_count V (msgs n) t c -> vote_quorum n t c.
  Proof.
    intros H. unfold vote_count in H.
    destruct (filter_quorum V _ V_nodup H) as (Q & HQ & Hf).
    exists Q. split; [exact HQ|]. intros w Hw. specialize (Hf w Hw).
    apply existsb_exists in Hf. destruct Hf as (m & Hm & Hv).
    apply is_vote_true in Hv. destruct Hv as (vl & ->). now exists vl.
  Qed.

  Lemma candidate_quorum_not_led n i :
    inv1 n -> I_lead_quorum n -> role (nodes n i) = Candidate ->
    quorum V <= vote_count V (msgs n) (term (nodes n i)) i ->
    lead n (term (nodes n i)) = None.
  Proof.
    intros Hinv Hq0 Hrole Hq. destruct (lead n (term (nodes n i))) as [c|] eqn:Hl; [|reflexivity].
    exfalso.
    assert (c = i).
    { eapply vote_quorum_unique; [apply Hinv | apply Hq0; eauto | now apply count_vote_quorum]. }
    subst c. eapply (i_lead_cand n Hinv); eauto.
  Qed.

  (* with a fixed voter set, BecomeLeader is always fresh *)
  Lemma fresh_fixed n l n' : inv1 n -> I_lead_quorum n -> step V n l n' -> fresh n l.
  Proof.
    intros Hinv Hq Hstep i ->. inversion Hstep; subst.
    now apply candidate_quorum_not_led.
  Qed.

  Lemma voted_msg_mono n n' t w c :
    incl (msgs n) (msgs n') -> voted_msg n t w c -> voted_msg n' t w c.
  Proof. intros Hi (vl & H). exists vl. auto. Qed.

  Lemma vote_quorum_mono n n' t c :
    incl (msgs n) (msgs n') -> vote_quorum n t c -> vote_quorum n' t c.
  Proof.
    intros Hi (Q & HQ & H). exists Q. split; [exact HQ|].
    intros w Hw. eapply voted_msg_mono; eauto.
  Qed.

  Lemma step_msgs_incl n l n' : step V n l n' -> incl (msgs n) (msgs n').
  Proof.
    intros H. inv_step H; intros ? Hm; simpl; auto.
  Qed.

  Lemma step_term_mono n l n' i : step V n l n' -> term (nodes n i) <= term (nodes n' i).
  Proof.
    intros H. acting i l H; [|lia]. inv_step H; cbn [actor]; rewrite ?upd_eq; cbn [term]; lia.
  Qed.

  (* what a step does to the ghost fields: they change when a leader is made (the term gets
     its leader and that leader's log) and when the leader appends a proposal *)
  Lemma step_ghost n l n' :
    step V n l n' ->
    (lead n' = lead n /\ llog0 n' = llog0 n /\ llog n' = llog n) \/
    (exists i, l = LBecomeLeader i /\ role (nodes n i) = Candidate /\
       quorum V <= vote_count V (msgs n) (term (nodes n i)) i /\
       lead n' = updg (lead n) (term (nodes n i)) (Some i) /\
       llog0 n' = updg (llog0 n) (term (nodes n i)) (log (nodes n' i)) /\
       llog n' = updg (llog n) (term (nodes n i)) (log (nodes n' i)) /\
       log (nodes n' i) = log (nodes n i) ++ [noop (term (nodes n i))]) \/
    (exists i p, l = LPropose i p /\ role (nodes n i) = Leader /\
       lead n' = lead n /\ llog0 n' = llog0 n /\
       llog n' = updg (llog n) (term (nodes n i)) (log (nodes n' i)) /\
       log (nodes n' i) = log (nodes n i) ++ [mkE (term (nodes n i)) p]).
  Proof.
    intros H. destruct H; cbn [lead llog0 llog nodes]; auto.
    - right. left. exists i. rewrite upd_eq. auto 10.
    - right. right. exists i, p. rewrite upd_eq. auto 10.
  Qed.

  (* within a term a node never changes its vote *)
  Theorem vote_stable_in_term n l n' w c :
    step V n l n' -> voted (nodes n w) = Some c -> term (nodes n' w) = term (nodes n w) ->
    voted (nodes n' w) = Some c.
  Proof.
    intros Hstep. acting w l Hstep; [|auto].
    inv_step Hstep; cbn [actor]; rewrite ?upd_eq; cbn [term voted]; intros Hv Ht; auto; try lia.
    match goal with H : _ \/ _ |- _ => destruct H as [Hn|Hs] end; congruence.
  Qed.

  (* a candidate after a step has just timed out or was one before, untouched *)
  Lemma candidate_cases n l n' j :
    step V n l n' -> role (nodes n' j) = Candidate ->
    (l = LTimeout j /\ term (nodes n' j) = S (term (nodes n j)) \/
     role (nodes n j) = Candidate /\ term (nodes n' j) = term (nodes n j)) /\
    log (nodes n' j) = log (nodes n j) /\ commit (nodes n' j) = commit (nodes n j).
  Proof.
    intros Hstep. acting j l Hstep; [|auto].
    inv_step Hstep; cbn [actor]; rewrite ?upd_eq; intros Hr; try discriminate; auto.
  Qed.

  Lemma step_lead_mono n l n' t c :
    fresh n l -> step V n l n' -> lead n t = Some c -> lead n' t = Some c.
  Proof.
    intros Hf H Hl.
    destruct (step_ghost n l n' H) as [(-> & _)|[(i & -> & _ & _ & -> & _)|(i & p & _ & _ & -> & _)]];
      try assumption.
    destruct (Nat.eq_dec t (term (nodes n i))) as [->|Hne]; [|now rewrite updg_neq].
    rewrite (Hf i eq_refl) in Hl. discriminate.
  Qed.

  (* the votes and vote requests a step adds to the soup: a vote is cast by a node that
     had not voted for anybody else in that term, records its log, answers a request that
     finds this log not more up to date, and comes with no new acknowledgement *)
  Lemma new_vote n l n' T w c vl :
    step V n l n' -> In (Vote T w c vl) (msgs n') ->
    In (Vote T w c vl) (msgs n) \/
    (vl = log (nodes n w) /\ term (nodes n' w) = T /\ voted (nodes n' w) = Some c /\
     (term (nodes n w) < T \/
      term (nodes n w) = T /\ (voted (nodes n w) = None \/ voted (nodes n w) = Some c)) /\
     (forall t w' ldr k, In (Ack t w' ldr k) (msgs n') -> In (Ack t w' ldr k) (msgs n)) /\
     exists li lt, In (RV T c li lt) (msgs n') /\ up_to_date li lt vl = true).
  Proof.
    intros Hstep Hin.
    inv_step Hstep; msg_cases Hin; auto; right; rewrite upd_eq; cbn [term voted];
      (repeat split; auto; [intros t w' ldr k Ha; now msg_cases Ha|]).
    - do 2 eexists. split; [right; left; reflexivity|].
      unfold up_to_date. rewrite Nat.eqb_refl, Nat.leb_refl. simpl. apply orb_true_r.
    - exists li, lt. split; [now right | assumption].
  Qed.

  Lemma new_rv n l n' T c li lt :
    step V n l n' -> In (RV T c li lt) (msgs n') ->
    In (RV T c li lt) (msgs n) \/
    (l = LTimeout c /\ T = S (term (nodes n c)) /\ li = length (log (nodes n c)) /\
     lt = last_term (log (nodes n c))).
  Proof. intros Hstep Hin. inv_step Hstep; msg_cases Hin; auto. Qed.

  Lemma I_vote_le_step n l n' : inv1 n -> step V n l n' -> I_vote_le n'.
  Proof.
    intros Hinv Hstep t w c vl Hin. pose proof (step_term_mono n l n' w Hstep) as Hmono.
    destruct (new_vote n l n' t w c vl Hstep Hin) as [Hold|(_ & <- & _)]; [|lia].
    pose proof (i_vote_le n Hinv t w c vl Hold). lia.
  Qed.

  Lemma I_vote_cur_step n l n' : inv1 n -> step V n l n' -> I_vote_cur n'.
  Proof.
    intros Hinv Hstep t w c vl Hin Ht. pose proof (step_term_mono n l n' w Hstep) as Hmono.
    destruct (new_vote n l n' t w c vl Hstep Hin) as [Hold|(_ & _ & Hv & _)]; [|exact Hv].
    pose proof (i_vote_le n Hinv t w c vl Hold) as Hle.
    apply (vote_stable_in_term n l n' w c Hstep); [|lia].
    apply (i_vote_cur n Hinv t w c vl Hold). lia.
  Qed.

  Lemma I_one_vote_step n l n' : inv1 n -> step V n l n' -> I_one_vote n'.
  Proof.
    intros Hinv Hstep t w c1 c2 vl1 vl2 H1 H2.
    assert (Hmix : forall c c' vl, In (Vote t w c vl) (msgs n) ->
              term (nodes n w) < t \/
              term (nodes n w) = t /\ (voted (nodes n w) = None \/ voted (nodes n w) = Some c') ->
              c = c').
    { intros c c' vl Hold Hnew. pose proof (i_vote_le n Hinv t w c vl Hold) as Hle.
      destruct Hnew as [|(Ht & Hv)]; [lia|].
      pose proof (i_vote_cur n Hinv t w c vl Hold Ht). destruct Hv; congruence. }
    destruct (new_vote n l n' t w c1 vl1 Hstep H1) as [O1|(_ & _ & V1 & N1 & _)];
      destruct (new_vote n l n' t w c2 vl2 Hstep H2) as [O2|(_ & _ & V2 & N2 & _)].
    - exact (i_one_vote n Hinv t w c1 c2 vl1 vl2 O1 O2).
    - exact (Hmix c1 c2 vl1 O1 N2).
    - symmetry. exact (Hmix c2 c1 vl2 O2 N1).
    - congruence.
  Qed.

  Lemma I_role_term_step n l n' : inv1 n -> step V n l n' -> I_role_term n'.
  Proof.
    intros Hinv Hstep i.
    pose proof (i_role_term n Hinv i) as Hold.
    acting i l Hstep; [|exact Hold].
    inv_step Hstep; cbn [actor] in *; rewrite ?upd_eq; cbn [role term]; intros Hr;
      try (apply Hold; congruence); try lia; congruence.
  Qed.

  Lemma I_lead_le_step n l n' : inv1 n -> step V n l n' -> I_lead_le n'.
  Proof.
    intros Hinv Hstep t c Hl.
    pose proof (i_lead_le n Hinv t c) as Hold.
    pose proof (step_term_mono n l n' c Hstep) as Hmono.
    destruct (step_ghost n l n' Hstep)
      as [(E & _)|[(i & _ & Hr & _ & E & _)|(i & p & _ & _ & E & _)]];
      rewrite E in Hl; try (specialize (Hold Hl); lia).
    destruct (Nat.eq_dec t (term (nodes n i))) as [->|Hne].
    - rewrite updg_eq in Hl. injection Hl as <-.
      pose proof (i_role_term n Hinv i) as Hrt. split; [apply Hrt; congruence | lia].
    - rewrite (updg_neq _ _ _ _ Hne) in Hl. specialize (Hold Hl). lia.
  Qed.

  Lemma I_lead_quorum_step n l n' : I_lead_quorum n -> step V n l n' -> I_lead_quorum n'.
  Proof.
    intros Hq Hstep t c Hl.
    apply (vote_quorum_mono n n' t c (step_msgs_incl n l n' Hstep)).
    destruct (step_ghost n l n' Hstep)
      as [(E & _)|[(i & _ & _ & Hc & E & _)|(i & p & _ & _ & E & _)]];
      rewrite E in Hl; auto.
    destruct (Nat.eq_dec t (term (nodes n i))) as [->|Hne].
    - rewrite updg_eq in Hl. injection Hl as <-. now apply count_vote_quorum.
    - rewrite (updg_neq _ _ _ _ Hne) in Hl. auto.
  Qed.

  Lemma I_lead_cand_step n l n' : inv1 n -> step V n l n' -> I_lead_cand n'.
  Proof.
    intros Hinv Hstep t c.
    pose proof (i_lead_cand n Hinv t c) as Hold.
    pose proof (i_lead_le n Hinv t c) as Hle.
    inv_step Hstep; simp_upd; simp_updg; intros Hl Ht; auto; try discriminate;
      try (specialize (Hle Hl); lia); try congruence.
  Qed.

  Lemma I_leader_step n l n' : inv1 n -> fresh n l -> step V n l n' -> I_leader n'.
  Proof.
    intros Hinv Hf Hstep i.
    pose proof (i_leader n Hinv i) as Hold.
    inv_step Hstep; simp_upd; intros Hr; auto; try discriminate.
    - now rewrite updg_eq.
    - specialize (Hold Hr). simp_updg; auto.
      rewrite (Hf i0 eq_refl) in Hold. discriminate.
  Qed.

  Lemma inv1_step n l n' : inv1 n -> fresh n l -> step V n l n' -> inv1 n'.
  Proof.
    intros Hinv Hf Hstep. constructor.
    - eapply I_vote_le_step; eauto.
    - eapply I_vote_cur_step; eauto.
    - eapply I_one_vote_step; eauto.
    - eapply I_role_term_step; eauto.
    - eapply I_lead_le_step; eauto.
    - eapply I_lead_cand_step; eauto.
    - eapply I_leader_step; eauto.
  Qed.

  Lemma inv1_init : inv1 (init).
  Proof.
    constructor; red; simpl; intros; try contradiction; try discriminate; congruence.
  Qed.

  (* stage 1: inv1 together with the vote quorums of the fixed voter set *)
  Definition inv1q (n : net) : Prop := inv1 n /\ I_lead_quorum n.

  Lemma inv1q_step n l n' : inv1q n -> step V n l n' -> inv1q n'.
  Proof.
    intros (Hinv & Hq) Hstep. split.
    - eapply inv1_step; eauto. eapply fresh_fixed; eauto.
    - eapply I_lead_quorum_step; eauto.
  Qed.

  Lemma inv1q_init : inv1q (init).
  Proof. split; [apply inv1_init | intros t c H; discriminate]. Qed.

  Lemma inv1q_steps n ls n' : inv1q n -> steps V n ls n' -> inv1q n'.
  Proof.
    intros Hinv Hs. induction Hs; [assumption|]. apply IHHs. eapply inv1q_step; eauto.
  Qed.

  Lemma inv1q_reachable n : reachable V n -> inv1q n.
  Proof. intros (ls & Hs). eapply inv1q_steps; [apply inv1q_init | exact Hs]. Qed.

  Theorem one_vote_per_term n t w c1 c2 vl1 vl2 :
    reachable V n ->
    In (Vote t w c1 vl1) (msgs n) -> In (Vote t w c2 vl2) (msgs n) -> c1 = c2.
  Proof. intros Hr. apply (i_one_vote n (proj1 (inv1q_reachable n Hr))). Qed.

  Theorem election_safety n i j :
    reachable V n ->
    role (nodes n i) = Leader -> role (nodes n j) = Leader ->
    term (nodes n i) = term (nodes n j) -> i = j.
  Proof.
    intros Hr Hi Hj Ht. destruct (inv1q_reachable n Hr) as (Hinv & _).
    pose proof (i_leader n Hinv i Hi) as H1. pose proof (i_leader n Hinv j Hj) as H2.
    rewrite Ht in H1. congruence.
  Qed.

  (* a granted vote is the voter's recorded vote as long as it stays in that term *)
  Theorem grant_reflects_vote n t w c vl :
    reachable V n -> In (Vote t w c vl) (msgs n) ->
    t < term (nodes n w) \/ (term (nodes n w) = t /\ voted (nodes n w) = Some c).
  Proof.
    intros Hr Hin. destruct (inv1q_reachable n Hr) as (Hinv & _).
    pose proof (i_vote_le n Hinv _ _ _ _ Hin) as Hle.
    destruct (Nat.eq_dec (term (nodes n w)) t) as [E|E]; [|left; lia].
    right. split; [exact E|]. eapply (i_vote_cur n Hinv); eauto.
  Qed.

  (* a leader always owns a quorum of votes of its term *)
  Theorem leader_has_vote_quorum n i :
    reachable V n -> role (nodes n i) = Leader ->
    vote_quorum n (term (nodes n i)) i.
  Proof.
    intros Hr Hi. destruct (inv1q_reachable n Hr) as (Hinv & Hq).
    apply Hq. now apply (i_leader n Hinv).
  Qed.

End Election.
