(* C04 — lemmas about Model/Engine.v *)
From Coq Require Import List NArith Bool Lia.
From DB Require Import Model.Engine Proofs.ListFacts.
Import ListNotations.
Open Scope N_scope.

Definition fast_part (us : list update) := flat_map (apply_effects true) us.
Definition free_part (us : list update) :=
  flat_map (fun u => map (Send (ukey u)) (filter is_free (u_msgs u))) us.
Definition save_part (us : list update) := map Persist us.
Definition flag_part (us : list update) :=
  flat_map (fun u => if u_snap_index u =? 0 then [] else [RemoveFlag (ukey u) (u_snap_index u)]) us.
Definition slow_part (us : list update) := flat_map (apply_effects false) us.
Definition node_effects (u : update) : list effect :=
  LogAppend (ukey u) (u_save u) ::
  map (Send (ukey u)) (filter (fun m => negb (is_free m)) (u_msgs u)) ++ [CommitBack u].
Definition node_part (us : list update) := flat_map node_effects us.

Lemma split_app : forall {A} (x : A) X Y l1 l2,
  l1 ++ x :: l2 = X ++ Y -> In x X \/ exists l, l1 = X ++ l /\ l ++ x :: l2 = Y.
Proof.
  intros A x X. induction X as [|a X IH]; intros Y l1 l2 H.
  - right. exists l1. auto.
  - destruct l1 as [|b l1]; injection H as <- H; [left; left; reflexivity|].
    destruct (IH _ _ _ H) as [Hin|[l [-> <-]]]; [left; right; exact Hin|right; exists l; auto].
Qed.

Lemma split_not_in_prefix : forall {A} (x : A) X Y l1 l2,
  l1 ++ x :: l2 = X ++ Y -> ~ In x X -> exists l1', l1 = X ++ l1' /\ l1' ++ x :: l2 = Y.
Proof. intros A x X Y l1 l2 H Hn. destruct (split_app _ _ _ _ _ H); [contradiction|assumption]. Qed.

Lemma firstn_split_full : forall {A} n (L : list A) l1 x l2,
  firstn n L = l1 ++ x :: l2 -> L = l1 ++ x :: (l2 ++ skipn n L).
Proof.
  intros. rewrite <- (firstn_skipn n L) at 1. rewrite H. rewrite <- app_assoc. reflexivity.
Qed.

Lemma in_apply_effects : forall b u e, In e (apply_effects b u) ->
  u_fast u = b /\
  ((e = PushSnapshot (ukey u) (u_snap_index u) /\ u_snap_index u <> 0) \/
   (e = PushApply (ukey u) (u_committed u) /\ u_committed u <> [])).
Proof.
  intros b u e H. unfold apply_effects in H.
  destruct (Bool.eqb (u_fast u) b) eqn:E; [|destruct H].
  apply eqb_prop in E. split; [exact E|].
  unfold apply_stage_acts in H. cbn [flat_map aact_effects] in H.
  rewrite app_nil_r in H. apply in_app_or in H. destruct H as [H|H].
  - destruct (u_snap_index u =? 0) eqn:Z; [destruct H|].
    destruct H as [H|[]]. left. split; [auto|]. apply N.eqb_neq in Z. exact Z.
  - destruct (u_committed u) eqn:C; [destruct H|].
    destruct H as [H|[]]. right. split; [auto|discriminate].
Qed.

Lemma in_free_part : forall us e, In e (free_part us) ->
  exists u m, In u us /\ In m (u_msgs u) /\ is_free m = true /\ e = Send (ukey u) m.
Proof.
  intros us e [u [Hu H]]%in_flat_map.
  apply in_map_iff in H. destruct H as [m [E [H1 H2]%filter_In]]. eauto 6.
Qed.

Lemma in_flag_part : forall us e, In e (flag_part us) ->
  exists u, In u us /\ e = RemoveFlag (ukey u) (u_snap_index u).
Proof.
  intros us e [u [Hu H]]%in_flat_map.
  destruct (u_snap_index u =? 0); [destruct H|]. destruct H as [H|[]]. eauto.
Qed.

Lemma in_node_effects : forall u e, In e (node_effects u) ->
  e = LogAppend (ukey u) (u_save u) \/ e = CommitBack u \/
  exists m, In m (u_msgs u) /\ is_free m = false /\ e = Send (ukey u) m.
Proof.
  intros u e [H|[H|[H|[]]]%in_app_or]; auto.
  right. right. apply in_map_iff in H. destruct H as [m [E [H1 H2%negb_true_iff]%filter_In]]. eauto.
Qed.

(* The constructor of an effect, and for a Send whether the message is free-order, tells which
   part of a step it belongs to; only the two apply parts look alike. *)
Inductive tag := TgStep | TgPush | TgFree | TgPersist | TgFlag | TgNode.
Definition tag_of (e : effect) : tag :=
  match e with
  | StepNodes => TgStep
  | PushSnapshot _ _ | PushApply _ _ => TgPush
  | Send _ m => if is_free m then TgFree else TgNode
  | Persist _ => TgPersist
  | RemoveFlag _ _ => TgFlag
  | LogAppend _ _ | CommitBack _ => TgNode
  end.

Lemma tag_send : forall k m, is_free_order_message (m_type m) = false -> tag_of (Send k m) = TgNode.
Proof. intros k m H. unfold tag_of, is_free. rewrite H. reflexivity. Qed.

Lemma tag_apply : forall b us e, In e (flat_map (apply_effects b) us) -> tag_of e = TgPush.
Proof.
  intros b us e [u [_ H]]%in_flat_map. apply in_apply_effects in H.
  destruct H as [_ [[-> _]|[-> _]]]; reflexivity.
Qed.
Lemma tag_free : forall us e, In e (free_part us) -> tag_of e = TgFree.
Proof. intros us e (u & m & _ & _ & F & ->)%in_free_part. cbn [tag_of]. rewrite F. reflexivity. Qed.
Lemma tag_save : forall us e, In e (save_part us) -> tag_of e = TgPersist.
Proof. intros us e [u [<- _]]%in_map_iff. reflexivity. Qed.
Lemma tag_flag : forall us e, In e (flag_part us) -> tag_of e = TgFlag.
Proof. intros us e (u & _ & ->)%in_flag_part. reflexivity. Qed.
Lemma tag_node : forall us e, In e (node_part us) -> tag_of e = TgNode.
Proof.
  intros us e [u [_ H]]%in_flat_map. apply in_node_effects in H.
  destruct H as [->|[->|(m & _ & F & ->)]]; cbn [tag_of]; rewrite ?F; reflexivity.
Qed.

Definition before_node (us : list update) :=
  StepNodes :: fast_part us ++ free_part us ++ save_part us ++ flag_part us ++ slow_part us.

(* [before_node] without the StepNodes at its head *)
Definition before_tail (us : list update) :=
  fast_part us ++ free_part us ++ save_part us ++ flag_part us ++ slow_part us.

(* the shape of one step, from the GENERATED stage list: this is the lemma that stops
   holding when a call of engine.processSteps / node.processRaftUpdate is moved *)
Lemma process_step_split : forall us, process_step us = before_node us ++ node_part us.
Proof.
  intros us. unfold process_step, process_step_with, process_steps_stages.
  cbn [flat_map stage_effects app snapshot_saved_removes_flag].
  rewrite app_nil_r.
  rewrite (flat_map_ext (fun u => uact_effects u UaSendFree ++ [])
             (fun u => map (Send (ukey u)) (filter is_free (u_msgs u)))) by (intros; apply app_nil_r).
  rewrite (flat_map_ext (fun u => uact_effects u UaLogAppend ++
             uact_effects u UaSendRest ++ uact_effects u UaCommitBack ++ []) node_effects)
    by (intros; rewrite app_nil_r; reflexivity).
  unfold before_node. cbn [app]. rewrite <- !app_assoc. reflexivity.
Qed.

Lemma tag_before_tail : forall us e, In e (before_tail us) -> tag_of e <> TgStep /\ tag_of e <> TgNode.
Proof.
  unfold before_tail. intros us e H. rewrite !in_app_iff in H.
  destruct H as [H|[H|[H|[H|H]]]];
    [apply (tag_apply true) in H|apply tag_free in H|apply tag_save in H|apply tag_flag in H
    |apply (tag_apply false) in H]; rewrite H; split; discriminate.
Qed.

Lemma in_before_node : forall us e, In e (before_node us) ->
  e = StepNodes \/ In e (fast_part us) \/ In e (free_part us) \/ In e (save_part us) \/
  In e (flag_part us) \/ In e (slow_part us).
Proof.
  intros us e H. unfold before_node in H. destruct H as [H|H]; [left; auto|].
  rewrite !in_app_iff in H. tauto.
Qed.

Lemma tag_before_node : forall us e, In e (before_node us) -> tag_of e <> TgNode.
Proof.
  intros us e [<-|H]; [discriminate|]. exact (proj2 (tag_before_tail us e H)).
Qed.

(* the five parts before the per-node part contain no Send of a non-free-order message *)
Lemma nonfree_send_not_before_node : forall us k m,
  is_free m = false -> ~ In (Send k m) (before_node us).
Proof. intros us k m Hf H. exact (tag_before_node _ _ H (tag_send k m Hf)). Qed.

Lemma persist_in_before_node : forall us u, In u us -> In (Persist u) (before_node us).
Proof.
  intros. unfold before_node. right. rewrite !in_app_iff. right. right. left. apply in_map. assumption.
Qed.

(* an effect of the per-node part (LogAppend, a Send that is not free-order, CommitBack), in
   every prefix of a step, comes after the Persist of EVERY update of the batch *)
Theorem node_part_after_persists : forall us n l1 e l2,
  firstn n (process_step us) = l1 ++ e :: l2 -> tag_of e = TgNode ->
  In e (node_part us) /\ forall u, In u us -> In (Persist u) l1.
Proof.
  intros us n l1 e l2 H T. apply firstn_split_full in H.
  rewrite process_step_split in H at 1. symmetry in H.
  destruct (split_not_in_prefix _ _ _ _ _ H) as [l1' [-> E]].
  { intros Hin. exact (tag_before_node _ _ Hin T). }
  split; [rewrite <- E; apply in_elt|].
  intros u Hu. apply in_or_app. left. apply persist_in_before_node. exact Hu.
Qed.

Lemma send_in_node_part : forall us k m, In (Send k m) (node_part us) ->
  exists u, In u us /\ ukey u = k /\ In m (u_msgs u).
Proof.
  intros us k m [u [Hu H]]%in_flat_map. apply in_node_effects in H.
  destruct H as [H|[H|(m' & Hm & _ & H)]]; try discriminate. injection H as -> ->. eauto.
Qed.

Lemma persist_before_send_proved : forall us n l1 k m l2,
  firstn n (process_step us) = l1 ++ Send k m :: l2 ->
  is_free_order_message (m_type m) = false ->
  exists u, In u us /\ ukey u = k /\ In m (u_msgs u) /\ In (Persist u) l1.
Proof.
  intros us n l1 k m l2 H Hf.
  destruct (node_part_after_persists _ _ _ _ _ H (tag_send k m Hf)) as [Hin Hp].
  destruct (send_in_node_part _ _ _ Hin) as (u & Hu & Hk & Hm). eauto 6.
Qed.

Lemma send_before_persist_is_free_proved : forall us l1 k m l2 u,
  process_step us = l1 ++ Send k m :: l2 -> In u us -> ukey u = k -> In m (u_msgs u) ->
  ~ In (Persist u) l1 -> is_free_order_message (m_type m) = true.
Proof.
  intros us l1 k m l2 u H Hu _ _ Hn.
  destruct (is_free_order_message (m_type m)) eqn:F; [reflexivity|exfalso].
  rewrite <- (firstn_all (process_step us)) in H.
  exact (Hn (proj2 (node_part_after_persists _ _ _ _ _ H (tag_send k m F)) u Hu)).
Qed.

Lemma commit_back_after_persist_proved : forall us n l1 u l2,
  firstn n (process_step us) = l1 ++ CommitBack u :: l2 -> In (Persist u) l1.
Proof.
  intros us n l1 u l2 H.
  destruct (node_part_after_persists _ _ _ _ _ H eq_refl) as [[u' [Hu' Hin]]%in_flat_map Hp].
  apply in_node_effects in Hin. destruct Hin as [E|[E|(m & _ & _ & E)]]; try discriminate.
  injection E as ->. exact (Hp _ Hu').
Qed.

Lemma contig_from_bounds : forall es i e,
  contig_from i es = true -> In e es -> i <= e_index e /\ e_index e < i + N.of_nat (length es).
Proof.
  induction es as [|a es IH]; intros i e H Hin; [destruct Hin|].
  simpl in H. apply andb_true_iff in H. destruct H as [H1 H2]. apply N.eqb_eq in H1.
  destruct Hin as [Hin|Hin].
  - subst. cbn [length]. lia.
  - destruct (IH _ _ H2 Hin). cbn [length]. lia.
Qed.

Lemma contig_from_has : forall es i x,
  contig_from i es = true -> i <= x -> x < i + N.of_nat (length es) ->
  exists e, In e es /\ e_index e = x.
Proof.
  induction es as [|a es IH]; intros i x H Hl Hu.
  - cbn [length] in Hu. lia.
  - simpl in H. apply andb_true_iff in H. destruct H as [H1 H2]. apply N.eqb_eq in H1.
    destruct (N.eq_dec x i) as [E|E].
    + exists a. split; [left; reflexivity|]. congruence.
    + destruct (IH (i + 1) x H2) as [e [He1 He2]]; [lia| cbn [length] in Hu; lia|].
      exists e. split; [right; exact He1|exact He2].
Qed.

Lemma last_in : forall (es : list ent) d, es <> [] -> In (last es d) es.
Proof.
  induction es as [|a es IH]; intros d H; [congruence|].
  destruct es as [|b es]; [left; reflexivity|].
  right. apply IH. discriminate.
Qed.

Lemma contig_from_last : forall es i,
  es <> [] -> contig_from i es = true -> last_index es = i + N.of_nat (length es) - 1.
Proof.
  induction es as [|a es IH]; intros i Hne H; [congruence|].
  simpl in H. apply andb_true_iff in H. destruct H as [H1 H2]. apply N.eqb_eq in H1.
  destruct es as [|b es].
  - unfold last_index. cbn. lia.
  - unfold last_index in *. change (last (a :: b :: es) ent0) with (last (b :: es) ent0).
    rewrite (IH (i + 1)); [|discriminate|exact H2]. cbn [length]. lia.
Qed.

Lemma ranges_overlap_iff : forall a b,
  ranges_overlap a b = true <-> exists x y, In x a /\ In y b /\ e_index x = e_index y.
Proof.
  intros a b. unfold ranges_overlap. rewrite existsb_exists. split.
  - intros [x [Hx H]]. apply existsb_exists in H. destruct H as [y [Hy E]].
    apply N.eqb_eq in E. eauto.
  - intros [x [y [Hx [Hy E]]]]. exists x. split; [exact Hx|].
    apply existsb_exists. exists y. split; [exact Hy|]. apply N.eqb_eq. exact E.
Qed.

Lemma set_fast_apply_false_iff_proved : forall snap commit committed save,
  contig committed = true -> contig save = true ->
  validate_update commit committed save = true ->
  (set_fast_apply snap committed save = false <->
   snap <> 0 \/ ranges_overlap committed save = true).
Proof.
  intros snap commit committed save Hc Hs Hv.
  unfold set_fast_apply. rewrite ranges_overlap_iff.
  destruct (snap =? 0) eqn:Z; cbn [negb].
  2:{ apply N.eqb_neq in Z. split; [intros _; left; exact Z|reflexivity]. }
  apply N.eqb_eq in Z.
  destruct committed as [|c cs].
  { split; [discriminate|]. intros [H|(x & _ & [] & _)]. congruence. }
  destruct save as [|f ss].
  { split; [discriminate|]. intros [H|(_ & y & _ & [] & _)]. congruence. }
  unfold validate_update in Hv. apply andb_true_iff in Hv. destruct Hv as [_ Hv].
  apply negb_true_iff in Hv. apply N.ltb_ge in Hv.
  unfold contig, first_index in Hc, Hs. cbn [hd] in Hc, Hs.
  assert (Hla := contig_from_last (c :: cs) (e_index c) ltac:(discriminate) Hc).
  assert (Hls := contig_from_last (f :: ss) (e_index f) ltac:(discriminate) Hs).
  unfold first_index. cbn [hd].
  split.
  - intros H. apply negb_false_iff in H. apply andb_true_iff in H. destruct H as [H1 H2].
    apply N.leb_le in H1. apply N.leb_le in H2. right.
    exists (last (c :: cs) ent0).
    destruct (contig_from_has (f :: ss) (e_index f) (last_index (c :: cs)) Hs) as [y [Hy Ey]].
    + exact H1.
    + rewrite Hls in H2. cbn [length] in *. lia.
    + exists y. split; [apply last_in; discriminate|]. split; [exact Hy|].
      unfold last_index in Ey. congruence.
  - intros [H|[x [y [Hx [Hy E]]]]]; [congruence|].
    apply negb_false_iff. apply andb_true_iff.
    destruct (contig_from_bounds _ _ _ Hc Hx) as [Bx1 Bx2].
    destruct (contig_from_bounds _ _ _ Hs Hy) as [By1 By2].
    split; [apply N.leb_le|apply N.leb_le; exact Hv].
    rewrite Hla. unfold first_index in *. cbn [hd length] in *. lia.
Qed.

Lemma wf_update_parts : forall u, wf_update u = true ->
  contig (u_save u) = true /\ contig (u_committed u) = true /\
  validate_update (hs_commit (u_state u)) (u_committed u) (u_save u) = true /\
  u_fast u = set_fast_apply (u_snap_index u) (u_committed u) (u_save u).
Proof.
  intros u H. unfold wf_update in H.
  repeat (apply andb_true_iff in H; destruct H as [H ?]).
  repeat split; auto. apply eqb_prop. assumption.
Qed.

Lemma push_apply_origin : forall b us k es, In (PushApply k es) (flat_map (apply_effects b) us) ->
  exists u, In u us /\ u_fast u = b /\ ukey u = k /\ es = u_committed u.
Proof.
  intros b us k es [u [Hu H]]%in_flat_map. apply in_apply_effects in H.
  destruct H as [Hf [[E _]|[E _]]]; [discriminate|]. injection E as -> ->. eauto 6.
Qed.

(* a PushApply of the fast part belongs to an update without overlap (setFastApply); one of
   the slow part comes after the whole save part *)
Lemma apply_not_before_persist_proved : forall us n l1 k es l2,
  (forall u, In u us -> wf_update u = true) ->
  firstn n (process_step us) = l1 ++ PushApply k es :: l2 ->
  exists u, In u us /\ ukey u = k /\ es = u_committed u /\
    (ranges_overlap es (u_save u) = true -> In (Persist u) l1).
Proof.
  intros us n l1 k es l2 Hwf H.
  apply firstn_split_full in H. rewrite process_step_split in H at 1.
  unfold before_node in H. cbn [app] in H. rewrite <- !app_assoc in H.
  destruct l1 as [|e0 l1]; [discriminate|]. injection H as <- H. symmetry in H.
  destruct (split_app _ _ _ _ _ H) as [Hin|(la & -> & Ha)].
  - destruct (push_apply_origin _ _ _ _ Hin) as (u & Hu & Hf & Hk & He).
    exists u. repeat split; auto. intros Hov. exfalso.
    destruct (wf_update_parts u (Hwf u Hu)) as [Hs [Hc [Hv Hfa]]].
    enough (set_fast_apply (u_snap_index u) (u_committed u) (u_save u) = false) by congruence.
    apply (set_fast_apply_false_iff_proved _ _ _ _ Hc Hs Hv). right. subst es. exact Hov.
  - destruct (split_not_in_prefix _ _ _ _ _ Ha) as (lb & -> & Hb);
      [intros Hin; apply tag_free in Hin; discriminate|].
    destruct (split_not_in_prefix _ _ _ _ _ Hb) as (lc & -> & Hc);
      [intros Hin; apply tag_save in Hin; discriminate|].
    destruct (split_not_in_prefix _ _ _ _ _ Hc) as (ld & -> & Hd);
      [intros Hin; apply tag_flag in Hin; discriminate|].
    assert (Hin : In (PushApply k es) (slow_part us ++ node_part us)) by (rewrite <- Hd; apply in_elt).
    apply in_app_or in Hin. destruct Hin as [Hin|Hin]; [|apply tag_node in Hin; discriminate].
    destruct (push_apply_origin _ _ _ _ Hin) as (u & Hu & _ & Hk & He).
    exists u. repeat split; auto. intros _.
    right. rewrite !in_app_iff. right. right. left. apply in_map. exact Hu.
Qed.

Lemma key_eqb_eq : forall a b, key_eqb a b = true <-> a = b.
Proof.
  intros [a1 a2] [b1 b2]. unfold key_eqb. cbn [fst snd]. rewrite andb_true_iff, !N.eqb_eq.
  split; [intros [-> ->]; reflexivity|intros E; inversion E; auto].
Qed.

Definition persisted (k : key) (effs : list effect) : list update :=
  flat_map (fun e => match e with
                     | Persist u => if key_eqb (ukey u) k then [u] else []
                     | _ => [] end) effs.

Lemma persisted_app : forall k a b, persisted k (a ++ b) = persisted k a ++ persisted k b.
Proof. intros. unfold persisted. apply flat_map_app. Qed.

Lemma durable_persisted : forall k effs img,
  durable k effs img = fold_left persist_update (persisted k effs) img.
Proof.
  intros k effs. unfold durable. induction effs as [|e effs IH]; intros img; [reflexivity|].
  cbn [fold_left]. rewrite IH. unfold persisted. cbn [flat_map].
  destruct e; cbn [apply_effect app]; try reflexivity.
  destruct (key_eqb (ukey u) k); reflexivity.
Qed.

Lemma persisted_none : forall k l t,
  (forall e, In e l -> tag_of e = t) -> t <> TgPersist -> persisted k l = [].
Proof.
  intros k l t H Ht. induction l as [|e l IH]; [reflexivity|].
  unfold persisted. cbn [flat_map]. fold (persisted k l).
  rewrite IH by (intros e' He'; apply H; right; exact He').
  destruct e; try reflexivity. destruct Ht. rewrite <- (H (Persist u)); [reflexivity|left; reflexivity].
Qed.

Lemma persisted_save_part : forall k us,
  persisted k (save_part us) = filter (fun u => key_eqb (ukey u) k) us.
Proof.
  intros k us. induction us as [|u us IH]; [reflexivity|].
  unfold save_part, persisted in *. cbn [map flat_map filter]. rewrite IH.
  destruct (key_eqb (ukey u) k); reflexivity.
Qed.

Lemma in_persisted : forall k l u, In (Persist u) l -> ukey u = k -> In u (persisted k l).
Proof.
  intros k l u H E. unfold persisted. apply in_flat_map. exists (Persist u). split; [exact H|].
  apply key_eqb_eq in E. rewrite E. left. reflexivity.
Qed.

Lemma persisted_process_step : forall k us,
  persisted k (process_step us) = filter (fun u => key_eqb (ukey u) k) us.
Proof.
  intros k us. rewrite process_step_split. unfold before_node, fast_part, slow_part. cbn [app].
  change (persisted k (StepNodes :: ?l)) with (persisted k l). rewrite !persisted_app, persisted_save_part.
  rewrite (persisted_none _ _ _ (tag_apply true us)), (persisted_none _ _ _ (tag_free us)),
    (persisted_none _ _ _ (tag_flag us)), (persisted_none _ _ _ (tag_apply false us)),
    (persisted_none _ _ _ (tag_node us)) by discriminate.
  cbn [app]. rewrite !app_nil_r. reflexivity.
Qed.

Lemma filter_key_nodup : forall us u,
  NoDup (map ukey us) -> In u us -> filter (fun x => key_eqb (ukey x) (ukey u)) us = [u].
Proof.
  induction us as [|a us IH]; intros u Hnd Hin; [destruct Hin|].
  cbn [map] in Hnd. inversion Hnd as [|? ? Hn Hnd']; subst.
  cbn [filter]. destruct Hin as [Hin|Hin].
  - subst a. replace (key_eqb (ukey u) (ukey u)) with true by (symmetry; apply key_eqb_eq; reflexivity).
    f_equal. apply filter_nil. intros x Hx. destruct (key_eqb (ukey x) (ukey u)) eqn:E; [|reflexivity].
    destruct Hn. apply key_eqb_eq in E. rewrite <- E. apply in_map. exact Hx.
  - destruct (key_eqb (ukey a) (ukey u)) eqn:E.
    + exfalso. apply key_eqb_eq in E. apply Hn. rewrite E. apply in_map. exact Hin.
    + apply IH; assumption.
Qed.

Lemma app_singleton_in : forall {A} (a b : list A) (x : A), a ++ b = [x] -> In x a -> a = [x] /\ b = [].
Proof.
  intros A a b x H Hin. destruct a as [|y a]; [destruct Hin|].
  simpl in H. inversion H as [[E1 E2]]. apply app_eq_nil in E2. destruct E2; subst. auto.
Qed.

Lemma covers_free : forall img m, is_free_order_message (m_type m) = true -> covers img m = true.
Proof.
  intros img m H. unfold covers, covers_code, claims_term, is_free. rewrite H. reflexivity.
Qed.

Lemma crash_cut_safe_proved : forall us (imgs : key -> image) n k m,
  NoDup (map ukey us) ->
  (forall u, In u us -> update_covers (imgs (ukey u)) u = true) ->
  In (Send k m) (firstn n (process_step us)) ->
  covers (crash n (process_step us) k (imgs k)) m = true.
Proof.
  intros us imgs n k m Hnd Hcov Hin.
  destruct (is_free_order_message (m_type m)) eqn:F; [apply covers_free; exact F|].
  apply in_split in Hin. destruct Hin as [l1 [l2 Hsplit]].
  destruct (persist_before_send_proved us n l1 k m l2 Hsplit F) as [u [Hu [Hk [Hm Hp]]]].
  unfold crash. rewrite durable_persisted.
  assert (Hall : persisted k (firstn n (process_step us)) ++ persisted k (skipn n (process_step us)) = [u]).
  { rewrite <- persisted_app, firstn_skipn, persisted_process_step. rewrite <- Hk.
    apply filter_key_nodup; assumption. }
  assert (Hinp : In u (persisted k (firstn n (process_step us)))).
  { apply in_persisted; [|exact Hk]. rewrite Hsplit. apply in_or_app. left. exact Hp. }
  destruct (app_singleton_in _ _ _ Hall Hinp) as [E _]. rewrite E. cbn [fold_left].
  specialize (Hcov u Hu). unfold update_covers in Hcov. rewrite forallb_forall in Hcov.
  rewrite <- Hk. apply Hcov. exact Hm.
Qed.

(* one test of the cascade [covers_code] *)
Lemma covers_code_link : forall (b b' : bool) (x y : N), x <> 0 ->
  ((if b && negb b' then x else y) =? 0) = true <-> (b = true -> b' = true) /\ (y =? 0) = true.
Proof.
  intros [] [] x y Hx; cbn [andb negb]; rewrite ?(proj2 (N.eqb_neq _ _) Hx); intuition discriminate.
Qed.

Lemma covers_iff : forall img m,
  covers img m = true <->
  (claims_term m = true ->
   m_term m <= i_term img /\
   (is_vote_request m = true -> vote_ok img (m_term m) (m_from m) = true) /\
   (is_grant m = true -> vote_ok img (m_term m) (m_to m) = true) /\
   (is_ack m = true -> ack_ok img (m_term m) (m_logindex m) = true)).
Proof.
  intros img m. unfold covers, covers_code. rewrite <- N.leb_le.
  destruct (claims_term m); cbn [negb]; [|split; [discriminate|reflexivity]].
  destruct (m_term m <=? i_term img); cbn [negb].
  2:{ split; [discriminate|]. intros H. destruct (H eq_refl). discriminate. }
  rewrite !covers_code_link by discriminate. intuition.
Qed.

Lemma worker_loop_app : forall a b, worker_loop (a ++ b) = worker_loop a ++ worker_loop b.
Proof. intros. unfold worker_loop. apply flat_map_app. Qed.

Lemma worker_loop_one : forall b, worker_loop [b] = process_step b.
Proof. intros. unfold worker_loop. cbn [flat_map]. apply app_nil_r. Qed.

Lemma prefix_by_length : forall {A} (X Y l1 l2 : list A),
  X ++ Y = l1 ++ l2 -> (length X <= length l1)%nat -> exists l, l1 = X ++ l /\ Y = l ++ l2.
Proof.
  intros A X. induction X as [|a X IH]; intros Y l1 l2 H Hl.
  - exists l1. simpl in *. auto.
  - destruct l1 as [|b l1]; [simpl in Hl; lia|].
    simpl in H. inversion H; subst. simpl in Hl.
    destruct (IH Y l1 l2 H2 ltac:(lia)) as [l [E1 E2]]. exists l. subst. auto.
Qed.

Lemma later_effects_after_persist_proved : forall pre b post u l1 l2,
  In u b ->
  worker_loop (pre ++ b :: post) = l1 ++ l2 ->
  (length (worker_loop (pre ++ [b])) <= length l1)%nat ->
  In (Persist u) l1.
Proof.
  intros pre b post u l1 l2 Hu H Hl.
  change (b :: post) with ([b] ++ post) in H. rewrite app_assoc, worker_loop_app in H.
  destruct (prefix_by_length _ _ _ _ H Hl) as [l [-> _]].
  rewrite worker_loop_app, worker_loop_one, process_step_split, !in_app_iff.
  left. right. left. apply persist_in_before_node. exact Hu.
Qed.

Lemma leader_self_ack_after_persist_proved : forall pre b post u l1 k m l2 l3,
  In u b ->
  worker_loop (pre ++ b :: post) = l1 ++ Send k m :: l2 ++ StepNodes :: l3 ->
  (length (worker_loop pre) <= length l1)%nat ->
  In (Persist u) (l1 ++ Send k m :: l2).
Proof.
  intros pre b post u l1 k m l2 l3 Hu H Hl.
  change (b :: post) with ([b] ++ post) in H. rewrite !worker_loop_app, worker_loop_one in H.
  destruct (prefix_by_length _ _ _ _ H Hl) as [l [-> E]].
  rewrite process_step_split in E. change (before_node b) with (StepNodes :: before_tail b) in E.
  destruct l as [|e l]; [discriminate|]. injection E as <- E.
  (* the next StepNodes lies beyond the tail of this step *)
  change (Send k m :: l2 ++ StepNodes :: l3) with ((Send k m :: l2) ++ StepNodes :: l3) in E.
  rewrite app_assoc in E. symmetry in E.
  destruct (split_not_in_prefix _ _ _ _ _ E) as [l' [E' _]].
  { intros [Hin|Hin]%in_app_or; [exact (proj1 (tag_before_tail _ _ Hin) eq_refl)|apply tag_node in Hin; discriminate]. }
  rewrite <- app_assoc. apply in_or_app. right. right.
  change (In (Persist u) (l ++ Send k m :: l2)). rewrite E'.
  apply in_or_app. left. apply in_or_app. left.
  destruct (persist_in_before_node b u Hu) as [X|X]; [discriminate|exact X].
Qed.

Definition sends_of (evs : list tev) : list msg :=
  flat_map (fun e => match e with TSend m => [m] | _ => [] end) evs.

Record tinv (st : tstate) (sent : list msg) : Prop := {
  ti_ack_term : ts_ack_term st <= i_term (ts_img st);
  ti_cov : forall m, In m sent -> covers (ts_img st) m = true;
  ti_acks : forall m, In m sent -> is_ack m = true -> claims_term m = true ->
             m_term m < ts_ack_term st \/ (m_term m = ts_ack_term st /\ m_logindex m <= ts_ack_index st);
  ti_ack_dur : i_term (ts_img st) = ts_ack_term st -> ts_ack_index st <= last_durable (ts_img st) }.

Lemma tinv_init : forall img, tinv (tstate0 img) [].
Proof.
  intros img. split; cbn [tstate0 ts_img ts_ack_term ts_ack_index].
  - lia.
  - intros m [].
  - intros m [].
  - intros _. lia.
Qed.

Lemma persist_code_zero : forall st img',
  persist_code st img' = 0 ->
  i_term (ts_img st) <= i_term img' /\
  (i_term img' = i_term (ts_img st) -> i_vote (ts_img st) <> 0 -> i_vote img' = i_vote (ts_img st)) /\
  (i_term img' = ts_ack_term st -> ts_ack_index st <= last_durable img').
Proof.
  intros st img' H. unfold persist_code in H.
  destruct (i_term img' <? i_term (ts_img st)) eqn:A; [discriminate|]. apply N.ltb_ge in A.
  destruct ((i_term img' =? i_term (ts_img st)) && negb (i_vote (ts_img st) =? 0) &&
            negb (i_vote img' =? i_vote (ts_img st))) eqn:B; [discriminate|].
  destruct ((i_term img' =? ts_ack_term st) && negb (ts_ack_index st <=? last_durable img')) eqn:C; [discriminate|].
  split; [exact A|]. split.
  - intros E V. apply N.eqb_eq in E. apply N.eqb_neq in V. rewrite E, V in B. cbn [andb negb] in B.
    apply negb_false_iff in B. apply N.eqb_eq in B. exact B.
  - intros E. apply N.eqb_eq in E. rewrite E in C. cbn [andb] in C.
    apply negb_false_iff in C. apply N.leb_le in C. exact C.
Qed.

Lemma vote_ok_true : forall img t c,
  vote_ok img t c = true <-> t < i_term img \/ (i_term img = t /\ i_vote img = c /\ c <> 0).
Proof.
  intros. unfold vote_ok. rewrite orb_true_iff, !andb_true_iff, N.ltb_lt, !N.eqb_eq, negb_true_iff, N.eqb_neq.
  tauto.
Qed.
Lemma ack_ok_true : forall img t i,
  ack_ok img t i = true <-> t < i_term img \/ i <= last_durable img.
Proof. intros. unfold ack_ok. rewrite orb_true_iff, N.ltb_lt, N.leb_le. tauto. Qed.

(* a vote stays announced when the term does not fall and the vote of a term is not changed *)
Lemma vote_ok_mono : forall img img' t c,
  i_term img <= i_term img' ->
  (i_term img' = i_term img -> i_vote img <> 0 -> i_vote img' = i_vote img) ->
  vote_ok img t c = true -> vote_ok img' t c = true.
Proof.
  intros img img' t c Ht Hv. rewrite !vote_ok_true. intros [L|(E & V & Z)]; [left; lia|].
  destruct (N.eq_dec (i_term img') (i_term img)) as [E'|E']; [right|left; lia].
  rewrite (Hv E') by congruence. repeat split; congruence.
Qed.

(* the shadow is replaced by an image that passed persist_code: everything sent stays covered *)
Lemma tinv_new_image : forall st sent img',
  tinv st sent -> persist_code st img' = 0 ->
  tinv (mkTS img' (ts_ack_term st) (ts_ack_index st)) sent.
Proof.
  intros st sent img' [I1 I2 I3 I4] H.
  destruct (persist_code_zero _ _ H) as [Hterm [Hvote Hack]].
  split; cbn [ts_img ts_ack_term ts_ack_index];
    [exact (N.le_trans _ _ _ I1 Hterm)| |exact I3|exact Hack].
  intros m Hm. apply covers_iff. intros C.
  destruct (proj1 (covers_iff _ _) (I2 m Hm) C) as [T [V [G _]]].
  split; [exact (N.le_trans _ _ _ T Hterm)|]. split; [|split].
  - intros Hv. exact (vote_ok_mono _ _ _ _ Hterm Hvote (V Hv)).
  - intros Hg. exact (vote_ok_mono _ _ _ _ Hterm Hvote (G Hg)).
  - (* an acknowledgement of the ack term is below the ack index, which [img'] keeps *)
    intros Ha. apply ack_ok_true. specialize (I3 m Hm Ha C). clear - I1 I3 Hterm Hack. lia.
Qed.

Lemma trace_step_image : forall st e st' c,
  trace_step st e = (st', c) -> ts_img st' = tev_image (ts_img st) e.
Proof.
  intros st e st' c H. destruct e; cbn [trace_step] in H; injection H as <- _; try reflexivity.
  unfold note_ack. destruct (is_ack m && claims_term m); [|reflexivity].
  destruct (ts_ack_term st <? m_term m); [reflexivity|].
  destruct (ts_ack_term st =? m_term m); reflexivity.
Qed.

Lemma tinv_step : forall st sent e st',
  tinv st sent -> trace_step st e = (st', 0) -> tinv st' (sent ++ sends_of [e]).
Proof.
  intros st sent e st' I H. destruct e as [m|u|i|r|]; cbn [trace_step] in H;
    cbn [sends_of flat_map app]; rewrite ?app_nil_r.
  - injection H as <- Hc.
    assert (Hcov : covers (ts_img st) m = true) by (unfold covers; rewrite Hc; reflexivity).
    destruct I as [I1 I2 I3 I4].
    assert (I2' : forall m', In m' (sent ++ [m]) -> covers (ts_img st) m' = true).
    { intros m' [Hm'|[<-|[]]]%in_app_or; auto. }
    unfold note_ack. destruct (is_ack m && claims_term m) eqn:AC.
    2:{ split; auto. intros m' [Hm'|[<-|[]]]%in_app_or Ha' Hc'; auto. rewrite Ha', Hc' in AC. discriminate. }
    apply andb_true_iff in AC. destruct AC as [Ha Hcl].
    destruct (proj1 (covers_iff _ _) Hcov Hcl) as [T [_ [_ A]]].
    specialize (A Ha). apply ack_ok_true in A.
    assert (Hold : forall m', In m' (sent ++ [m]) -> is_ack m' = true -> claims_term m' = true ->
              m' = m \/ m_term m' < ts_ack_term st \/
              (m_term m' = ts_ack_term st /\ m_logindex m' <= ts_ack_index st)).
    { intros m' [Hm'|[<-|[]]]%in_app_or Ha' Hc'; auto. }
    (* the pair (ack term, ack index) becomes the lexicographic maximum with the new ack *)
    destruct (N.ltb_spec (ts_ack_term st) (m_term m)) as [L|L];
      [|destruct (N.eqb_spec (ts_ack_term st) (m_term m)) as [E|E]];
      (split; cbn [ts_img ts_ack_term ts_ack_index];
       [|exact I2'|intros m' Hm' Ha' Hc'; destruct (Hold m' Hm' Ha' Hc') as [->|K]; lia|]).
    + exact T.
    + clear - A. lia.
    + exact I1.
    + clear - A I4 E. lia.
    + exact I1.
    + exact I4.
  - injection H as <- Hc. apply tinv_new_image; assumption.
  - injection H as <- _. exact I.
  - injection H as <- Hc. apply tinv_new_image; [assumption|].
    unfold recover_code in Hc. destruct (persist_code st r =? 0) eqn:P; cbn [negb] in Hc.
    + apply N.eqb_eq in P. exact P.
    + apply N.eqb_neq in P. congruence.
  - discriminate.
Qed.

Lemma sends_of_app : forall a b, sends_of (a ++ b) = sends_of a ++ sends_of b.
Proof. intros. unfold sends_of. apply flat_map_app. Qed.

(* an accepted run accepts every prefix; after the prefix the invariant holds for what the
   prefix sent, over the durable shadow of the prefix *)
Lemma trace_run_prefix : forall l1 l2 st pos sent stf p,
  tinv st sent -> trace_run st pos (l1 ++ l2) = (stf, p, 0) ->
  exists st1 pos1, trace_run st1 pos1 l2 = (stf, p, 0) /\
    tinv st1 (sent ++ sends_of l1) /\ ts_img st1 = trace_image (ts_img st) l1.
Proof.
  induction l1 as [|e l1 IH]; intros l2 st pos sent stf p I H.
  - exists st, pos. cbn [sends_of flat_map]. rewrite app_nil_r. auto.
  - cbn [app trace_run] in H. destruct (trace_step st e) as [st' c] eqn:S.
    destruct (c =? 0) eqn:C; [|injection H as _ _ Hc; apply N.eqb_neq in C; congruence].
    apply N.eqb_eq in C. subst c.
    destruct (IH _ _ _ _ _ _ (tinv_step _ _ _ _ I S) H) as (st1 & pos1 & R & I1 & E).
    exists st1, pos1. split; [exact R|]. split.
    + change (e :: l1) with ([e] ++ l1). rewrite sends_of_app, app_assoc. exact I1.
    + rewrite E, (trace_step_image _ _ _ _ S). reflexivity.
Qed.

Lemma trace_ok_run : forall img evs, trace_ok img evs = true ->
  exists stf p, trace_run (tstate0 img) 0 evs = (stf, p, 0).
Proof.
  intros img evs H. unfold trace_ok in H.
  destruct (trace_run (tstate0 img) 0 evs) as [[stf p] c]. apply N.eqb_eq in H. subst c. eauto.
Qed.

Lemma trace_ok_crash_safe_proved : forall img evs,
  trace_ok img evs = true ->
  forall n m, In (TSend m) (firstn n evs) ->
  covers (trace_image img (firstn n evs)) m = true.
Proof.
  intros img evs H n m Hin. destruct (trace_ok_run _ _ H) as (stf & p & R).
  rewrite <- (firstn_skipn n evs) in R.
  destruct (trace_run_prefix _ _ _ _ _ _ _ (tinv_init img) R) as (st1 & _ & _ & I & E).
  cbn [tstate0 ts_img] in E. rewrite <- E.
  apply (ti_cov _ _ I). apply in_flat_map. exists (TSend m). split; [exact Hin|left; reflexivity].
Qed.

Lemma trace_ok_apply_durable_proved : forall img evs,
  trace_ok img evs = true ->
  forall l1 i l2, evs = l1 ++ TApply i :: l2 -> i <= last_durable (trace_image img l1).
Proof.
  intros img evs H l1 i l2 ->. destruct (trace_ok_run _ _ H) as (stf & p & R).
  destruct (trace_run_prefix _ _ _ _ _ _ _ (tinv_init img) R) as (st1 & pos1 & R1 & _ & E).
  cbn [tstate0 ts_img] in E. rewrite <- E.
  cbn [trace_run trace_step] in R1.
  destruct (i <=? last_durable (ts_img st1)) eqn:L; [apply N.leb_le; exact L|].
  cbn in R1. discriminate.
Qed.

Lemma free_order_set_proved : forall t,
  is_free_order_message t = true -> t = mt_Replicate \/ t = mt_Ping.
Proof.
  intros t H. unfold is_free_order_message in H. apply orb_true_iff in H.
  destruct H as [H|H]; apply N.eqb_eq in H; auto.
Qed.

Lemma free_order_excludes_claims_proved : forall m,
  is_free_order_message (m_type m) = true ->
  is_ack m = false /\ is_grant m = false /\ is_vote_request m = false /\
  (m_type m =? mt_HeartbeatResp) = false /\ (m_type m =? mt_RequestVoteResp) = false /\
  (m_type m =? mt_ReplicateResp) = false.
Proof.
  intros m H. unfold is_ack, is_grant, is_vote_request.
  destruct (free_order_set_proved _ H) as [-> | ->]; repeat split; reflexivity.
Qed.

Lemma same_claims_refl : forall a, same_claims a a.
Proof. intros. unfold same_claims. repeat split; reflexivity. Qed.
Lemma same_claims_trans : forall a b c, same_claims a b -> same_claims b c -> same_claims a c.
Proof.
  intros a b c [A1 [A2 [A3 [A4 A5]]]] [B1 [B2 [B3 [B4 B5]]]]. unfold same_claims. repeat split; congruence.
Qed.
Lemma same_claims_sym : forall a b, same_claims a b -> same_claims b a.
Proof. intros a b [A1 [A2 [A3 [A4 A5]]]]. unfold same_claims. repeat split; congruence. Qed.

Lemma covers_same_claims : forall a b m, same_claims a b -> covers a m = covers b m.
Proof.
  intros a b m [E1 [E2 [E3 [E4 E5]]]].
  unfold covers, covers_code, vote_ok, ack_ok, last_durable. rewrite E1, E2, E3, E4. reflexivity.
Qed.

(* the cached State, when there is one, is the State of the written image *)
Definition cache_inv (d : tan_db) : Prop :=
  is_empty_state (td_cache d) = false ->
  hs_term (td_cache d) = i_term (td_written d) /\ hs_vote (td_cache d) = i_vote (td_written d).

Definition tan_inv (d : tan_db) : Prop :=
  same_claims (td_synced d) (td_written d) /\
  (is_empty_state (td_cache d) = false ->
   hs_term (td_cache d) = i_term (td_written d) /\ hs_vote (td_cache d) = i_vote (td_written d)).

Lemma tan_inv_cache : forall d, tan_inv d -> cache_inv d.
Proof. intros d [_ H]. exact H. Qed.

Lemma tan_open_inv : forall img, tan_inv (tan_open img).
Proof.
  intros img. unfold tan_inv, tan_open, same_claims. cbn. repeat split; reflexivity.
Qed.

Lemma state_sync_change_false : forall fields a b f,
  state_sync_change fields a b = false -> In f fields -> sfield_get f a = sfield_get f b.
Proof.
  intros fields a b f H Hin. unfold state_sync_change in H.
  destruct (N.eq_dec (sfield_get f a) (sfield_get f b)) as [E|E]; [exact E|exfalso].
  assert (T : existsb (fun f => negb (sfield_get f a =? sfield_get f b)) fields = true).
  { apply existsb_exists. exists f. split; [exact Hin|]. apply negb_true_iff. apply N.eqb_neq. exact E. }
  congruence.
Qed.

(* db.write without the fsync: a record that needs no sync changes no claim *)
Lemma tan_append_props : forall d u d' s,
  cache_inv d -> state_wf u = true -> tan_append d u = (d', s) ->
  cache_inv d' /\ td_synced d' = td_synced d /\
  (s = false -> same_claims (td_written d') (td_written d)).
Proof.
  intros d u d' s Hc Hwf H. unfold tan_append in H.
  destruct (hstate_eqb (u_state u) (td_cache d) && (u_snap_index u =? 0) &&
            match u_save u with [] => true | _ => false end) eqn:Skip.
  { injection H as <- <-. split; [exact Hc|]. split; [reflexivity|]. intros _. apply same_claims_refl. }
  injection H as <- <-. cbn [td_written td_synced td_cache].
  split.
  { unfold cache_inv. cbn [td_cache td_written]. intros Ne. unfold persist_update. rewrite Ne. cbn. split; reflexivity. }
  split; [reflexivity|].
  intros S.
  unfold tan_sync_needed, tan_sync_on_snapshot, tan_sync_on_entries, tan_sync_on_state_change in S.
  cbn [andb] in S. apply orb_false_iff in S. destruct S as [S S3].
  apply orb_false_iff in S. destruct S as [S1 S2].
  apply negb_false_iff in S1. apply N.eqb_eq in S1.
  destruct (u_save u) eqn:Sv; [|discriminate].
  assert (ET := state_sync_change_false _ _ _ SfTerm S3 ltac:(cbn; tauto)).
  assert (EV := state_sync_change_false _ _ _ SfVote S3 ltac:(cbn; tauto)).
  cbn [sfield_get] in ET, EV.
  unfold same_claims, persist_update. rewrite Sv, S1. cbn [i_term i_vote i_log i_snap_index i_snap_term].
  rewrite (proj2 (N.ltb_ge _ 0) (N.le_0_l _)).
  destruct (is_empty_state (u_state u)) eqn:Em; [repeat split; reflexivity|].
  (* a State with a term: the cache has that term too, so it is the written one *)
  unfold state_wf in Hwf. rewrite Em in Hwf. cbn [orb] in Hwf. apply negb_true_iff in Hwf. apply N.eqb_neq in Hwf.
  assert (Ne : is_empty_state (td_cache d) = false).
  { unfold is_empty_state. destruct (hs_term (td_cache d) =? 0) eqn:Z; [|reflexivity].
    apply N.eqb_eq in Z. congruence. }
  destruct (Hc Ne) as [C1 C2]. repeat split; congruence.
Qed.

Lemma tan_fsync_inv : forall d, cache_inv d -> tan_inv (tan_fsync d).
Proof. intros d H. split; [apply same_claims_refl|exact H]. Qed.

(* db.write is the append followed by the fsync it asks for *)
Lemma tan_write_append : forall d u,
  tan_write d u = let '(d', s) := tan_append d u in (if s then tan_fsync d' else d', s).
Proof.
  intros d u. unfold tan_write, tan_append.
  destruct (_ && _ && _); [reflexivity|]. destruct (tan_sync_needed (td_cache d) u); reflexivity.
Qed.

Lemma tan_write_props : forall d u d' s,
  tan_inv d -> state_wf u = true -> tan_write d u = (d', s) ->
  tan_inv d' /\ (s = false -> same_claims (td_written d') (td_written d)).
Proof.
  intros d u d' s [Hs Hc] Hwf H. rewrite tan_write_append in H.
  destruct (tan_append d u) as [d1 s1] eqn:A.
  destruct (tan_append_props _ _ _ _ Hc Hwf A) as (C1 & S1 & W1). injection H as <- <-.
  destruct s1; [split; [apply tan_fsync_inv, C1|discriminate]|].
  split; [|exact W1]. split; [|exact C1].
  rewrite S1. exact (same_claims_trans _ _ _ Hs (same_claims_sym _ _ (W1 eq_refl))).
Qed.

Lemma fold_left_inv {A S} (f : S -> A -> S) (P : S -> Prop) (ok : A -> bool) :
  (forall s a, P s -> ok a = true -> P (f s a)) ->
  forall l s, P s -> forallb ok l = true -> P (fold_left f l s).
Proof.
  intros Hf. induction l as [|a l IH]; intros s I H; [exact I|].
  cbn [forallb] in H. apply andb_true_iff in H. destruct H. cbn [fold_left]. auto.
Qed.

Lemma tan_run_inv : forall us d, tan_inv d -> forallb state_wf us = true -> tan_inv (tan_run d us).
Proof.
  intros us d. apply fold_left_inv. intros d0 u I H.
  destruct (tan_write d0 u) as [d' s] eqn:W. exact (proj1 (tan_write_props d0 u d' s I H W)).
Qed.

Definition minv (m : mdb) : Prop := forall k, tan_inv (m k).

Lemma mupd_all : forall (P : key -> tan_db -> Prop) m k d,
  (forall k', P k' (m k')) -> P k d -> forall k', P k' (mupd m k d k').
Proof.
  intros P m k d Hm Hd k'. unfold mupd. destruct (key_eqb k' k) eqn:E; [|apply Hm].
  apply key_eqb_eq in E. subst k'. exact Hd.
Qed.

Lemma tan_mux_appends_props : forall us m f m' f',
  (forall k, cache_inv (m k)) -> forallb state_wf us = true ->
  tan_mux_appends m f us = (m', f') ->
  (forall k, cache_inv (m' k)) /\ (forall k, td_synced (m' k) = td_synced (m k)) /\
  (f' = false -> f = false /\ forall k, same_claims (td_written (m' k)) (td_written (m k))).
Proof.
  induction us as [|u us IH]; intros m f m' f' Hc Hwf H.
  - cbn in H. injection H as <- <-. split; [exact Hc|]. split; [reflexivity|].
    intros E. split; [exact E|]. intros k. apply same_claims_refl.
  - cbn [tan_mux_appends] in H. cbn [forallb] in Hwf. apply andb_true_iff in Hwf. destruct Hwf as [W1 W2].
    destruct (tan_append (m (ukey u)) u) as [d' s] eqn:A.
    destruct (tan_append_props _ _ _ _ (Hc (ukey u)) W1 A) as [P1 [P2 P3]].
    destruct (IH _ _ _ _ (mupd_all (fun _ => cache_inv) _ _ _ Hc P1) W2 H) as [Q1 [Q2 Q3]].
    split; [exact Q1|]. split.
    + intros k. rewrite Q2.
      apply (mupd_all (fun k d => td_synced d = td_synced (m k))); [reflexivity|exact P2].
    + intros E. destruct (Q3 E) as [Ef Qk].
      unfold sync_combine, tan_mux_sync_accumulates in Ef. apply orb_false_iff in Ef. destruct Ef as [Ef Es].
      split; [exact Ef|]. intros k. apply (same_claims_trans _ _ _ (Qk k)).
      apply (mupd_all (fun k d => same_claims (td_written d) (td_written (m k))));
        [intros; apply same_claims_refl|exact (P3 Es)].
Qed.

Lemma tan_mux_save_props : forall m us m' s,
  minv m -> forallb state_wf us = true -> tan_mux_save m us = (m', s) ->
  minv m' /\ (s = false -> forall k, same_claims (td_written (m' k)) (td_written (m k))).
Proof.
  intros m us m' s I Hwf H. unfold tan_mux_save in H.
  destruct (tan_mux_appends m false us) as [m1 flag] eqn:A.
  destruct (tan_mux_appends_props us m false m1 flag (fun k => tan_inv_cache _ (I k)) Hwf A) as [Q1 [Q2 Q3]].
  unfold tan_mux_sync_after_batch in H. rewrite andb_true_r in H.
  destruct flag; injection H as <- <-.
  - split; [|discriminate]. intros k. apply tan_fsync_inv. apply Q1.
  - destruct (Q3 eq_refl) as [_ Qk]. split; [|intros _; exact Qk].
    intros k. split; [|apply Q1].
    rewrite Q2. apply (same_claims_trans _ (td_written (m k))); [apply (proj1 (I k))|apply same_claims_sym; apply Qk].
Qed.

Lemma tan_mux_run_inv : forall batches m,
  minv m -> forallb (forallb state_wf) batches = true -> minv (tan_mux_run m batches).
Proof.
  intros batches m. apply fold_left_inv. intros m0 us I H.
  destruct (tan_mux_save m0 us) as [m' s] eqn:S. exact (proj1 (tan_mux_save_props m0 us m' s I H S)).
Qed.

Lemma tan_seq_save_inv : forall us m,
  minv m -> forallb state_wf us = true -> minv (tan_seq_save m us).
Proof.
  induction us as [|u us IH]; intros m I H; [exact I|].
  cbn [forallb] in H. apply andb_true_iff in H. destruct H as [H1 H2].
  cbn [tan_seq_save]. apply IH; [|exact H2].
  unfold tan_seq_sync_each. intros k. apply (mupd_all (fun _ => tan_inv) _ _ _ I).
  destruct (tan_write (m (ukey u)) u) as [d' s] eqn:W.
  exact (proj1 (tan_write_props _ _ _ _ (I (ukey u)) H1 W)).
Qed.

Lemma tan_seq_run_inv : forall batches m,
  minv m -> forallb (forallb state_wf) batches = true -> minv (tan_seq_run m batches).
Proof. intros batches m. apply fold_left_inv. intros m0 us. apply tan_seq_save_inv. Qed.

Lemma restart_keeps_durable_state_proved : forall img,
  same_claims (restart_image img) img /\ i_commit (restart_image img) = i_commit img.
Proof.
  intros img. unfold restart_image, replay_log_guards. cbn [existsb guard_fires orb].
  rewrite orb_false_r.
  destruct (store_empty img) eqn:E; [|split; [apply same_claims_refl|reflexivity]].
  unfold store_empty in E.
  repeat (apply andb_true_iff in E; destruct E as [E ?]).
  destruct (i_log img) eqn:L; [|discriminate].
  repeat match goal with H : (_ =? _) = true |- _ => apply N.eqb_eq in H end.
  unfold same_claims, image0. cbn. repeat split; congruence.
Qed.

Lemma tan_needed_file_not_obsolete_proved : forall nodes nf fn,
  In nf nodes ->
  (nf_state nf = fn \/ nf_snapshot nf = fn \/ In fn (nf_entries nf)) ->
  file_obsolete nodes fn = false.
Proof.
  intros nodes nf fn Hin H. unfold file_obsolete. apply negb_false_iff.
  apply existsb_exists. exists nf. split; [exact Hin|].
  unfold file_in_use, tan_file_in_use_fields. cbn [existsb fuse_holds].
  destruct H as [H|[H|H]].
  - subst fn. rewrite N.eqb_refl. rewrite orb_true_r. reflexivity.
  - subst fn. rewrite N.eqb_refl. reflexivity.
  - assert (E : existsb (N.eqb fn) (nf_entries nf) = true).
    { apply existsb_exists. exists fn. split; [exact H|apply N.eqb_refl]. }
    rewrite E. rewrite !orb_true_r. reflexivity.
Qed.

Lemma compaction_after_record_sound : forall effs recorded l1 l2,
  compaction_after_record recorded effs = true ->
  effs = l1 ++ EfCompactionScheduled :: l2 -> recorded = true \/ In EfRecorded l1.
Proof.
  induction effs as [|e effs IH]; intros recorded l1 l2 H E.
  - destruct l1; discriminate.
  - destruct l1 as [|x l1].
    + simpl in E. injection E as -> _. cbn in H. apply andb_true_iff in H. left. tauto.
    + simpl in E. injection E as -> E.
      destruct x; cbn [compaction_after_record] in H.
      * destruct (IH _ _ _ H E); [left; assumption|right; right; assumption].
      * destruct (IH _ _ _ H E); [left; assumption|right; right; assumption].
      * right. left. reflexivity.
      * apply andb_true_iff in H. left. tauto.
Qed.

Lemma do_save_compacts_only_recorded_proved : forall exported l1 l2,
  do_save_run exported do_save_steps = l1 ++ EfCompactionScheduled :: l2 -> In EfRecorded l1.
Proof.
  intros exported l1 l2 E.
  assert (H : compaction_after_record false (do_save_run exported do_save_steps) = true)
    by (destruct exported; vm_compute; reflexivity).
  destruct (compaction_after_record_sound _ _ _ _ H E) as [F|F]; [discriminate|exact F].
Qed.

Definition oinv (st : ostate) : Prop := os_snap st <= os_synced st.

Lemma odsm_step_inv : forall st e st', oinv st -> odsm_step st e = (st', 0) -> oinv st'.
Proof.
  intros st e st' I H. unfold oinv in *. destruct e; cbn [odsm_step] in H.
  - injection H as <-. exact I.
  - injection H as <-. cbn. lia.
  - destruct (os_synced st <? i) eqn:L; [injection H as _ H; discriminate|].
    apply N.ltb_ge in L. injection H as <-. cbn. lia.
  - destruct (r <? os_snap st) eqn:L; [injection H as _ H; discriminate|].
    apply N.ltb_ge in L. injection H as <-. cbn. lia.
  - injection H as _ H. discriminate.
Qed.

Lemma odsm_run_prefix_inv : forall evs st pos stf p,
  oinv st -> odsm_run st pos evs = (stf, p, 0) ->
  forall n, exists stn pn, odsm_run st pos (firstn n evs) = (stn, pn, 0) /\ oinv stn.
Proof.
  induction evs as [|e evs IH]; intros st pos stf p I H n.
  - rewrite firstn_nil. exists st, pos. split; [reflexivity|exact I].
  - destruct n as [|n]; [exists st, pos; split; [reflexivity|exact I]|].
    cbn [odsm_run] in H. cbn [firstn odsm_run].
    destruct (odsm_step st e) as [st' c] eqn:S.
    destruct (c =? 0) eqn:C.
    + apply N.eqb_eq in C. subst c.
      apply (IH st' (pos + 1) stf p (odsm_step_inv _ _ _ I S) H n).
    + injection H as _ _ Hc. apply N.eqb_neq in C. congruence.
Qed.

Lemma odsm_ok_snapshot_covered_proved : forall evs,
  odsm_ok evs = true ->
  forall n, exists stn pn, odsm_run (mkOS 0 0) 0 (firstn n evs) = (stn, pn, 0) /\
                           os_snap stn <= os_synced stn.
Proof.
  intros evs H n. unfold odsm_ok in H.
  destruct (odsm_run (mkOS 0 0) 0 evs) as [[stf p] c] eqn:R.
  apply N.eqb_eq in H. subst c.
  apply (odsm_run_prefix_inv evs (mkOS 0 0) 0 stf p); [unfold oinv; cbn; lia|exact R].
Qed.
