(* R17T: lemmas about Model/SendQueue.v. [sq_step true] is the step of the checked source, whose
   worker unregisters the queue on every exit; [sq_step false] unregisters on failures only. *)
From DB Require Import Model.SendQueue.
From Coq Require Import Permutation.
Open Scope N_scope.

Definition sq_inv (s : sq) : Prop :=
  sq_worker s = sq_registered s /\ (sq_registered s = false -> sq_queue s = []).

Lemma sq_init_inv : sq_inv sq_init.
Proof. split; reflexivity. Qed.

Definition accounted (s : sq) : list N := sq_delivered s ++ sq_lost s ++ sq_queue s.

Fixpoint sent (ops : list sqop) : list N :=
  match ops with
  | [] => []
  | SSend id :: t => id :: sent t
  | _ :: t => sent t
  end.

Lemma sq_step_inv s o : sq_inv s -> sq_inv (sq_step true s o).
Proof.
  destruct s as [r w q d l u]. unfold sq_inv. cbn [sq_worker sq_registered sq_queue]. intros [-> Hq].
  destruct o, r, q; cbn; split; auto; discriminate.
Qed.

(* the one step that moves a message: the worker takes the head of the queue *)
Lemma sq_step_accounted s o : sq_inv s -> Permutation (accounted (sq_step true s o)) (accounted s ++ sent [o]).
Proof.
  destruct s as [r w q d l u]. unfold sq_inv, accounted. cbn [sq_worker sq_registered sq_queue sq_delivered sq_lost]. intros [-> Hq].
  destruct o as [id| | |]; cbn [sq_step sent sq_registered sq_worker sq_queue]; rewrite ?app_nil_r.
  - destruct r; cbn [sq_delivered sq_lost sq_queue]; [|rewrite (Hq eq_refl), app_nil_r]; rewrite !app_assoc; reflexivity.
  - destruct r, q as [|m rest]; cbn [sq_delivered sq_lost sq_queue]; try reflexivity.
    rewrite <- app_assoc. apply Permutation_app_head, (Permutation_middle l rest m).
  - destruct r; cbn [sq_delivered sq_lost sq_queue]; rewrite ?app_nil_r; reflexivity.
  - destruct r, q; reflexivity.
Qed.

Lemma sq_run_inv ops : forall s, sq_inv s ->
  sq_inv (fold_left (sq_step true) ops s) /\ Permutation (accounted (fold_left (sq_step true) ops s)) (accounted s ++ sent ops).
Proof.
  induction ops as [|o ops IH]; intros s Hi; cbn [fold_left].
  - rewrite app_nil_r. split; [exact Hi|reflexivity].
  - destruct (IH _ (sq_step_inv s o Hi)) as [Hi2 Hp2]. split; [exact Hi2|].
    rewrite Hp2, (sq_step_accounted s o Hi), <- app_assoc. destruct o; reflexivity.
Qed.

Lemma orphaned_for_ever unreg ops : forall s, orphaned s = true ->
  orphaned (fold_left (sq_step unreg) ops s) = true /\
  sq_delivered (fold_left (sq_step unreg) ops s) = sq_delivered s /\
  sq_unreachable (fold_left (sq_step unreg) ops s) = sq_unreachable s.
Proof.
  induction ops as [|o ops IH]; intros s Ho; [auto|]. cbn [fold_left].
  assert (H : orphaned (sq_step unreg s o) = true /\ sq_delivered (sq_step unreg s o) = sq_delivered s /\
              sq_unreachable (sq_step unreg s o) = sq_unreachable s).
  { unfold orphaned in *. apply andb_true_iff in Ho. destruct Ho as [Hr Hw]. apply negb_true_iff in Hw.
    destruct o; cbn [sq_step]; rewrite ?Hr, ?Hw; cbn [andb sq_registered sq_worker sq_delivered sq_unreachable]; rewrite ?Hr, ?Hw; auto. }
  destruct H as (H1 & <- & <-). apply IH, H1.
Qed.

Theorem idle_exit_orphans_refuted :
  exists ops, orphaned (sq_run false ops) = true /\
    forall more, let s := fold_left (sq_step false) (map SSend more ++ [SDeliver; SDeliver]) (sq_run false ops) in
      sq_delivered s = sq_delivered (sq_run false ops) /\ sq_unreachable s = 0.
Proof.
  exists [SSend 1; SDeliver; SIdle]. split; [reflexivity|]. intros more. apply (orphaned_for_ever false). reflexivity.
Qed.
