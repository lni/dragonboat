(* C10 — proofs about the log db over a failing / crashing KV store (Model/LogDBFaulty.v).
   Everything is said through two relations between oracle states: no call in between was hit by
   the fault, and only read calls were made in between.  A staging loop of the save path does
   nothing but read; if it hands on a value, the value is the fault-free one and no call was hit.
   The outcome of an operation, the call trace of a save and the crash atomicity of runs are read
   off from that. *)
From Coq Require Import List NArith Bool Lia.
From DB Require Import Base.Bytes Gen.GenC09 Gen.GenC10 Model.LogStoreSpec Model.KV
  Model.LogDBPlain Model.LogDBBatched Model.LogDBFaulty.
Import ListNotations.
Open Scope N_scope.

Definition fired (s s' : fstate) (n : N) : Prop := f_calls s <= n < f_calls s'.

(* between s and s' no call was hit by the fault *)
Definition quiet (s s' : fstate) : Prop :=
  f_fault s' = f_fault s /\ f_calls s <= f_calls s' /\
  forall n ft, f_fault s = Some (n, ft) -> ~ fired s s' n.

Lemma quiet_refl : forall s, quiet s s.
Proof. intros s. unfold quiet, fired. repeat split; try lia. Qed.

Lemma quiet_trans : forall a b c, quiet a b -> quiet b c -> quiet a c.
Proof.
  unfold quiet, fired. intros a b c (F1 & L1 & Q1) (F2 & L2 & Q2). repeat split; try congruence; try lia.
  intros n ft H. specialize (Q1 n ft H). rewrite F1 in Q2. specialize (Q2 n ft H). lia.
Qed.

Lemma quiet_tick : forall c s, firing s = None -> quiet s (tick c s).
Proof.
  intros c s H. unfold quiet, fired, tick; cbn. repeat split; try lia.
  intros n ft E. unfold firing in H. rewrite E in H.
  destruct (f_calls s =? n) eqn:Q; [discriminate|]. apply N.eqb_neq in Q. lia.
Qed.

Definition read_only (l : list kvcall) : Prop := Forall (fun c => is_write c = false) l.

(* between s and s' only read calls were made (the trace is newest first) *)
Definition reads (s s' : fstate) : Prop :=
  exists l, f_trace s' = l ++ f_trace s /\ read_only l.

(* what a staging loop does to the oracle: it only reads, and if it went through (ok) no call
   of it was hit by the fault *)
Definition staged (ok : Prop) (s s' : fstate) : Prop := reads s s' /\ (ok -> quiet s s').

Lemma staged_refl : forall ok s, staged ok s s.
Proof. intros ok s. split; [exists []; split; [reflexivity|constructor] | intros _; apply quiet_refl]. Qed.

Lemma staged_impl : forall (P Q : Prop) s s', staged P s s' -> (Q -> P) -> staged Q s s'.
Proof. intros P Q s s' [R K] I. split; auto. Qed.

Lemma staged_trans : forall (P Q : Prop) a b c,
  staged P a b -> staged Q b c -> (Q -> P) -> staged Q a c.
Proof.
  intros P Q a b c [(l1 & E1 & R1) Q1] [(l2 & E2 & R2) Q2] I. split.
  - exists (l2 ++ l1). split; [now rewrite E2, E1, app_assoc | now apply Forall_app].
  - intros q. eapply quiet_trans; auto.
Qed.

Definition cval_ok {A} (r : cres A) : Prop := match r with CVal _ => True | _ => False end.
Definition hok {A} (r : hres A) : Prop := match r with HOk _ => True | _ => False end.

(* a staging loop run against the oracle from s, with result rs = (r, s'): it made only read
   calls, and - provided P - a value it hands on is v, the one its fault-free counterpart
   computes, and then no call was hit.  P is True, or f2 = true for the batched format: with
   f2 = false a failed GetValue is taken for "no such batch", so a value is handed on although a
   call was hit. *)
Definition cdoes {A} (P : Prop) (s : fstate) (v : A) (rs : cres A * fstate) : Prop :=
  let '(r, s') := rs in staged (P /\ cval_ok r) s s' /\ (P -> forall x, r = CVal x -> x = v).
Definition hdoes {A} (P : Prop) (s : fstate) (v : option A) (rs : hres A * fstate) : Prop :=
  let '(r, s') := rs in staged (P /\ hok r) s s' /\ (P -> forall x, r = HOk x -> v = Some x).

(* a staging loop that hands on a value without having made a call *)
Ltac no_call := split; [apply staged_refl | intros _; now intros x [= <-]].

Lemma rd_staged : forall A c (v : A) s, is_write c = false -> cdoes True s v (rd c v s).
Proof.
  intros A c v s Hc. unfold cdoes, rd. split; [split|].
  - exists [c]. split; [reflexivity|]. constructor; [exact Hc|constructor].
  - destruct (firing s) as [[| |]|] eqn:F; cbn; try tauto. intros _. now apply quiet_tick.
  - destruct (firing s) as [[| |]|]; now intros _ x [= <-].
Qed.

Lemma wr_cases : forall c m m' s,
  (wr c m m' s = (WOk, m', tick c s) /\ firing s = None) \/
  (wr c m m' s = (WIOErr, m, tick c s)) \/
  (wr c m m' s = (WCrash, m, tick c s)) \/
  (wr c m m' s = (WCrash, m', tick c s)).
Proof. intros. unfold wr. destruct (firing s) as [[| |]|]; auto. Qed.

Lemma save_snapshot_wb_f_staged : forall m n ss s,
  cdoes True s (save_snapshot_wb m n ss) (save_snapshot_wb_f m n ss s).
Proof.
  intros m n ss s. unfold cdoes, save_snapshot_wb_f. destruct (ss_emptyb ss) eqn:E.
  - split; [apply staged_refl|]. intros _ x [= <-]. unfold save_snapshot_wb. now rewrite E.
  - now apply rd_staged.
Qed.

Lemma save_head_over_head_state : forall m c u,
  save_head m c u =
  let n := u_node u in
  let '(c1, w1) := head_state c u in
  if ss_emptyb (u_ss u) then Some (c1, w1)
  else
    let (c2, ok) := cs_try_save_snapshot c1 n (ss_index (u_ss u)) in
    if ok then
      if negb (match u_ents u with [] => true | _ => false end)
         && (last_index (u_ents u) <? ss_index (u_ss u))
      then None
      else match save_snapshot_wb m n (u_ss u) with
           | None => None
           | Some w2 =>
             Some (cs_set_max_index c2 n (ss_index (u_ss u)),
                   w1 ++ w2 ++ [WPut (KMaxIndex n) (VMax (ss_index (u_ss u)))])
           end
    else Some (c2, w1).
Proof. intros. unfold save_head, head_state. reflexivity. Qed.

Lemma save_head_f_staged : forall m c u s, hdoes True s (save_head m c u) (save_head_f m c u s).
Proof.
  intros m c u s. rewrite save_head_over_head_state. unfold hdoes, save_head_f. cbv zeta.
  destruct (head_state c u) as [c1 w1].
  destruct (ss_emptyb (u_ss u)); [no_call|].
  destruct (cs_try_save_snapshot c1 (u_node u) (ss_index (u_ss u))) as [c2 ok].
  destruct ok; [|no_call].
  destruct (negb match u_ents u with [] => true | _ :: _ => false end
            && (last_index (u_ents u) <? ss_index (u_ss u))); [split; [apply staged_refl | intros _ x [=]]|].
  pose proof (save_snapshot_wb_f_staged m (u_node u) (u_ss u) s) as P.
  destruct (save_snapshot_wb_f m (u_node u) (u_ss u) s) as [[[w2|]| |] s1]; destruct P as [S1 V1];
    (split; [now apply (staged_impl _ _ _ _ S1)|]); intros _ x [=].
  subst x. now rewrite <- (V1 I _ eq_refl).
Qed.

Lemma save_heads_f_staged : forall m us c s, hdoes True s (save_heads m c us) (save_heads_f m c us s).
Proof.
  intros m us. unfold hdoes. induction us as [|u t IH]; intros c s; cbn [save_heads_f save_heads].
  - no_call.
  - pose proof (save_head_f_staged m c u s) as P.
    destruct (save_head_f m c u s) as [[[c1 w1]| |c0|] s1]; destruct P as [S1 V1];
      try (split; [exact S1 | intros _ x [=]]).
    rewrite (V1 I _ eq_refl). specialize (IH c1 s1).
    destruct (save_heads_f m c1 t s1) as [[[c2 w2]| |c0|] s2]; destruct IH as [S2 V2];
      (split; [now apply (staged_trans _ _ _ _ _ S1 S2)|]); intros _ x [=].
    subst x. now rewrite (V2 I _ eq_refl).
Qed.

Lemma b_merged_first_f_staged : forall f2 m cn n eb s,
  cdoes (f2 = true) s (b_merged_first m cn n eb) (b_merged_first_f f2 m cn n eb s).
Proof.
  intros f2 m cn n eb s. unfold cdoes, b_merged_first_f, b_merged_first.
  destruct eb as [|e0 eb']; [no_call|].
  destruct (e_index e0 mod bsz =? 0); [no_call|].
  cbv zeta.
  pose proof (rd_staged _ (CGet (KBatch n (batch_id (e_index e0)))) (get_batch_from_db m n (batch_id (e_index e0))) s eq_refl) as P.
  destruct (rd (CGet (KBatch n (batch_id (e_index e0)))) (get_batch_from_db m n (batch_id (e_index e0))) s)
    as [r0 s0]. destruct P as [S0 V0].
  assert (FD : cdoes (f2 = true) s
      match get_batch_from_db m n (batch_id (e_index e0)) with
      | None => None
      | Some None => Some (e0 :: eb')
      | Some (Some lb) => merge_first_batch (e0 :: eb') lb
      end
      match r0 with
      | CVal None => (CVal None, s0)
      | CVal (Some None) => (CVal (Some (e0 :: eb')), s0)
      | CVal (Some (Some lb)) => (CVal (merge_first_batch (e0 :: eb') lb), s0)
      | CIOErr => if f2 then (CIOErr, s0) else (CVal (Some (e0 :: eb')), s0)
      | CCrash => (CCrash, s0)
      end).
  { unfold cdoes. destruct r0 as [[[lb|]|]| |]; try rewrite <- (V0 I _ eq_refl); try destruct f2;
      (split; [apply (staged_impl _ _ _ _ S0); cbn; intuition discriminate|]);
      intros F x E1; try discriminate; injection E1 as <-; reflexivity. }
  destruct (c_batch cn) as [[|l0 lr]|].
  - no_call.
  - destruct (batch_id (e_index e0) <? batch_id (e_index l0)); [exact FD|no_call].
  - exact FD.
Qed.

Lemma record_groups_f_staged : forall f2 m n fid lid gs cn s,
  cdoes (f2 = true) s (record_groups m n fid lid cn gs) (record_groups_f f2 m n fid lid cn gs s).
Proof.
  intros f2 m n fid lid gs. unfold cdoes. induction gs as [|g rest IH]; intros cn s;
    cbn [record_groups_f record_groups].
  - no_call.
  - destruct g as [|e0 g']; [apply IH|].
    assert (P : cdoes (f2 = true) s
      (if fid =? batch_id (e_index e0) then b_merged_first m cn n (e0 :: g') else Some (e0 :: g'))
      (if fid =? batch_id (e_index e0) then b_merged_first_f f2 m cn n (e0 :: g') s
       else (CVal (Some (e0 :: g')), s))).
    { destruct (fid =? batch_id (e_index e0)); [apply b_merged_first_f_staged|no_call]. }
    unfold cdoes in P.
    destruct (if fid =? batch_id (e_index e0) then b_merged_first_f f2 m cn n (e0 :: g') s else _) as [r1 s1].
    destruct P as [S1 V1].
    destruct r1 as [[meb|]| |]; try (split; [exact S1 | intros F x [= <-]; now rewrite <- (V1 F _ eq_refl)]).
    specialize (IH (if lid =? batch_id (e_index e0) then mkC (c_state cn) (c_max cn) (c_snap cn) (Some meb) else cn) s1).
    destruct (record_groups_f f2 m n fid lid _ rest s1) as [r2 s2]. destruct IH as [S2 V2].
    assert (S : staged (f2 = true /\ cval_ok r2) s s2) by (apply (staged_trans _ _ _ _ _ S1 S2); cbn; tauto).
    destruct r2 as [[[cn2 w]|]| |]; (split; [exact S|]); intros F x [= <-];
      rewrite <- (V1 F _ eq_refl), <- (V2 F _ eq_refl); reflexivity.
Qed.

Lemma b_record_f_staged : forall f2 m c n es s,
  cdoes (f2 = true) s (b_record m c n es) (b_record_f f2 m c n es s).
Proof.
  intros f2 m c n es s. unfold cdoes, b_record_f, b_record.
  destruct es as [|e0 es']; [no_call|].
  pose proof (record_groups_f_staged f2 m n (batch_id (e_index e0)) (batch_id (e_index (last (e0 :: es') e0)))
                (split_batches [] (e0 :: es')) (c n) s) as P.
  destruct (record_groups_f f2 m n _ _ (c n) _ s) as [r1 s1]. destruct P as [S1 V1].
  destruct r1 as [[[cn w]|]| |]; (split; [exact S1|]); intros F x [= <-];
    rewrite <- (V1 F _ eq_refl); reflexivity.
Qed.

Lemma b_save_tail_f_staged : forall f2 m c u s,
  hdoes (f2 = true) s (b_save_tail m c u) (b_save_tail_f f2 m c u s).
Proof.
  intros f2 m c u s. unfold hdoes, cdoes, b_save_tail_f, b_save_tail.
  destruct (u_ents u) as [|e0 es']; [no_call|].
  pose proof (b_record_f_staged f2 m c (u_node u) (e0 :: es') s) as P.
  destruct (b_record_f f2 m c (u_node u) (e0 :: es') s) as [r1 s1]. destruct P as [S1 V1].
  destruct r1 as [[[[c1 w] mi]|]| |]; try destruct (0 <? mi) eqn:M;
    (split; [now apply (staged_impl _ _ _ _ S1)|]); intros F x [= <-];
    rewrite <- (V1 F _ eq_refl), ?M; reflexivity.
Qed.

Lemma b_save_tails_f_staged : forall f2 m us c s,
  hdoes (f2 = true) s (b_save_tails m c us) (b_save_tails_f f2 m c us s).
Proof.
  intros f2 m us. unfold hdoes. induction us as [|u t IH]; intros c s; cbn [b_save_tails_f b_save_tails].
  - no_call.
  - pose proof (b_save_tail_f_staged f2 m c u s) as P.
    destruct (b_save_tail_f f2 m c u s) as [[[c1 w1]| |c0|] s1]; destruct P as [S1 V1];
      try (split; [exact S1 | intros F x [=]]).
    specialize (IH c1 s1). destruct (b_save_tails_f f2 m c1 t s1) as [r2 s2]. destruct IH as [S2 V2].
    assert (S : staged (f2 = true /\ hok r2) s s2) by (apply (staged_trans _ _ _ _ _ S1 S2); cbn; tauto).
    destruct r2 as [[c2 w2]| |c0|]; (split; [exact S|]); intros F x [= <-].
    now rewrite (V1 F _ eq_refl), (V2 F _ eq_refl).
Qed.

Lemma save_snapshots_wb_f_staged : forall m us c s,
  hdoes True s (save_snapshots_wb m c us) (save_snapshots_wb_f m c us s).
Proof.
  intros m us. unfold hdoes. induction us as [|u t IH]; intros c s; cbn [save_snapshots_wb_f save_snapshots_wb].
  - no_call.
  - destruct (ss_emptyb (u_ss u)); [apply IH|].
    destruct (cs_try_save_snapshot c (u_node u) (ss_index (u_ss u))) as [c1 ok]. destruct ok; [|apply IH].
    pose proof (save_snapshot_wb_f_staged m (u_node u) (u_ss u) s) as P.
    destruct (save_snapshot_wb_f m (u_node u) (u_ss u) s) as [[[w1|]| |] s1]; destruct P as [S1 V1];
      try (split; [now apply (staged_impl _ _ _ _ S1) | intros _ x [=]]).
    rewrite <- (V1 I _ eq_refl). specialize (IH c1 s1).
    destruct (save_snapshots_wb_f m c1 t s1) as [[[c2 w2]| |c0|] s2]; destruct IH as [S2 V2];
      (split; [now apply (staged_trans _ _ _ _ _ S1 S2)|]); intros _ x [=].
    subst x. now rewrite (V2 I _ eq_refl).
Qed.

Definition ref_save (batched : bool) (d : pdb) (us : list update) : option pdb :=
  if batched then b_save_raft_state d us else p_save_raft_state d us.

(* the possible outcomes of an operation of the REPAIRED code, whatever the fault:
   - it did not succeed and the durable map is untouched, or
   - the durable map is the one of the complete fault-free operation (and if it reports
     success the cache is the fault-free one too and no call was hit by the fault), or
   - (RemoveNodeData only) it did not succeed and its write batch is in, its range delete is not *)
Definition outcome (batched : bool) (d : fdb) (o : op) (r : fres) (d' : fdb) : Prop :=
  (r <> FOk /\ d_kv d' = d_kv d) \/
  (exists p', ref_step batched (pdb_of d) o = Some p' /\ d_kv d' = p_kv p' /\
              (r = FOk -> d_cache d' = p_cache p' /\ quiet (d_st d) (d_st d'))) \/
  (r <> FOk /\ exists n l, o = ORemNode n /\ list_snapshots (d_kv d) n = Some l /\
                           d_kv d' = kv_commit (d_kv d) (remove_node_wb n l)).

Lemma outcome_same : forall b d o r c s, r <> FOk -> outcome b d o r (mkFD (d_kv d) c s).
Proof. intros. left. split; [assumption|reflexivity]. Qed.

Lemma fres_of_ok : forall r, fres_of r = FOk -> r = WOk.
Proof. destruct r; cbn; congruence. Qed.

Lemma wr_result : forall c m m' s c0 r d',
  (let '(r0, m0, s1) := wr c m m' s in (fres_of r0, mkFD m0 c0 s1)) = (r, d') ->
  d_cache d' = c0 /\ f_trace (d_st d') = c :: f_trace s /\
  ((r <> FOk /\ d_kv d' = m) \/ (d_kv d' = m' /\ (r = FOk -> quiet s (d_st d')))).
Proof.
  intros c m m' s c0 r d' H.
  destruct (wr_cases c m m' s) as [[E F]|[E|[E|E]]]; rewrite E in H; injection H as <- <-; cbn;
    (split; [reflexivity|]); (split; [reflexivity|]).
  - right. split; auto. intros _. now apply quiet_tick.
  - left. split; auto. discriminate.
  - left. split; auto. discriminate.
  - right. split; auto. discriminate.
Qed.

(* the staging went through unhit and yields (c, w), which is what the fault-free operation
   commits: whatever happens to the commit, the outcome is one of the first two *)
Lemma commit_f_outcome : forall b d o c w s r d',
  ref_step b (pdb_of d) o = Some (mkDB (kv_commit (d_kv d) w) c) -> quiet (d_st d) s ->
  commit_f d c w s = (r, d') -> outcome b d o r d'.
Proof.
  intros b d o c w s r d' E Q H.
  assert (K : (r <> FOk /\ d_kv d' = d_kv d) \/
              (d_kv d' = kv_commit (d_kv d) w /\ (r = FOk -> d_cache d' = c /\ quiet s (d_st d')))).
  { unfold commit_f in H. destruct w as [|x w'].
    - injection H as <- <-. right. cbn. split; auto. intros _. split; auto. apply quiet_refl.
    - apply wr_result in H as (C & _ & [K|[K Q']]); [now left|]. right. split; auto. }
  destruct K as [K|[K S]]; [now left|]. right; left. eexists. split; [exact E|]. split; [exact K|].
  intros R. destruct (S R) as [C Q3]. split; [exact C|]. eapply quiet_trans; eauto.
Qed.

Lemma save_raft_state_outcome : forall b d us r d',
  f_save_raft_state b true true d us = (r, d') -> outcome b d (OSave us) r d'.
Proof.
  intros b d us r d' H. unfold f_save_raft_state in H.
  pose proof (save_heads_f_staged (d_kv d) us (d_cache d) (d_st d)) as P.
  destruct (save_heads_f (d_kv d) (d_cache d) us (d_st d)) as [[[c1 w1]| |c|] s1];
    try (injection H as <- <-; apply outcome_same; discriminate).
  destruct P as [[_ Q1] EH]. specialize (Q1 (conj I I)). specialize (EH I _ eq_refl).
  unfold save_tails_f in H. destruct b.
  - pose proof (b_save_tails_f_staged true (d_kv d) us c1 s1) as P.
    destruct (b_save_tails_f true (d_kv d) c1 us s1) as [[[c2 w2]| |c|] s2];
      try (injection H as <- <-; apply outcome_same; discriminate).
    destruct P as [[_ Q2] ET]. specialize (Q2 (conj eq_refl I)). specialize (ET eq_refl _ eq_refl).
    eapply commit_f_outcome; [|exact (quiet_trans _ _ _ Q1 Q2)|exact H].
    cbn [ref_step batched_step]. unfold b_save_raft_state, pdb_of. cbn [p_kv p_cache]. now rewrite EH, ET.
  - destruct (save_tails plain_record c1 us) as [c2 w2] eqn:ET.
    eapply commit_f_outcome; [|exact Q1|exact H].
    cbn [ref_step plain_step]. unfold p_save_raft_state, save_wb, pdb_of. cbn [p_kv p_cache]. now rewrite EH, ET.
Qed.

Lemma save_snapshots_outcome : forall b d n ss r d',
  f_save_snapshots true d [mk_snap_update n ss] = (r, d') -> outcome b d (OSnap n ss) r d'.
Proof.
  intros b d n ss r d' H. unfold f_save_snapshots in H.
  pose proof (save_snapshots_wb_f_staged (d_kv d) [mk_snap_update n ss] (d_cache d) (d_st d)) as P.
  destruct (save_snapshots_wb_f (d_kv d) (d_cache d) [mk_snap_update n ss] (d_st d))
    as [[[c1 w1]| |c|] s1];
    try (injection H as <- <-; apply outcome_same; discriminate).
  destruct P as [[_ Q1] EH]. specialize (Q1 (conj I I)). specialize (EH I _ eq_refl).
  eapply commit_f_outcome; [|exact Q1|exact H].
  destruct b; cbn [ref_step plain_step batched_step]; unfold p_save_snapshots, pdb_of;
    cbn [p_kv p_cache]; now rewrite EH.
Qed.

Lemma remove_entries_to_result : forall b d n idx r d',
  f_remove_entries_to b d n idx = (r, d') ->
  d_cache d' = d_cache d /\
  ((r <> FOk /\ d_kv d' = d_kv d) \/
   (d_kv d' = p_kv (if b then b_remove_entries_to (pdb_of d) n idx else p_remove_entries_to (pdb_of d) n idx)
    /\ (r = FOk -> quiet (d_st d) (d_st d')))).
Proof.
  intros b d n idx r d' H. unfold f_remove_entries_to in H. destruct b.
  - unfold b_remove_entries_to. destruct ((batch_id idx =? 0) || (batch_id idx =? 1)).
    + injection H as <- <-. split; auto. right. split; auto. intros _. apply quiet_refl.
    + apply wr_result in H as (C & _ & K). auto.
  - apply wr_result in H as (C & _ & K). auto.
Qed.

Lemma remove_entries_to_outcome : forall b d n idx r d',
  f_remove_entries_to b d n idx = (r, d') -> outcome b d (ORemTo n idx) r d'.
Proof.
  intros b d n idx r d' H. apply remove_entries_to_result in H. destruct H as [C [[N K]|[K Q]]].
  - left; auto.
  - right; left. destruct b; cbn [ref_step plain_step batched_step]; eexists; (split; [reflexivity|]);
      split; auto; intros R; split; auto; rewrite C; try reflexivity.
    unfold b_remove_entries_to, pdb_of. destruct ((batch_id idx =? 0) || (batch_id idx =? 1)); reflexivity.
Qed.

Lemma remove_node_data_outcome : forall b d n r d',
  f_remove_node_data b d n = (r, d') -> outcome b d (ORemNode n) r d'.
Proof.
  intros b d n r d' H. unfold f_remove_node_data, list_snapshots_f in H.
  pose proof (rd_staged _ (iter_snapshots n) (list_snapshots (d_kv d) n) (d_st d) eq_refl) as P.
  destruct (rd (iter_snapshots n) (list_snapshots (d_kv d) n) (d_st d)) as [[[l|]| |] s1];
    try (injection H as <- <-; apply outcome_same; discriminate).
  destruct P as [[_ Q0] EL]. specialize (Q0 (conj I I)). specialize (EL I _ eq_refl). symmetry in EL.
  set (w := remove_node_wb n l) in *.
  destruct (wr_cases (CCommit w) (d_kv d) (kv_commit (d_kv d) w) s1)
    as [[E2 F2]|[E2|[E2|E2]]]; rewrite E2 in H.
  - apply remove_entries_to_result in H. cbn [d_kv d_cache d_st] in H. destruct H as [C [[N K]|[K Q]]].
    + right; right. split; auto. exists n, l. auto.
    + right; left. destruct b; eexists;
        (split; [cbn [ref_step plain_step batched_step]; unfold p_remove_node_data, b_remove_node_data, pdb_of;
                 cbn [p_kv p_cache]; now rewrite EL|]);
        (split; [exact K|]); intros R; (split; [rewrite C|]);
        try (eapply quiet_trans; [exact Q0|]; eapply quiet_trans; [apply quiet_tick; exact F2|]; now apply Q).
      * unfold b_remove_entries_to. destruct ((batch_id u64max =? 0) || (batch_id u64max =? 1)); reflexivity.
      * reflexivity.
  - injection H as <- <-. apply outcome_same; discriminate.
  - injection H as <- <-. apply outcome_same; discriminate.
  - injection H as <- <-. right; right. split; [discriminate|]. exists n, l. auto.
Qed.

Lemma import_snapshot_result : forall d n ss r d',
  f_import_snapshot d n ss = (r, d') ->
  (r <> FOk /\ d_kv d' = d_kv d) \/
  (exists p', p_import_snapshot (pdb_of d) n ss = Some p' /\ d_kv d' = p_kv p' /\
              (r = FOk -> d_cache d' = p_cache p' /\ quiet (d_st d) (d_st d'))).
Proof.
  intros d n ss r d' H. unfold f_import_snapshot, list_snapshots_f in H.
  pose proof (rd_staged _ (iter_snapshots n) (list_snapshots (d_kv d) n) (d_st d) eq_refl) as P.
  destruct (rd (iter_snapshots n) (list_snapshots (d_kv d) n) (d_st d)) as [[[l|]| |] s1];
    try (injection H as <- <-; left; split; [discriminate|reflexivity]).
  destruct P as [[_ Q0] EL]. specialize (Q0 (conj I I)). specialize (EL I _ eq_refl). symmetry in EL.
  pose proof (save_snapshot_wb_f_staged (d_kv d) n ss s1) as P.
  destruct (save_snapshot_wb_f (d_kv d) n ss s1) as [[[w2|]| |] s2];
    try (injection H as <- <-; left; split; [discriminate|reflexivity]).
  destruct P as [[_ Q2] E2]. specialize (Q2 (conj I I)). specialize (E2 I _ eq_refl).
  apply wr_result in H as (C & _ & [[N K]|[K Q]]); [left; auto|].
  right. unfold p_import_snapshot, pdb_of; cbn [p_kv p_cache]. rewrite EL, <- E2.
  eexists. split; [reflexivity|]. cbn [p_kv p_cache]. split; [exact K|].
  intros R. split; auto. eapply quiet_trans; [exact Q0|].
  eapply quiet_trans; [exact Q2|]. now apply Q.
Qed.

Lemma step_outcome : forall b d o r d', f_step b all_fixed d o = (r, d') -> outcome b d o r d'.
Proof.
  intros b d o r d' H. destruct o; cbn [f_step all_fixed fl_save fl_snap fl_batch] in H.
  - now apply save_raft_state_outcome.
  - now apply save_snapshots_outcome.
  - now apply remove_entries_to_outcome.
  - now apply remove_node_data_outcome.
  - destruct (f_import_snapshot (f_reopen d) n ss) as [r0 d0] eqn:E.
    apply import_snapshot_result in E.
    assert (PR : pdb_of (f_reopen d) = p_reopen (pdb_of d)) by reflexivity.
    destruct E as [[N K]|(p' & EP & K & S)].
    + left. destruct r0; injection H as <- <-; try congruence; split; auto; discriminate.
    + right; left. exists (p_reopen p'). rewrite PR in EP. split.
      * destruct b; cbn [ref_step plain_step batched_step]; rewrite EP; reflexivity.
      * destruct r0; injection H as <- <-; cbn [f_reopen d_kv d_cache d_st p_reopen p_kv p_cache];
          split; auto; try discriminate.
        intros _. split; auto. now apply S.
  - injection H as <- <-. right; left. exists (p_reopen (pdb_of d)). split.
    + destruct b; reflexivity.
    + cbn. split; auto. intros _. split; auto. apply quiet_refl.
Qed.

Lemma step_ok : forall b d o d', f_step b all_fixed d o = (FOk, d') ->
  ref_step b (pdb_of d) o = Some (pdb_of d') /\ quiet (d_st d) (d_st d').
Proof.
  intros b d o d' H. apply step_outcome in H. destruct H as [[N _]|[(p' & E & K & S)|[N _]]];
    try congruence.
  destruct (S eq_refl) as [C Q]. split; auto. rewrite E. f_equal.
  destruct p'; unfold pdb_of; cbn in *; congruence.
Qed.

(* a call hit by the fault - an error or a crash, before or after it took effect - never ends in
   a reported success *)
Lemma fault_never_success : forall b d o r d' n ft,
  f_fault (d_st d) = Some (n, ft) -> f_step b all_fixed d o = (r, d') ->
  fired (d_st d) (d_st d') n -> r <> FOk.
Proof.
  intros b d o r d' n ft HF H HN ->. apply step_ok in H as [_ (_ & _ & Q)]. exact (Q n ft HF HN).
Qed.

(* what one SaveRaftState does to the KV store: reads, then at most one CommitWriteBatch *)
Definition one_batch (d d' : fdb) (r : fres) : Prop :=
  exists rds, read_only rds /\
    ((f_trace (d_st d') = rds ++ f_trace (d_st d) /\ d_kv d' = d_kv d) \/
     (exists w, w <> [] /\ f_trace (d_st d') = CCommit w :: rds ++ f_trace (d_st d) /\
                (d_kv d' = d_kv d \/ d_kv d' = kv_commit (d_kv d) w) /\
                (r = FOk -> d_kv d' = kv_commit (d_kv d) w))).

Lemma commit_f_one : forall d c w s r d' rds,
  read_only rds -> f_trace s = rds ++ f_trace (d_st d) ->
  commit_f d c w s = (r, d') -> one_batch d d' r.
Proof.
  intros d c w s r d' rds HR HT H. unfold commit_f in H. exists rds. split; [exact HR|].
  destruct w as [|o w'].
  - injection H as <- <-. left. cbn. auto.
  - apply wr_result in H as (_ & T & K). right. exists (o :: w'). split; [discriminate|].
    rewrite T, HT. split; [reflexivity|]. destruct K as [[N K]|[K _]]; split; auto. now intros.
Qed.

Theorem save_is_one_batch_trace : forall b f1 f2 d us r d',
  f_save_raft_state b f1 f2 d us = (r, d') -> one_batch d d' r.
Proof.
  intros b f1 f2 d us r d' H. unfold f_save_raft_state in H.
  assert (NOW : forall s1 (c : cache) r0, reads (d_st d) s1 ->
            one_batch d (mkFD (d_kv d) c s1) r0).
  { intros s1 c r0 (l & E & R). exists l. split; [exact R|]. left. cbn. auto. }
  pose proof (save_heads_f_staged (d_kv d) us (d_cache d) (d_st d)) as P.
  destruct (save_heads_f (d_kv d) (d_cache d) us (d_st d)) as [[[c1 w1]| |c|] s1];
    destruct P as [EH _]; try (injection H as <- <-; apply NOW, EH).
  assert (ET : let '(_, s2) := save_tails_f b f2 (d_kv d) c1 us s1 in reads (d_st d) s2).
  { unfold save_tails_f. destruct b; [|apply EH].
    pose proof (b_save_tails_f_staged f2 (d_kv d) us c1 s1) as P.
    destruct (b_save_tails_f f2 (d_kv d) c1 us s1) as [r2 s2]. destruct P as [ET _].
    now apply (staged_trans _ _ _ _ _ EH ET). }
  destruct (save_tails_f b f2 (d_kv d) c1 us s1) as [[[c2 w2]| |c|] s2];
    try (injection H as <- <-; now apply NOW).
  destruct ET as (l & E & R). eapply commit_f_one; eauto.
Qed.

Definition ref_fold (b : bool) (p : option pdb) (ops : list op) : option pdb :=
  fold_left (fun d o => match d with Some d => ref_step b d o | None => None end) ops p.

Lemma ref_run_fold : forall b ops, ref_run b ops = ref_fold b (Some pdb_init) ops.
Proof. reflexivity. Qed.

Lemma ref_fold_none : forall b ops, ref_fold b None ops = None.
Proof. induction ops; cbn; auto. Qed.

Lemma ref_fold_app : forall b ops1 ops2 p, ref_fold b p (ops1 ++ ops2) = ref_fold b (ref_fold b p ops1) ops2.
Proof. intros. unfold ref_fold. apply fold_left_app. Qed.

(* the state of the durable map after a run that was stopped by a fault *)
Inductive crash_state (b : bool) (p : pdb) (inflight : option op) (m : kv) : Prop :=
| cs_acked : m = p_kv p -> crash_state b p inflight m
| cs_inflight : forall o p', inflight = Some o -> ref_step b p o = Some p' -> m = p_kv p' ->
    crash_state b p inflight m
| cs_remnode_mid : forall n l, inflight = Some (ORemNode n) -> list_snapshots (p_kv p) n = Some l ->
    m = kv_commit (p_kv p) (remove_node_wb n l) -> crash_state b p inflight m.

Lemma step_crash_state : forall b d o r d', f_step b all_fixed d o = (r, d') -> r <> FOk ->
  crash_state b (pdb_of d) (Some o) (d_kv d').
Proof.
  intros b d o r d' H N. apply step_outcome in H.
  destruct H as [[_ K]|[(p' & EP & K & _)|[_ (n & l & -> & EL & K)]]].
  - now apply cs_acked.
  - now apply (cs_inflight _ _ _ _ o p').
  - now apply (cs_remnode_mid _ _ _ _ n l).
Qed.

Lemma run_crash_atomic : forall b ops d k r d',
  f_run b all_fixed d ops = (k, r, d') ->
  exists p, ref_fold b (Some (pdb_of d)) (firstn k ops) = Some p /\
    ((r = FOk /\ k = length ops /\ pdb_of d' = p /\ quiet (d_st d) (d_st d')) \/
     (r <> FOk /\ (k < length ops)%nat /\ crash_state b p (nth_error ops k) (d_kv d'))).
Proof.
  intros b ops. induction ops as [|o t IH]; intros d k r d' H; cbn [f_run] in H.
  - injection H as <- <- <-. exists (pdb_of d). split; [reflexivity|]. left.
    split; [reflexivity|]. split; [reflexivity|]. split; [reflexivity|apply quiet_refl].
  - destruct (f_step b all_fixed d o) as [r0 d0] eqn:E.
    (* the operation in flight did not succeed: the run stops here *)
    destruct r0;
      try (injection H as <- <- <-; exists (pdb_of d); split; [reflexivity|]; right;
           split; [discriminate|]; split; [cbn; lia|]; now apply (step_crash_state _ _ _ _ _ E)).
    destruct (f_run b all_fixed d0 t) as [[k1 r1] d1] eqn:E1. injection H as <- <- <-.
    apply step_ok in E. destruct E as [ES Q0].
    apply IH in E1. destruct E1 as (p & EP & C).
    exists p. split.
    + cbn [firstn]. unfold ref_fold in *. cbn [fold_left]. now rewrite ES.
    + destruct C as [(R & K & PD & Q)|(R & K & CS)].
      * left. split; [exact R|]. split; [cbn; lia|]. split; [exact PD|]. eapply quiet_trans; eauto.
      * right. split; auto. split; [cbn; lia|]. exact CS.
Qed.

Theorem crash_atomic_kv_proved : forall b ft ops k r d',
  f_run b all_fixed (fdb_init ft) ops = (k, r, d') ->
  exists p, ref_run b (firstn k ops) = Some p /\
    ((r = FOk /\ k = length ops /\ recovered d' = p_reopen p) \/
     (r <> FOk /\ (k < length ops)%nat /\ crash_state b p (nth_error ops k) (d_kv d'))).
Proof.
  intros b ft ops k r d' H. apply run_crash_atomic in H. destruct H as (p & EP & C).
  exists p. split; [exact EP|]. destruct C as [(R & K & PD & _)|C]; auto.
  left. split; [exact R|]. split; [exact K|]. unfold recovered, p_reopen. subst p. reflexivity.
Qed.

Definition w_node : nid := (1, 1).
Definition w_ent (i : N) : entry := mkEnt i 1 i 8.

(* F1: one update carrying a hard state, a snapshot record and an entry; the IterateValue
   that lists the old snapshot records (KV call 0) fails *)
Definition f1_update : update := mkUp w_node (mkSt 1 1 0) (mkSs 5 1 9) [mkEnt 6 1 6 8].
Definition f1_db : fdb := fdb_init (Some (0, FtErr)).

(* F2 (batched format): entries 1..3 are saved, the store is reopened, entries 4..5 are
   saved; the GetValue that loads the stored batch (KV call 2) fails and is taken for "no
   such batch": all three saves report success and entries 1..3 are gone *)
Definition f2_ops : list op :=
  [OSave [mkUp w_node (mkSt 1 1 0) (mkSs 0 0 0) [w_ent 1; w_ent 2; w_ent 3]];
   OReopen;
   OSave [mkUp w_node (mkSt 1 1 0) (mkSs 0 0 0) [w_ent 4; w_ent 5]]].

Example f1_repaired : fst (f_save_raft_state false true true f1_db [f1_update]) = FErr.
Proof. vm_compute. reflexivity. Qed.
Example f2_repaired :
  fst (fst (f_run true all_fixed (fdb_init (Some (2, FtErr))) f2_ops)) = 2%nat /\
  snd (fst (f_run true all_fixed (fdb_init (Some (2, FtErr))) f2_ops)) = FErr.
Proof. vm_compute. split; reflexivity. Qed.
