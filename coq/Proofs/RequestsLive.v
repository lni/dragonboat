(* Liveness-as-safety for Model/Requests.v (property C12): an accepted request
   without a terminal result is still referenced; gc / close empty what is referenced. *)
From Coq Require Import NArith List Bool Lia.
From DB Require Import Proofs.ListFacts Gen.GenC12 Model.Requests Proofs.Requests Proofs.RequestsInv.
Import ListNotations.
Open Scope N_scope.

Definition rids (s : st) : list N := map sr (live s).

(* accepted (status 1) without a result: referenced.  In flight (status 0: propose between its
   two critical sections): referenced, or the proposal queue is closed (the second half of
   propose will then refuse it) *)
Definition tracked (s : st) : Prop := forall r, r < h_nreq (H s) -> nterm (got s r) = 0%nat ->
  (r_status (h_reqs (H s) r) = 1 -> In r (rids s)) /\
  (r_status (h_reqs (H s) r) = 0 -> In r (rids s) \/ q_stop (P s) = true).

Record TI (s : st) : Prop := mkTI { ti_tr : tracked s; ti_qs : stop_closed (P s); ti_if : inflight_keys s }.

Lemma init_TI : forall ps nc a b, TI (init ps nc a b).
Proof.
  intros. constructor.
  - intros r Hr. cbn in Hr. lia.
  - intros k Hk. cbn in Hk. discriminate.
  - intros i kv Hi. cbn in Hi. lia.
Qed.

Lemma N_below_in : forall n r, In r (N_below n) <-> r < n.
Proof.
  intros n r. unfold N_below. rewrite in_map_iff. split.
  - intros (k & <- & Hk). apply in_seq in Hk. lia.
  - intros Hr. exists (N.to_nat r). split; [apply N2Nat.id|]. apply in_seq. lia.
Qed.
Lemma key_in_flight_false : forall h key, key_in_flight h key = false ->
  forall i, i < h_nreq h -> r_status (h_reqs h i) = 0 -> r_key (h_reqs h i) <> key.
Proof.
  intros h key Hk i Hi Hs Heq. unfold key_in_flight in Hk.
  assert (existsb (fun r => (r_status (h_reqs h r) =? 0) && (r_key (h_reqs h r) =? key)) (N_below (h_nreq h)) = true) as Ht.
  { apply existsb_exists. exists i. split; [apply N_below_in; exact Hi|]. rewrite Hs, Heq, !N.eqb_refl. reflexivity. }
  congruence.
Qed.

Lemma TI_from_EF : forall s s', TI s -> EF s s' ->
  (q_stop (P s) = true -> q_stop (P s') = true) -> stop_closed (P s') -> inflight_keys s' -> TI s'.
Proof.
  intros s s' Ti (E0 & E1 & E2 & E3 & E4) Hq Hsc Hif. constructor; [|exact Hsc|exact Hif].
  intros r Hr Hn. destruct (N.lt_ge_cases r (h_nreq (H s))) as [Hlt|Hge];
    [|destruct (E4 r Hge Hr) as [A B]; split; [exact A | intros X; apply (B X)]].
  specialize (E2 r Hlt Hn). destruct (E3 r Hlt) as [_ Hst]. destruct (ti_tr s Ti r Hlt E2) as [T1 T0].
  assert (Hkeep : In r (rids s) -> r_status (h_reqs (H s') r) <> 2 -> In r (rids s')).
  { intros Hi Hn2. unfold rids in *. apply in_map_iff in Hi. destruct Hi as (sl & <- & Hsl).
    destruct (E1 sl Hsl) as [X|[X|X]]; [apply in_map; exact X | contradiction | contradiction]. }
  split; intros Hs.
  - apply Hkeep; [|rewrite Hs; discriminate]. destruct Hst as [X|(X0 & [X|[X1 X2]])].
    + apply T1. rewrite <- X. exact Hs.
    + rewrite Hs in X. discriminate.
    + destruct (T0 X0) as [Y|Y]; [exact Y | rewrite Y in X2; discriminate].
  - assert (Hs0 : r_status (h_reqs (H s) r) = 0).
    { destruct Hst as [X|(X0 & _)]; [rewrite <- X; exact Hs | exact X0]. }
    destruct (T0 Hs0) as [Y|Y]; [left; apply Hkeep; [exact Y | rewrite Hs; discriminate] | right; apply Hq; exact Y].
Qed.

Lemma step_inflight : forall s o, inflight_keys s -> EF s (step s o) ->
  h_broken (H (step s o)) = false -> inflight_keys (step s o).
Proof.
  intros s o Hif (_ & _ & _ & E4 & E5) Hb i kv Hi Hs Hkv Hk.
  destruct (N.lt_ge_cases i (h_nreq (H s))) as [Hlt|Hge]; [|apply (E5 i Hge Hi); assumption].
  destruct (E4 i Hlt) as [K St]. rewrite K in Hk.
  assert (S0 : r_status (h_reqs (H s) i) = 0) by (destruct St as [X|[X _]]; congruence).
  destruct (step_touches s o) as [ | | h p _ Hpd | | | | ]; try exact (Hif i kv Hlt S0 Hkv Hk).
  destruct (Hpd kv Hkv) as [Hin|Hfree]; [exact (Hif i kv Hlt S0 Hin Hk)|].
  exfalso. apply (key_in_flight_false _ _ (Hfree Hb) i Hlt S0). symmetry. exact Hk.
Qed.

Lemma step_inv : forall s o, LI s -> TI s -> h_broken (H (step s o)) = false ->
  LI (step s o) /\ TI (step s o).
Proof.
  intros s o Li Ti Hb. destruct (step_LX s o Li (ti_qs s Ti) (ti_if s Ti) Hb) as [Li' Ef].
  destruct (touches_P _ _ (step_touches s o)) as [_ Psc Pq _].
  split; [exact Li'|]. apply (TI_from_EF s _ Ti Ef Pq (Psc (ti_qs s Ti))).
  apply step_inflight; [apply Ti | exact Ef | exact Hb].
Qed.

Fixpoint env_ok (ops : list op) (s : st) : Prop :=
  h_broken (H s) = false /\ match ops with [] => True | o :: ops' => env_ok ops' (step s o) end.

Lemma run_inv : forall ops s, LI s -> TI s -> env_ok ops s -> LI (run ops s) /\ TI (run ops s).
Proof.
  induction ops as [|o ops IH]; intros s Li Ti He; [split; assumption|]. cbn [run fold_left]. destruct He as [_ He].
  assert (Hb : h_broken (H (step s o)) = false) by (destruct ops; apply He).
  destruct (step_inv s o Li Ti Hb) as [Li' Ti']. apply IH; assumption.
Qed.

Lemma init_LI : forall ps nc a b, LI (init ps nc a b).
Proof.
  intros. constructor.
  - constructor; cbn.
    + intros r. exact I.
    + intros r e [].
    + intros o Ho. lia.
    + intros o Ho. lia.
    + intros o Ho. lia.
    + intros o [].
    + constructor.
    + intros r Hr. lia.
    + intros o Ho. lia.
  - cbn. constructor.
  - cbn. constructor.
  - cbn. constructor.
  - reflexivity.
Qed.

Lemma reachable_inv : forall ps nc a b ops, env_ok ops (init ps nc a b) ->
  LI (run ops (init ps nc a b)) /\ TI (run ops (init ps nc a b)).
Proof. intros. apply run_inv; [apply init_LI | apply init_TI | assumption]. Qed.
Lemma reachable_LI : forall ps nc a b ops, env_ok ops (init ps nc a b) -> LI (run ops (init ps nc a b)).
Proof. intros. apply reachable_inv. assumption. Qed.

Lemma step_eq : forall s o, h_err (H s) = 0 -> h_err (H (step0 s o)) = 0 -> step s o = step0 s o.
Proof. intros s o E0 E1. unfold step. rewrite E0. cbn [N.eqb negb]. rewrite E1. reflexivity. Qed.

(* liveness as safety: an accepted request without a terminal result is still referenced by a
   live table, a queue or the step worker's hand *)
Lemma accepted_without_result_is_referenced_proved : forall ps nc a b ops, env_ok ops (init ps nc a b) ->
  let s := run ops (init ps nc a b) in
  forall r, r < h_nreq (H s) -> r_status (h_reqs (H s) r) = 1 -> nterm (got s r) = 0%nat ->
  In r (map sr (live s)).
Proof.
  intros ps nc a b ops He s r Hr Hs Hn. destruct (reachable_inv ps nc a b ops He) as [_ Ti].
  apply (ti_tr _ Ti r Hr Hn). exact Hs.
Qed.

Section Reached.
  Variables (ps : N) (nc : bool) (pq rq0 : N) (ops : list op).
  Hypothesis Henv : env_ok ops (init ps nc pq rq0).
  Let s := run ops (init ps nc pq rq0).
  Hypothesis Herr : h_err (H s) = 0.

  Let Li : LI s := reachable_LI ps nc pq rq0 ops Henv.

  (* proposals: the gc of the shard expires every entry whose deadline has passed *)
  Lemma tick_expires_proposal_proved : forall kv, In kv (pend (P s)) ->
    p_stop (P s) (fst kv mod cps s) = false ->
    (sub64 (h_clock (H s)) (p_lastgc (P s) (fst kv mod cps s)) <? gc_tick) = false ->
    o_dl (h_objs (H s) (so (snd kv))) < h_clock (H s) ->
    let s' := step s (GcP (fst kv)) in
    h_err (H s') = 0 /\ nterm (got s' (sr (snd kv))) = 1%nat.
  Proof.
    intros kv Hkv Hst Hgc Hdl s'.
    destruct (gc_at_LX s (fst kv mod cps s) (h_clock (H s)) Li Herr) as (_ & E & Hone).
    unfold s'. rewrite (step_eq s (GcP (fst kv)) Herr E). split; [exact E | exact (Hone Hst Hgc kv Hkv eq_refl Hdl)].
  Qed.

  (* config change ([c] = true) / snapshot: one pending request *)
  Lemma tick_expires_x : forall (c : bool) sl, x_pend (xt c s) = Some sl ->
    (sub64 (h_clock (H s)) (x_lastgc (xt c s)) <? gc_tick) = false ->
    o_dl (h_objs (H s) (so sl)) < h_clock (H s) ->
    let s' := step s (if c then GcC else GcS) in h_err (H s') = 0 /\ nterm (got s' (sr sl)) = 1%nat.
  Proof.
    intros c sl Hx Hgc Hdl s'. destruct (x_gc_LX c s Li Herr) as (_ & E & Hone).
    assert (Es : step0 s (if c then GcC else GcS) = setHX c s (fst (x_gc (H s) (xt c s))) (snd (x_gc (H s) (xt c s))))
      by (destruct c; apply let_pair).
    unfold s', got. rewrite step_eq, Es, H_setHX; [auto | exact Herr | rewrite Es, H_setHX; exact E].
  Qed.
  Lemma tick_expires_config_change_proved : forall sl, x_pend (C s) = Some sl ->
    (sub64 (h_clock (H s)) (x_lastgc (C s)) <? gc_tick) = false ->
    o_dl (h_objs (H s) (so sl)) < h_clock (H s) ->
    let s' := step s GcC in h_err (H s') = 0 /\ nterm (got s' (sr sl)) = 1%nat.
  Proof. exact (tick_expires_x true). Qed.
  Lemma tick_expires_snapshot_proved : forall sl, x_pend (S s) = Some sl ->
    (sub64 (h_clock (H s)) (x_lastgc (S s)) <? gc_tick) = false ->
    o_dl (h_objs (H s) (so sl)) < h_clock (H s) ->
    let s' := step s GcS in h_err (H s') = 0 /\ nterm (got s' (sr sl)) = 1%nat.
  Proof. exact (tick_expires_x false). Qed.

  (* read index: applied() runs the gc, which expires every request of every batch whose
     deadline has passed (a batch that is confirmed in the same call gets Timeout as well) *)
  Lemma tick_expires_read_proved : forall a sl, rd_stop (R s) = false ->
    (sub64 (h_clock (H s)) (rd_lastgc (R s)) <? gc_tick) = false ->
    In sl (batch_slots (batches (R s))) -> o_dl (h_objs (H s) (so sl)) < h_clock (H s) ->
    let s' := step s (ReadsApplied a) in
    h_err (H s') = 0 /\ nterm (got s' (sr sl)) = 1%nat.
  Proof.
    intros a sl Est Hgc Hin Hdl s'. destruct (readsApplied_LX s a Li Herr) as (_ & E & Hone).
    unfold s'. rewrite (step_eq s (ReadsApplied a) Herr E). split; [exact E | exact (Hone Est Hgc sl Hin Hdl)].
  Qed.
End Reached.

Record CI (s : st) : Prop := mkCI {
  ci_rq : rinv (R s);
  ci_c : xinv (C s);
  ci_s : xinv (S s);
  ci_l : linv (lq_pend s) (lq_stop s);
  ci_cps : cps s <> 0 }.

Lemma touches_CI : forall s s', touches s s' -> CI s -> CI s'.
Proof.
  intros s s' Ht [C1 C2 C3 C4 C5].
  destruct Ht as [ | h | h p _ _ | h r _ Hr | h x [_ Hx] | h x [_ Hx] | h l b _ Hl ]; constructor; cbn; auto.
Qed.
Lemma run_CI : forall ops s, CI s -> CI (run ops s).
Proof.
  induction ops as [|o ops IH]; intros s Ci; [exact Ci|]. cbn. apply IH, (touches_CI s), Ci. apply step_touches.
Qed.
Lemma init_CI : forall ps nc a b, CI (init ps nc a b).
Proof.
  intros. constructor; cbn; try discriminate. destruct (ps =? 0) eqn:E; [discriminate|]. apply N.eqb_neq. exact E.
Qed.

(* node.close() has completed on every table *)
Definition closed (s : st) : Prop :=
  rd_stop (R s) = true /\ (forall k, k < cps s -> p_stop (P s) k = true) /\
  x_open (C s) = false /\ x_open (S s) = false /\ lq_stop s = true.

Lemma closed_live : forall s, CI s -> closed s -> live s = taken (R s).
Proof.
  intros s Ci (C1 & C2 & C3 & C4 & C5). unfold live, live_pend, live_reads.
  rewrite (filter_nil (alive s)).
  - destruct (ci_rq s Ci C1) as [E _]. rewrite E, C1, (ci_c s Ci C3), (ci_s s Ci C4), (ci_l s Ci C5). cbn.
    rewrite !app_nil_r. reflexivity.
  - intros kv _. unfold alive. rewrite C2; [reflexivity|]. apply N.mod_lt. apply Ci.
Qed.

(* exactly one, after close: in every reachable state in which close() has completed on every
   table and the step worker holds no read requests between get() and add(), every accepted request
   has exactly one terminal result *)
Lemma exactly_one_when_closed_proved : forall ps nc a b ops, env_ok ops (init ps nc a b) ->
  let s := run ops (init ps nc a b) in
  closed s -> taken (R s) = [] ->
  forall r, r < h_nreq (H s) -> r_status (h_reqs (H s) r) = 1 -> nterm (got s r) = 1%nat.
Proof.
  intros ps nc a b ops He s Hc Ht r Hr Hs.
  pose proof (shape_nterm_le1 _ (hi_shape _ (li_h _ (reachable_LI ps nc a b ops He)) r)) as Hle. fold s (got s r) in Hle.
  destruct (nterm (got s r)) as [|[|n]] eqn:En; [|reflexivity|lia].
  exfalso. pose proof (accepted_without_result_is_referenced_proved ps nc a b ops He r Hr Hs En) as Hin.
  fold s in Hin. rewrite (closed_live s (run_CI ops _ (init_CI ps nc a b)) Hc), Ht in Hin. destruct Hin.
Qed.

Definition close_ops (s : st) (lo hi : N) : list op :=
  CloseR :: map CloseP (N_below (cps s)) ++ [CloseC; CloseS; CloseL; AddReads lo hi].
Definition flags_mono (s s' : st) : Prop :=
  cps s' = cps s /\ (rd_stop (R s) = true -> rd_stop (R s') = true) /\
  (forall k, p_stop (P s) k = true -> p_stop (P s') k = true) /\
  (x_open (C s) = false -> x_open (C s') = false) /\ (x_open (S s) = false -> x_open (S s') = false) /\
  (lq_stop s = true -> lq_stop s' = true).
Lemma touches_flags : forall s s', touches s s' -> flags_mono s s'.
Proof.
  intros s s' Ht. destruct Ht as [ | h | h p [_ _ _ Hp] _ | h r Hr _ | h x [Hx _] | h x [Hx _] | h l b Hl _ ];
    unfold flags_mono; cbn; repeat split; auto.
Qed.
Lemma step_flags : forall s o, flags_mono s (step s o).
Proof. intros. apply touches_flags, step_touches. Qed.
Lemma run_flags : forall l s, flags_mono s (run l s).
Proof.
  induction l as [|o l IH]; intros s; [apply (touches_flags s), t_id|].
  destruct (step_flags s o) as (A1 & A2 & A3 & A4 & A5 & A6), (IH (step s o)) as (B1 & B2 & B3 & B4 & B5 & B6).
  change (flags_mono s (run l (step s o))). unfold flags_mono. repeat split; auto. congruence.
Qed.

Lemma step_ok_inv : forall s o, h_err (H (step s o)) = 0 -> h_err (H s) = 0 /\ step s o = step0 s o.
Proof.
  intros s o. unfold step. destruct (h_err (H s) =? 0) eqn:E0; cbn [negb].
  - apply N.eqb_eq in E0. destruct (h_err (H (step0 s o)) =? 0) eqn:E1; [auto|].
    cbn. intros X. apply N.eqb_neq in E1. contradiction.
  - intros X. apply N.eqb_neq in E0. contradiction.
Qed.
Lemma run_app : forall a b s, run (a ++ b) s = run b (run a s).
Proof. intros. unfold run. apply fold_left_app. Qed.
Lemma run_err0 : forall l s, h_err (H (run l s)) = 0 -> h_err (H s) = 0.
Proof.
  induction l as [|o l IH]; intros s He; [exact He|]. cbn in He. apply IH in He. apply step_ok_inv in He. apply He.
Qed.

Lemma run_closeP_all : forall l s, h_err (H (run (map CloseP l) s)) = 0 ->
  forall k, In k l -> k < cps s -> p_stop (P (run (map CloseP l) s)) k = true.
Proof.
  induction l as [|k0 l IH]; intros s He k Hin Hk; [destruct Hin|]. cbn [map run fold_left] in *.
  destruct (step_ok_inv s (CloseP k0) (run_err0 _ _ He)) as [_ E]. destruct Hin as [<-|Hin].
  - apply (run_flags (map CloseP l)). rewrite E. cbn. unfold fupd. rewrite (N.mod_small _ _ Hk), N.eqb_refl. reflexivity.
  - apply IH; [exact He | exact Hin|]. rewrite E. exact Hk.
Qed.

(* the states along [close_ops]: each step raises its flag, the later ones leave it up *)
Lemma close_chain : forall s lo hi,
  let s_r := step s CloseR in let s_p := run (map CloseP (N_below (cps s))) s_r in
  let s_c := step s_p CloseC in let s_s := step s_c CloseS in let s_l := step s_s CloseL in
  let s_a := step s_l (AddReads lo hi) in
  h_err (H s_a) = 0 -> closed s_a /\ taken (R s_a) = [].
Proof.
  intros s lo hi s_r s_p s_c s_s s_l s_a He.
  destruct (step_ok_inv s_l _ He) as [El Ea]. destruct (step_ok_inv s_s _ El) as [Es El'].
  destruct (step_ok_inv s_c _ Es) as [Ec Es']. destruct (step_ok_inv s_p _ Ec) as [Ep Ec'].
  destruct (step_ok_inv s _ (run_err0 _ s_r Ep)) as [_ Er'].
  destruct (step_flags s CloseR : flags_mono s s_r) as (Nr & _).
  destruct (run_flags _ s_r : flags_mono s_r s_p) as (Np & Rp & _).
  destruct (step_flags s_p CloseC : flags_mono s_p s_c) as (Nc & Rc & Pc & _).
  destruct (step_flags s_c CloseS : flags_mono s_c s_s) as (Ns & Rs & Ps & Cs & _).
  destruct (step_flags s_s CloseL : flags_mono s_s s_l) as (Nl & Rl & Pl & Cl & Sl & _).
  destruct (step_flags s_l (AddReads lo hi) : flags_mono s_l s_a) as (Na & Ra & Pa & Ca & Sa & La).
  assert (Fr : rd_stop (R s_r) = true) by (unfold s_r; rewrite Er'; reflexivity).
  assert (Fp : forall k, k < cps s -> p_stop (P s_p) k = true).
  { intros k Hk. apply (run_closeP_all (N_below (cps s)) s_r Ep k); [apply N_below_in; exact Hk | rewrite Nr; exact Hk]. }
  assert (Fc : x_open (C s_c) = false).
  { unfold s_c. rewrite Ec'. cbn [step0]. destruct (x_open (C s_p)) eqn:Eo; [|exact Eo].
    unfold x_close. destruct (x_pend (C s_p)); reflexivity. }
  assert (Fs : x_open (S s_s) = false) by (unfold s_s; rewrite Es'; cbn [step0]; unfold x_close; destruct (x_pend (S s_c)); reflexivity).
  assert (Fl : lq_stop s_l = true) by (unfold s_l; rewrite El'; cbn [step0]; destruct (lq_pend s_s); reflexivity).
  assert (Rd : rd_stop (R s_l) = true) by auto.
  split.
  - repeat split; auto. intros k Hk. apply Pa, Pl, Ps, Pc, Fp. congruence.
  - unfold s_a. rewrite Ea. cbn [step0]. destruct (taken (R s_l)) eqn:Et; [exact Et|]. rewrite Rd. reflexivity.
Qed.

Lemma close_reaches_closed_proved : forall s lo hi, let s2 := run (close_ops s lo hi) s in
  h_err (H s2) = 0 -> closed s2 /\ taken (R s2) = [].
Proof.
  intros s lo hi s2 He.
  assert (E : s2 = step (step (step (step (run (map CloseP (N_below (cps s))) (step s CloseR)) CloseC) CloseS) CloseL) (AddReads lo hi))
    by (unfold s2, close_ops, run; cbn [fold_left]; rewrite fold_left_app; reflexivity).
  rewrite E in *. exact (close_chain s lo hi He).
Qed.

(* node.close(), table by table, followed by the add() of a handleReadIndex that was under
   way: if no step panics, everything that was still referenced has been terminated - every accepted
   request has exactly one terminal result *)
Lemma close_terminates_referenced_proved : forall ps nc a b ops lo hi,
  let s := run ops (init ps nc a b) in
  env_ok (ops ++ close_ops s lo hi) (init ps nc a b) ->
  let s2 := run (close_ops s lo hi) s in
  h_err (H s2) = 0 ->
  forall r, r < h_nreq (H s2) -> r_status (h_reqs (H s2) r) = 1 -> nterm (got s2 r) = 1%nat.
Proof.
  intros ps nc a b ops lo hi s Henv s2 He r Hr Hs.
  destruct (close_reaches_closed_proved s lo hi He) as [Hc Ht]. fold s2 in Hc, Ht.
  assert (E : s2 = run (ops ++ close_ops s lo hi) (init ps nc a b)) by (unfold s2, s; rewrite run_app; reflexivity).
  rewrite E in *. apply (exactly_one_when_closed_proved ps nc a b _ Henv Hc Ht r Hr Hs).
Qed.

Lemma referenced_where_proved : forall ps nc a b ops, env_ok ops (init ps nc a b) ->
  let s := run ops (init ps nc a b) in
  forall r, r < h_nreq (H s) -> r_status (h_reqs (H s) r) = 1 -> nterm (got s r) = 0%nat ->
  exists sl, sr sl = r /\
    ((exists key, In (key, sl) (pend (P s)) /\ p_stop (P s) (key mod cps s) = false) \/
     In sl (rq (R s)) \/ In sl (taken (R s)) \/
     (rd_stop (R s) = false /\ In sl (batch_slots (batches (R s)))) \/
     x_pend (C s) = Some sl \/ x_pend (S s) = Some sl \/ lq_pend s = Some sl).
Proof.
  intros ps nc a b ops He s r Hr Hs Hn.
  pose proof (accepted_without_result_is_referenced_proved ps nc a b ops He r Hr Hs Hn) as Hin. fold s in Hin.
  apply in_map_iff in Hin. destruct Hin as (sl & E & Hin). exists sl. split; [exact E|].
  apply in_live in Hin. destruct Hin as [Hin|[Hin|Hin]]; [left | right | do 4 right; exact Hin].
  - apply in_map_iff in Hin. destruct Hin as ([key sl'] & E2 & Hin). cbn in E2. subst sl'.
    apply filter_In in Hin. destruct Hin as [Hin Ha]. exists key. split; [exact Hin|].
    unfold alive in Ha. cbn in Ha. apply negb_true_iff in Ha. exact Ha.
  - unfold live_reads in Hin. apply in_app_or in Hin. destruct Hin as [Hin|Hin]; [left; exact Hin | right].
    apply in_app_or in Hin. destruct Hin as [Hin|Hin]; [left; exact Hin | right; left].
    destruct (rd_stop (R s)); [destruct Hin | auto].
Qed.
