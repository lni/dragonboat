(* Lemmas about the C09 spec (Model/LogStoreSpec.v). *)
From Coq Require Import List NArith Bool Lia.
From DB Require Import Base.Bytes Gen.GenC09 Model.LogStoreSpec.
From DB Require Export Proofs.ListFacts.
Import ListNotations.
Open Scope N_scope.

(* es holds exactly the indexes i, i+1, ... in order *)
Fixpoint contig (i : N) (es : list entry) : Prop :=
  match es with [] => True | e :: t => e_index e = i /\ contig (i + 1) t end.

Lemma nid_eqb_eq : forall a b, nid_eqb a b = true <-> a = b.
Proof.
  intros [a1 a2] [b1 b2]. unfold nid_eqb; cbn. rewrite andb_true_iff, !N.eqb_eq.
  split; [intros [-> ->]; auto | intros H; inversion H; auto].
Qed.

Lemma nid_eqb_refl : forall a, nid_eqb a a = true.
Proof. intros. now apply nid_eqb_eq. Qed.

Lemma nid_eqb_neq : forall a b, a <> b -> nid_eqb a b = false.
Proof. intros a b H. destruct (nid_eqb a b) eqn:E; auto. apply nid_eqb_eq in E. contradiction. Qed.

Lemma nid_dec : forall a b : nid, {a = b} + {a <> b}.
Proof. intros a b. destruct (nid_eqb a b) eqn:E; [left; now apply nid_eqb_eq | right; intros ->; rewrite nid_eqb_refl in E; discriminate]. Qed.

Lemma supd_same : forall s n v, supd s n v n = v.
Proof. intros. unfold supd. now rewrite nid_eqb_refl. Qed.

Lemma supd_other : forall s n v m, m <> n -> supd s n v m = s m.
Proof. intros. unfold supd. now rewrite nid_eqb_neq. Qed.

Lemma ss_eqb_eq : forall a b, ss_eqb a b = true -> a = b.
Proof.
  intros [a1 a2 a3] [b1 b2 b3]. unfold ss_eqb; cbn. rewrite !andb_true_iff, !N.eqb_eq.
  intros [[-> ->] ->]. reflexivity.
Qed.

Lemma st_eqb_eq : forall a b, st_eqb a b = true -> a = b.
Proof.
  intros [a1 a2 a3] [b1 b2 b3]. unfold st_eqb; cbn. rewrite !andb_true_iff, !N.eqb_eq.
  intros [[-> ->] ->]. reflexivity.
Qed.

Lemma nlen_cons : forall {A} (a : A) l, nlen (a :: l) = nlen l + 1.
Proof. intros. unfold nlen. cbn [length]. lia. Qed.

Lemma nlen_app : forall {A} (a b : list A), nlen (a ++ b) = nlen a + nlen b.
Proof. intros. unfold nlen. rewrite app_length. lia. Qed.

Lemma nlen_zero : forall {A} (l : list A), nlen l = 0 -> l = [].
Proof. intros A [|a l]; auto. rewrite nlen_cons. lia. Qed.

Lemma contig_app : forall a b i, contig i a -> contig (i + nlen a) b -> contig i (a ++ b).
Proof.
  induction a as [|e a IH]; cbn [app]; intros b i H1 H2.
  - replace (i + nlen []) with i in H2 by (unfold nlen; cbn; lia). exact H2.
  - destruct H1 as [H1 H3]. split; auto. apply IH; auto.
    rewrite nlen_cons in H2. now replace (i + 1 + nlen a) with (i + (nlen a + 1)) by lia.
Qed.

Lemma contig_app_inv : forall (a b : list entry) i, contig i (a ++ b) -> contig i a /\ contig (i + nlen a) b.
Proof.
  induction a as [|e a IH]; intros b i H; cbn [app] in *.
  - split; [exact I|]. replace (i + nlen []) with i by (unfold nlen; cbn; lia). exact H.
  - destruct H as [H1 H2]. destruct (IH b (i + 1) H2) as [I1 I2]. split; [split; auto|].
    rewrite nlen_cons. replace (i + (nlen a + 1)) with (i + 1 + nlen a) by lia. exact I2.
Qed.

Lemma contig_bounds : forall es i e, contig i es -> In e es -> i <= e_index e < i + nlen es.
Proof.
  induction es as [|e0 es IH]; intros i e HC HI; [contradiction|].
  destruct HC as [HC1 HC2]. rewrite nlen_cons. destruct HI as [HI|HI].
  - subst. lia.
  - specialize (IH _ _ HC2 HI). lia.
Qed.

Lemma contig_below : forall es i j, contig i es -> i <= j -> j <= i + nlen es ->
  contig i (below j es) /\ nlen (below j es) = j - i.
Proof.
  induction es as [|e es IH]; intros i j HC H1 H2.
  - unfold nlen in *; cbn in *. split; auto. lia.
  - destruct HC as [HC1 HC2]. rewrite nlen_cons in H2. unfold below in *. cbn [filter].
    destruct (e_index e <? j) eqn:E.
    + apply N.ltb_lt in E. destruct (IH (i + 1) j HC2) as [IH1 IH2]; try lia.
      split; [split; auto|]. rewrite nlen_cons, IH2. lia.
    + apply N.ltb_ge in E. assert (j = i) by lia. subst j.
      rewrite filter_nil; [split; [exact I | unfold nlen; cbn; lia]|].
      intros e' HI. apply N.ltb_ge. pose proof (contig_bounds _ _ _ HC2 HI). lia.
Qed.

Lemma contig_above : forall es i j, contig i es -> i <= j + 1 ->
  contig (j + 1) (above j es) /\ nlen (above j es) = i + nlen es - (j + 1).
Proof.
  induction es as [|e es IH]; intros i j HC H1.
  - unfold nlen; cbn. split; auto. lia.
  - pose proof HC as HC0. destruct HC as [HC1 HC2]. rewrite nlen_cons. unfold above in *.
    assert (HC2' : contig (i + 1) es) by exact HC2.
    destruct (j <? e_index e) eqn:E.
    + apply N.ltb_lt in E. assert (Hi : i = j + 1) by lia.
      rewrite filter_all.
      * split; [rewrite <- Hi; exact HC0 | rewrite nlen_cons; lia].
      * intros e' HI. apply N.ltb_lt. pose proof (contig_bounds _ _ _ HC0 HI). lia.
    + cbn [filter]. rewrite E. apply N.ltb_ge in E.
      destruct (IH (i + 1) j HC2) as [IH1 IH2]; try lia.
      split; auto. rewrite IH2. lia.
Qed.

Lemma contig_nth : forall es i x, contig i es -> i <= x < i + nlen es -> exists e, In e es /\ e_index e = x.
Proof.
  induction es as [|e es IH]; intros i x HC Hx.
  - unfold nlen in Hx; cbn in Hx. lia.
  - destruct HC as [HC1 HC2]. rewrite nlen_cons in Hx. destruct (N.eq_dec x i).
    + exists e. split; [now left | lia].
    + destruct (IH (i + 1) x HC2) as (e' & H1 & H2); [lia|]. exists e'. split; [now right | auto].
Qed.

Lemma contig_inj : forall es i e1 e2, contig i es -> In e1 es -> In e2 es -> e_index e1 = e_index e2 -> e1 = e2.
Proof.
  induction es as [|e es IH]; intros i e1 e2 HC H1 H2 HE; [contradiction|].
  destruct HC as [HC1 HC2].
  destruct H1 as [H1|H1]; destruct H2 as [H2|H2]; subst; auto.
  - pose proof (contig_bounds _ _ _ HC2 H2). lia.
  - pose proof (contig_bounds _ _ _ HC2 H1). lia.
  - eapply IH; eauto.
Qed.

Lemma filter_range_contig : forall es a low high, contig a es -> a <= low ->
  contig low (filter (in_range low high) es) /\
  low + nlen (filter (in_range low high) es) = N.max low (N.min high (a + nlen es)).
Proof.
  induction es as [|e es IH]; intros a low high HC HL.
  - unfold nlen; cbn. split; auto. lia.
  - pose proof HC as HC0. destruct HC as [HC1 HC2]. rewrite nlen_cons. cbn [filter].
    assert (in_range low high e = (low <=? a) && (a <? high)) as Hin
      by (unfold in_range; now rewrite HC1).
    rewrite !Hin. clear Hin.
    destruct (low <=? a) eqn:E1; cbn [andb].
    + apply N.leb_le in E1. assert (low = a) by lia. subst low.
      destruct (a <? high) eqn:E2; cbv iota.
      * apply N.ltb_lt in E2.
        assert (filter (in_range a high) es = filter (in_range (a + 1) high) es) as ->.
        { apply filter_ext_in. intros e' HI. pose proof (contig_bounds _ _ _ HC2 HI).
          unfold in_range. f_equal. destruct (a <=? e_index e') eqn:X; destruct (a + 1 <=? e_index e') eqn:Y; auto.
          - apply N.leb_le in X. apply N.leb_gt in Y. lia.
          - apply N.leb_gt in X. apply N.leb_le in Y. lia. }
        destruct (IH (a + 1) (a + 1) high HC2) as [IH1 IH2]; [lia|].
        split; [split; auto|]. rewrite nlen_cons. lia.
      * apply N.ltb_ge in E2. rewrite filter_nil.
        -- split; [exact I | unfold nlen; cbn; lia].
        -- intros e' HI. pose proof (contig_bounds _ _ _ HC2 HI). unfold in_range.
           apply andb_false_iff. right. apply N.ltb_ge. lia.
    + cbv iota. apply N.leb_gt in E1. destruct (IH (a + 1) low high HC2) as [IH1 IH2]; [lia|].
      split; auto. rewrite IH2. lia.
Qed.

Lemma below_app_last : forall nd i0 es, contig (n_marker nd + 1) (n_ents nd) ->
  n_marker nd < i0 <= n_last nd + 1 ->
  n_last (mkNode (n_marker nd) (n_mterm nd) (below i0 (n_ents nd) ++ es) (n_st nd) (n_ss nd)) = i0 + nlen es - 1.
Proof.
  intros nd i0 es HC Hi. destruct (contig_below _ _ i0 HC) as [_ CL]; [lia | unfold n_last in Hi; lia|].
  unfold n_last. cbn [n_marker n_ents]. rewrite nlen_app, CL. lia.
Qed.

Lemma below_app_contig : forall nd i0 es, contig (n_marker nd + 1) (n_ents nd) ->
  n_marker nd < i0 <= n_last nd + 1 -> contig i0 es ->
  contig (n_marker nd + 1) (below i0 (n_ents nd) ++ es).
Proof.
  intros nd i0 es HC Hi HCe. destruct (contig_below _ _ i0 HC) as [CB CL]; [lia | unfold n_last in Hi; lia|].
  apply contig_app; auto. rewrite CL. now replace (n_marker nd + 1 + (i0 - (n_marker nd + 1))) with i0 by lia.
Qed.

Lemma ents_okb_contig : forall es i prev, ents_okb i prev es = true -> contig i es.
Proof.
  induction es as [|e es IH]; intros i prev H; [exact I|].
  cbn [ents_okb] in H. rewrite !andb_true_iff in H. destruct H as ((((H1 & H2) & H3) & H4) & H5).
  apply N.eqb_eq in H1. split; eauto.
Qed.

Lemma upd_ents_wf_cons : forall nd e0 es0, upd_ents_wf nd (e0 :: es0) = true ->
  n_marker nd < e_index e0 <= n_last nd + 1 /\ e_index e0 + nlen (e0 :: es0) < max_index /\
  contig (e_index e0) (e0 :: es0).
Proof.
  intros nd e0 es0 H. cbn [upd_ents_wf] in H. rewrite !andb_true_iff in H. destruct H as (((W1 & W2) & W3) & W4).
  apply N.ltb_lt in W1, W3. apply N.leb_le in W2. split; [lia|]. split; [exact W3|].
  exact (ents_okb_contig _ _ _ W4).
Qed.

Lemma upd_steps_commute : forall nd ss st,
  upd_ss_step (upd_st_step nd st) ss = upd_st_step (upd_ss_step nd ss) st.
Proof.
  intros nd ss st. unfold upd_ss_step, upd_st_step.
  destruct (ss_emptyb ss); destruct (st_emptyb st); reflexivity.
Qed.

Lemma upd_ss_wf_st : forall nd ss st, upd_ss_wf (upd_st_step nd st) ss = upd_ss_wf nd ss.
Proof. intros. unfold upd_st_step. now destruct (st_emptyb st). Qed.

Lemma upd_ents_wf_st : forall nd es st, upd_ents_wf (upd_st_step nd st) es = upd_ents_wf nd es.
Proof. intros. unfold upd_st_step. now destruct (st_emptyb st). Qed.

Lemma wf_rem_to : forall s n idx, spec_wf_op s (ORemTo n idx) = true <-> 1 <= idx <= n_last (s n).
Proof. intros. cbn [spec_wf_op]. now rewrite andb_true_iff, !N.leb_le. Qed.

Lemma rem_to_other : forall s n idx n', n' <> n -> spec_step s (ORemTo n idx) n' = s n'.
Proof. intros s n idx n' H. cbn [spec_step]. destruct (_ <? _); [now apply supd_other | reflexivity]. Qed.

Lemma rem_to_node : forall s n idx, contig (n_marker (s n) + 1) (n_ents (s n)) -> 1 <= idx <= n_last (s n) ->
  let nd := s n in let nd' := spec_step s (ORemTo n idx) n in
  n_st nd' = n_st nd /\ n_ss nd' = n_ss nd /\ n_last nd' = n_last nd /\
  n_ents nd' = above idx (n_ents nd) /\ n_marker nd' = N.max (n_marker nd) idx /\
  contig (n_marker nd' + 1) (n_ents nd').
Proof.
  intros s n idx HC [W1 W2]. cbn [spec_step]. destruct (n_marker (s n) <? idx) eqn:EM.
  - apply N.ltb_lt in EM. rewrite supd_same. cbn [n_st n_ss n_marker n_ents].
    destruct (contig_above _ _ idx HC ltac:(lia)) as [CA CL].
    split; [reflexivity|]. split; [reflexivity|].
    split; [unfold n_last in *; cbn [n_marker n_ents]; lia|]. split; [reflexivity|]. split; [lia | exact CA].
  - apply N.ltb_ge in EM. split; [reflexivity|]. split; [reflexivity|]. split; [reflexivity|]. split.
    { unfold above. symmetry. apply filter_all. intros e HI. apply N.ltb_lt.
      pose proof (contig_bounds _ _ _ HC HI). lia. }
    split; [lia | exact HC].
Qed.

Lemma wf_q_iter : forall s n low high maxsz, spec_wf_query s (QIter n low high maxsz) = true <->
  n_marker (s n) < low <= high /\ high <= max_index /\ 1 <= maxsz.
Proof. intros. cbn [spec_wf_query]. rewrite !andb_true_iff, N.ltb_lt, !N.leb_le. tauto. Qed.

Lemma wf_q_state : forall s n arg, spec_wf_query s (QState n arg) = true <-> n_marker (s n) <= arg <= n_last (s n).
Proof. intros. cbn [spec_wf_query]. now rewrite andb_true_iff, !N.leb_le. Qed.

Lemma upd_ss_wf_spec : forall nd ss, ss_emptyb ss = false -> upd_ss_wf nd ss = true ->
  0 < ss_index ss < max_index /\ n_last_term nd <= ss_term ss /\
  ((n_ssidx nd < ss_index ss /\ n_last nd <= ss_index ss) \/ (n_ss nd = Some ss /\ ss_index ss = n_last nd)).
Proof.
  intros nd ss E Hwf. unfold upd_ss_wf in Hwf. rewrite E in Hwf. cbn [orb] in Hwf.
  rewrite !andb_true_iff in Hwf. destruct Hwf as ((W1 & W2) & W3). apply N.ltb_lt in W1. apply N.leb_le in W2.
  split; [unfold ss_emptyb in E; apply N.eqb_neq in E; lia|]. split; [exact W2|].
  apply orb_true_iff in W3. destruct W3 as [W3|W3]; apply andb_true_iff in W3; destruct W3 as [A B].
  - apply N.ltb_lt in A. apply N.leb_le in B. now left.
  - apply N.eqb_eq in B. destruct (n_ss nd); [|discriminate]. apply ss_eqb_eq in A. subst. now right.
Qed.

Lemma nodes_distinct_cons : forall n ns, nodes_distinct (n :: ns) = true -> ~ In n ns /\ nodes_distinct ns = true.
Proof.
  intros n ns H. cbn [nodes_distinct] in H. apply andb_true_iff in H. destruct H as [H1 H2].
  split; auto. intros HI. apply negb_true_iff in H1. apply not_true_iff_false in H1. apply H1.
  apply existsb_exists. exists n. split; auto. apply nid_eqb_refl.
Qed.

Lemma save_step_other : forall us s n, ~ In n (map u_node us) -> save_step s us n = s n.
Proof.
  induction us as [|u us IH]; intros s n H; [reflexivity|].
  cbn [map In] in H. unfold save_step in *. cbn [fold_left]. rewrite IH by tauto.
  apply supd_other. intros X. apply H. left. now subst.
Qed.

Lemma take_size_prefix : forall es maxsz size,
  exists rest, es = fst (take_size maxsz size es) ++ rest.
Proof.
  induction es as [|e t IH]; intros maxsz size; cbn [take_size].
  - exists []. reflexivity.
  - destruct (maxsz <? size + esize e) eqn:E.
    + exists t. reflexivity.
    + specialize (IH maxsz (size + esize e)).
      destruct (take_size maxsz (size + esize e) t) as [r sz] eqn:T.
      destruct IH as [rest H]. cbn [fst] in *. exists rest. cbn. now rewrite <- H.
Qed.

Lemma take_size_short : forall es maxsz size r sz, take_size maxsz size es = (r, sz) ->
  r = es \/ maxsz < sz.
Proof.
  induction es as [|e es IH]; intros maxsz size r sz H; cbn [take_size] in H.
  - inversion H. now left.
  - destruct (maxsz <? size + esize e) eqn:E.
    + inversion H; subst. right. now apply N.ltb_lt.
    + destruct (take_size maxsz (size + esize e) es) as [r' sz'] eqn:T. inversion H; subst.
      destruct (IH _ _ _ _ T) as [->|X]; [now left | now right].
Qed.
