(* The bit-serial CRC-32 of Base/CRC32.v: the register step is GF(2)-linear and injective
   on 32-bit states; everything about bytes and strings follows from these two facts. *)
From DB Require Import Base.Bytes Base.CRC32.
From Coq Require Import ZifyN ZifyNat.
Open Scope N_scope.

Lemma crc_step_lin a b : crc_step (N.lxor a b) = N.lxor (crc_step a) (crc_step b).
Proof.
  unfold crc_step. rewrite N.lxor_spec.
  apply N.bits_inj; intro n.
  destruct (N.testbit a 0) eqn:Ha, (N.testbit b 0) eqn:Hb; cbn [xorb];
    repeat rewrite ?N.lxor_spec, ?N.shiftr_spec';
    destruct (N.testbit a (n + 1)), (N.testbit b (n + 1)), (N.testbit crc_poly n); reflexivity.
Qed.

Lemma crc_step_0 : crc_step 0 = 0.
Proof. reflexivity. Qed.

Lemma lt_pow2_bits_above x k : x < 2 ^ k -> forall n, k <= n -> N.testbit x n = false.
Proof.
  intros Hx n Hn. destruct (N.eq_dec x 0) as [->|Hne]; [apply N.bits_0|].
  apply N.bits_above_log2. apply N.lt_le_trans with k; [|exact Hn].
  apply N.log2_lt_pow2; lia.
Qed.

Lemma bits_above_lt_pow2 x k : (forall n, k <= n -> N.testbit x n = false) -> x < 2 ^ k.
Proof.
  intros H. destruct (N.eq_dec x 0) as [->|Hne]; [apply N.neq_0_lt_0, N.pow_nonzero; lia|].
  apply N.log2_lt_pow2; [lia|].
  destruct (N.lt_ge_cases (N.log2 x) k) as [Hlt|Hge]; [exact Hlt|].
  pose proof (N.bit_log2 x Hne) as Hb. rewrite (H _ Hge) in Hb. discriminate.
Qed.

Lemma crc_poly_lt : crc_poly < 2 ^ 32.
Proof. reflexivity. Qed.

Lemma lxor_lt_pow2 a b k : a < 2 ^ k -> b < 2 ^ k -> N.lxor a b < 2 ^ k.
Proof.
  intros Ha Hb. apply bits_above_lt_pow2; intros n Hn.
  rewrite N.lxor_spec, (lt_pow2_bits_above a k Ha n Hn), (lt_pow2_bits_above b k Hb n Hn).
  reflexivity.
Qed.

Lemma shiftr1_lt_pow2 s k : s < 2 ^ k -> N.shiftr s 1 < 2 ^ k.
Proof.
  intros Hs. apply bits_above_lt_pow2; intros n Hn. rewrite N.shiftr_spec'.
  apply (lt_pow2_bits_above s k Hs). lia.
Qed.

Lemma crc_step_lt s : s < 2 ^ 32 -> crc_step s < 2 ^ 32.
Proof.
  intros Hs. unfold crc_step. destruct (N.testbit s 0).
  - apply lxor_lt_pow2; [apply shiftr1_lt_pow2; exact Hs|exact crc_poly_lt].
  - apply shiftr1_lt_pow2; exact Hs.
Qed.

Lemma crc_step_bit31 s : s < 2 ^ 32 -> N.testbit (crc_step s) 31 = N.testbit s 0.
Proof.
  intros Hs. unfold crc_step.
  assert (Hz : N.testbit (N.shiftr s 1) 31 = false).
  { rewrite N.shiftr_spec'. apply (lt_pow2_bits_above s 32 Hs). lia. }
  destruct (N.testbit s 0) eqn:H0.
  - rewrite N.lxor_spec, Hz. reflexivity.
  - exact Hz.
Qed.

Lemma lxor_cancel_r a b c : N.lxor a c = N.lxor b c -> a = b.
Proof.
  intros H. rewrite <- (N.lxor_0_r a), <- (N.lxor_0_r b), <- (N.lxor_nilpotent c).
  rewrite <- !N.lxor_assoc, H. reflexivity.
Qed.

Lemma crc_step_inj a b : a < 2 ^ 32 -> b < 2 ^ 32 -> crc_step a = crc_step b -> a = b.
Proof.
  intros Ha Hb H.
  assert (H0 : N.testbit a 0 = N.testbit b 0).
  { rewrite <- (crc_step_bit31 a Ha), <- (crc_step_bit31 b Hb), H. reflexivity. }
  assert (Hs : N.shiftr a 1 = N.shiftr b 1).
  { unfold crc_step in H. rewrite <- H0 in H. destruct (N.testbit a 0).
    - apply lxor_cancel_r in H. exact H.
    - exact H. }
  apply N.bits_inj; intro n. destruct (N.eq_dec n 0) as [->|Hn]; [exact H0|].
  replace n with (N.pred n + 1) by lia. rewrite <- !N.shiftr_spec', Hs. reflexivity.
Qed.

Lemma crc_step_nonzero s : s < 2 ^ 32 -> s <> 0 -> crc_step s <> 0.
Proof.
  intros Hs Hne H. apply Hne. apply crc_step_inj; [exact Hs|reflexivity|].
  rewrite H. reflexivity.
Qed.

Lemma iter_S_r {A} n (f : A -> A) x : iter (S n) f x = f (iter n f x).
Proof. revert x; induction n as [|n IH]; intros x; [reflexivity|]. cbn [iter] in *. apply IH. Qed.

Lemma iter_add {A} n m (f : A -> A) x : iter (n + m) f x = iter m f (iter n f x).
Proof. revert x; induction n as [|n IH]; intros x; [reflexivity|]. cbn [iter Nat.add]. apply IH. Qed.

Lemma iter_step_lin n a b :
  iter n crc_step (N.lxor a b) = N.lxor (iter n crc_step a) (iter n crc_step b).
Proof.
  revert a b; induction n as [|n IH]; intros a b; [reflexivity|].
  cbn [iter]. rewrite crc_step_lin. apply IH.
Qed.

Lemma iter_step_0 n : iter n crc_step 0 = 0.
Proof. induction n as [|n IH]; [reflexivity|]. cbn [iter]. rewrite crc_step_0. exact IH. Qed.

Lemma iter_step_lt n s : s < 2 ^ 32 -> iter n crc_step s < 2 ^ 32.
Proof.
  revert s; induction n as [|n IH]; intros s Hs; [exact Hs|].
  cbn [iter]. apply IH, crc_step_lt, Hs.
Qed.

Lemma iter_step_inj n a b :
  a < 2 ^ 32 -> b < 2 ^ 32 -> iter n crc_step a = iter n crc_step b -> a = b.
Proof.
  revert a b; induction n as [|n IH]; intros a b Ha Hb H; [exact H|].
  cbn [iter] in H. apply IH in H; [|apply crc_step_lt; assumption..].
  apply crc_step_inj; assumption.
Qed.

Lemma iter_step_nonzero n s : s < 2 ^ 32 -> s <> 0 -> iter n crc_step s <> 0.
Proof.
  intros Hs Hne H. apply Hne. apply (iter_step_inj n); [exact Hs|reflexivity|].
  rewrite H, iter_step_0. reflexivity.
Qed.

Lemma byte_lt_32 b : b < 256 -> b < 2 ^ 32.
Proof. intros H. apply N.lt_trans with 256; [exact H|reflexivity]. Qed.

Lemma crc_byte_lin s1 s2 b1 b2 :
  crc_byte (N.lxor s1 s2) (N.lxor b1 b2) = N.lxor (crc_byte s1 b1) (crc_byte s2 b2).
Proof.
  unfold crc_byte. rewrite <- iter_step_lin. f_equal.
  rewrite !N.lxor_assoc. f_equal. rewrite <- !N.lxor_assoc. f_equal. apply N.lxor_comm.
Qed.

Lemma crc_byte_lt s b : s < 2 ^ 32 -> b < 256 -> crc_byte s b < 2 ^ 32.
Proof.
  intros Hs Hb. unfold crc_byte. apply iter_step_lt, lxor_lt_pow2; [exact Hs|apply byte_lt_32, Hb].
Qed.

Lemma crc_byte_inj s1 s2 b1 b2 :
  s1 < 2 ^ 32 -> s2 < 2 ^ 32 -> b1 < 256 -> b2 < 256 ->
  crc_byte s1 b1 = crc_byte s2 b2 -> N.lxor s1 b1 = N.lxor s2 b2.
Proof.
  intros H1 H2 Hb1 Hb2. apply iter_step_inj; apply lxor_lt_pow2; try assumption; apply byte_lt_32; assumption.
Qed.

Lemma lxor_cancel_l a b c : N.lxor c a = N.lxor c b -> a = b.
Proof. rewrite !(N.lxor_comm c). apply lxor_cancel_r. Qed.

Lemma crc_update_app s l1 l2 : crc_update s (l1 ++ l2) = crc_update (crc_update s l1) l2.
Proof. unfold crc_update. apply fold_left_app. Qed.

Lemma crc_update_lt l : forall s, s < 2 ^ 32 -> wf_bytes l -> crc_update s l < 2 ^ 32.
Proof.
  induction l as [|b l IH]; intros s Hs Hw; [exact Hs|].
  inversion Hw as [|? ? Hb Hl]; subst. cbn [crc_update fold_left].
  apply IH; [apply crc_byte_lt; assumption|exact Hl].
Qed.

Lemma crc_update_inj l : forall s1 s2, s1 < 2 ^ 32 -> s2 < 2 ^ 32 -> wf_bytes l ->
  crc_update s1 l = crc_update s2 l -> s1 = s2.
Proof.
  induction l as [|b l IH]; intros s1 s2 H1 H2 Hw H; [exact H|].
  inversion Hw as [|? ? Hb Hl]; subst. cbn [crc_update fold_left] in H.
  apply IH in H; [|apply crc_byte_lt; assumption..|exact Hl].
  apply crc_byte_inj in H; try assumption. apply lxor_cancel_r in H. exact H.
Qed.

Lemma crc_mask_lt : crc_mask < 2 ^ 32.
Proof. reflexivity. Qed.

Lemma crc32_lt l : wf_bytes l -> crc32 l < 2 ^ 32.
Proof.
  intros Hw. unfold crc32. apply lxor_lt_pow2; [|exact crc_mask_lt].
  apply crc_update_lt; [exact crc_mask_lt|exact Hw].
Qed.

Lemma crc32_inj_update l1 l2 :
  crc32 l1 = crc32 l2 -> crc_update crc_mask l1 = crc_update crc_mask l2.
Proof. unfold crc32. apply lxor_cancel_r. Qed.

Lemma crc32_single_byte_detected pre post b1 b2 :
  wf_bytes pre -> wf_bytes post -> b1 < 256 -> b2 < 256 -> b1 <> b2 ->
  crc32 (pre ++ b1 :: post) <> crc32 (pre ++ b2 :: post).
Proof.
  intros Hpre Hpost Hb1 Hb2 Hne H. apply crc32_inj_update in H.
  rewrite !crc_update_app in H. cbn [crc_update fold_left] in H.
  fold (crc_update (crc_byte (crc_update crc_mask pre) b1) post) in H.
  fold (crc_update (crc_byte (crc_update crc_mask pre) b2) post) in H.
  pose proof (crc_update_lt pre crc_mask crc_mask_lt Hpre) as Hs.
  apply crc_update_inj in H; [|apply crc_byte_lt; assumption..|exact Hpost].
  apply crc_byte_inj in H; try assumption.
  apply lxor_cancel_l in H. exact (Hne H).
Qed.

Definition differ_one_bit (l1 l2 : bytes) : Prop :=
  exists pre post b k, l1 = pre ++ b :: post /\ l2 = pre ++ N.lxor b (2 ^ k) :: post /\ k < 8.

Lemma lxor_pow2_neq b k : N.lxor b (2 ^ k) <> b.
Proof.
  intros H. assert (Hb : N.testbit (N.lxor b (2 ^ k)) k = N.testbit b k) by (rewrite H; reflexivity).
  rewrite N.lxor_spec, N.pow2_bits_true in Hb. destruct (N.testbit b k); discriminate.
Qed.

Lemma lxor_pow2_byte b k : b < 256 -> k < 8 -> N.lxor b (2 ^ k) < 256.
Proof.
  intros Hb Hk. change 256 with (2 ^ 8). apply lxor_lt_pow2; [exact Hb|].
  apply N.pow_lt_mono_r; lia.
Qed.

Theorem crc32_single_bit_detected l1 l2 :
  wf_bytes l1 -> differ_one_bit l1 l2 -> crc32 l1 <> crc32 l2.
Proof.
  intros Hw (pre & post & b & k & -> & -> & Hk).
  apply Forall_app in Hw as [Hpre Hw]. inversion Hw as [|? ? Hb Hpost]; subst.
  apply crc32_single_byte_detected; auto using lxor_pow2_byte.
  intros H. symmetry in H. exact (lxor_pow2_neq b k H).
Qed.

Lemma crc32_app_inj_prefix l1 l2 post :
  wf_bytes l1 -> wf_bytes l2 -> wf_bytes post ->
  crc32 (l1 ++ post) = crc32 (l2 ++ post) -> crc32 l1 = crc32 l2.
Proof.
  intros H1 H2 Hp H. apply crc32_inj_update in H. rewrite !crc_update_app in H.
  apply crc_update_inj in H; [|apply crc_update_lt; auto using crc_mask_lt..|exact Hp].
  unfold crc32. rewrite H. reflexivity.
Qed.

(* The whole register update is ONE iteration over the little-endian number of the
   string, crc_update s l = step^(8|l|) (s xor le_dec l): this is what makes burst errors
   tractable. *)

Lemma testbit_mul_pow2_low x k n : n < k -> N.testbit (x * 2 ^ k) n = false.
Proof. intros H. apply N.mul_pow2_bits_low. exact H. Qed.

Lemma crc_step_shl x : crc_step (2 * x) = x.
Proof.
  unfold crc_step. rewrite N.testbit_even_0.
  rewrite N.shiftr_div_pow2. change (2 ^ 1) with 2. rewrite N.mul_comm. apply N.div_mul. lia.
Qed.

Lemma iter_step_shl k x : iter k crc_step (2 ^ N.of_nat k * x) = x.
Proof.
  revert x; induction k as [|k IH]; intros x.
  - cbn [iter]. change (2 ^ N.of_nat 0) with 1. lia.
  - cbn [iter]. rewrite Nat2N.inj_succ, N.pow_succ_r', <- N.mul_assoc, crc_step_shl. apply IH.
Qed.

Lemma byte_add_is_lxor b r : b < 256 -> b + 256 * r = N.lxor b (256 * r).
Proof.
  intros Hb. apply N.add_nocarry_lxor. apply N.bits_inj; intro n.
  rewrite N.land_spec, N.bits_0. change 256 with (2 ^ 8) in *.
  destruct (N.lt_ge_cases n 8) as [Hn|Hn].
  - rewrite (N.mul_comm (2 ^ 8) r), N.mul_pow2_bits_low by exact Hn. apply andb_false_r.
  - rewrite (lt_pow2_bits_above b 8 Hb n Hn). reflexivity.
Qed.

Lemma le_dec_lt l : wf_bytes l -> le_dec l < 2 ^ N.of_nat (8 * length l).
Proof.
  induction l as [|b l IH]; intros Hw.
  - cbn. lia.
  - inversion Hw as [|? ? Hb Hl]; subst. specialize (IH Hl).
    cbn [le_dec length]. replace (8 * S (length l))%nat with (8 + 8 * length l)%nat by lia.
    rewrite Nat2N.inj_add, N.pow_add_r. change (2 ^ N.of_nat 8) with 256. nia.
Qed.

Lemma crc_byte_shl s b x : b < 256 -> N.lxor (crc_byte s b) x = iter 8 crc_step (N.lxor s (b + 256 * x)).
Proof.
  intros Hb. rewrite (byte_add_is_lxor b x Hb), <- N.lxor_assoc, iter_step_lin.
  change 256 with (2 ^ N.of_nat 8). rewrite iter_step_shl. reflexivity.
Qed.

Theorem crc_update_as_iter l : forall s, wf_bytes l ->
  crc_update s l = iter (8 * length l) crc_step (N.lxor s (le_dec l)).
Proof.
  induction l as [|b l IH]; intros s Hw.
  - cbn. rewrite N.lxor_0_r. reflexivity.
  - inversion Hw as [|? ? Hb Hl]; subst.
    change (crc_update s (b :: l)) with (crc_update (crc_byte s b) l).
    rewrite (IH _ Hl). cbn [le_dec length].
    replace (8 * S (length l))%nat with (8 + 8 * length l)%nat by lia.
    rewrite iter_add. f_equal. apply crc_byte_shl, Hb.
Qed.

Lemma lxor_lxor_same m a b : N.lxor (N.lxor m a) (N.lxor m b) = N.lxor a b.
Proof.
  apply N.bits_inj; intro n. rewrite !N.lxor_spec.
  destruct (N.testbit m n), (N.testbit a n), (N.testbit b n); reflexivity.
Qed.

(* Any difference that fits in a window of 32 consecutive bits (in processing
   order: byte i bit j is bit 8i+j of the little-endian number) is detected. *)
Theorem crc32_burst_le_32_detected l1 l2 p v :
  wf_bytes l1 -> wf_bytes l2 -> length l1 = length l2 ->
  N.lxor (le_dec l1) (le_dec l2) = 2 ^ N.of_nat p * v -> 0 < v < 2 ^ 32 ->
  crc32 l1 <> crc32 l2.
Proof.
  intros H1 H2 Hlen Hd [Hv0 Hv] H.
  (* equal checksums: the difference of the two numbers is stepped to 0 ... *)
  assert (Hz : iter (8 * length l1) crc_step (2 ^ N.of_nat p * v) = 0).
  { rewrite <- Hd, <- (lxor_lxor_same crc_mask), iter_step_lin, <- (crc_update_as_iter l1 _ H1).
    rewrite Hlen, <- (crc_update_as_iter l2 _ H2), (crc32_inj_update _ _ H). apply N.lxor_nilpotent. }
  (* ... but its first p steps only shift it down to v, and v stays non-zero *)
  assert (Hp : (p <= 8 * length l1)%nat).
  { pose proof (le_dec_lt l1 H1) as B1. pose proof (le_dec_lt l2 H2) as B2. rewrite <- Hlen in B2.
    pose proof (lxor_lt_pow2 _ _ _ B1 B2) as B. rewrite Hd in B.
    enough (N.of_nat p < N.of_nat (8 * length l1)) by lia.
    apply (N.pow_lt_mono_r_iff 2); [reflexivity|]. eapply N.le_lt_trans, B.
    apply N.le_trans with (2 ^ N.of_nat p * 1); [rewrite N.mul_1_r; reflexivity|apply N.mul_le_mono_l; lia]. }
  rewrite <- (Nat.sub_add p (8 * length l1)), Nat.add_comm, iter_add, iter_step_shl in Hz by exact Hp.
  revert Hz. apply iter_step_nonzero; [exact Hv|lia].
Qed.
