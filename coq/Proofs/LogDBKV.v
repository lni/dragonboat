(* Lemmas about the base KV model (Model/KV.v): the key order, point operations,
   range deletion, range scans and atomic write batches on strictly sorted lists. *)
From Coq Require Import List NArith Bool Lia.
From DB Require Import Base.Bytes Gen.GenC09 Model.LogStoreSpec Model.KV Proofs.LogStoreSpec.
Import ListNotations.
Open Scope N_scope.

Lemma key_cmp_refl : forall a, key_cmp a a = Eq.
Proof. intros [t s r i]. unfold key_cmp; cbn. now rewrite !N.compare_refl. Qed.

Lemma key_cmp_eq : forall a b, key_cmp a b = Eq -> a = b.
Proof.
  intros [t s r i] [t' s' r' i']. unfold key_cmp, lex; cbn.
  destruct (t ?= t') eqn:E1; try discriminate.
  destruct (s ?= s') eqn:E2; try discriminate.
  destruct (r ?= r') eqn:E3; try discriminate.
  intros E4. apply N.compare_eq_iff in E1, E2, E3, E4. now subst.
Qed.

(* a measure-free characterisation through a lexicographic Prop *)
Definition klt (a b : key) : Prop :=
  k_tag a < k_tag b \/ (k_tag a = k_tag b /\ (k_shard a < k_shard b \/ (k_shard a = k_shard b /\
   (k_replica a < k_replica b \/ (k_replica a = k_replica b /\ k_index a < k_index b))))).

Lemma key_cmp_lt : forall a b, key_cmp a b = Lt <-> klt a b.
Proof.
  intros [t s r i] [t' s' r' i']. unfold key_cmp, lex, klt; cbn.
  destruct (N.compare_spec t t'); [|split; [auto|intros _; reflexivity]|split; [discriminate|lia]].
  destruct (N.compare_spec s s'); [|split; [auto|intros _; reflexivity]|split; [discriminate|lia]].
  destruct (N.compare_spec r r'); [|split; [auto 10|intros _; reflexivity]|split; [discriminate|lia]].
  destruct (N.compare_spec i i'); split; try discriminate; try lia; auto 10.
Qed.

Lemma key_cmp_antisym : forall a b, key_cmp b a = CompOpp (key_cmp a b).
Proof.
  intros [t s r i] [t' s' r' i']. unfold key_cmp, lex; cbn.
  rewrite (N.compare_antisym t t'), (N.compare_antisym s s'), (N.compare_antisym r r'), (N.compare_antisym i i').
  destruct (t ?= t'); try reflexivity. destruct (s ?= s'); try reflexivity. now destruct (r ?= r').
Qed.

Lemma key_cmp_gt : forall a b, key_cmp a b = Gt <-> klt b a.
Proof.
  intros a b. rewrite <- key_cmp_lt, (key_cmp_antisym a b). destruct (key_cmp a b); cbn; split; congruence.
Qed.

Lemma klt_trans : forall a b c, klt a b -> klt b c -> klt a c.
Proof. unfold klt. intros a b c H1 H2. lia. Qed.
Lemma klt_irrefl : forall a, ~ klt a a.
Proof. unfold klt. intros a H. lia. Qed.
Lemma klt_total : forall a b, klt a b \/ a = b \/ klt b a.
Proof.
  intros a b. destruct (key_cmp a b) eqn:E.
  - right; left. now apply key_cmp_eq.
  - left. now apply key_cmp_lt.
  - right; right. now apply key_cmp_gt.
Qed.

Definition kle (a b : key) : Prop := klt a b \/ a = b.

Lemma kle_trans : forall a b c, kle a b -> kle b c -> kle a c.
Proof.
  intros a b c [H1|H1] [H2|H2]; subst; try (left; auto; fail); [left; eapply klt_trans; eauto | right; auto].
Qed.

Lemma key_ltb_spec : forall a b, key_ltb a b = true <-> klt a b.
Proof.
  intros a b. unfold key_ltb. rewrite <- key_cmp_lt. destruct (key_cmp a b); split; congruence.
Qed.
Lemma key_leb_spec : forall a b, key_leb a b = true <-> kle a b.
Proof.
  intros a b. unfold key_leb, kle. destruct (key_cmp a b) eqn:E.
  - apply key_cmp_eq in E. split; auto.
  - apply key_cmp_lt in E. split; auto.
  - apply key_cmp_gt in E. split; [discriminate|].
    intros [H|H]; [exfalso; eapply klt_irrefl, klt_trans; eauto | subst; exfalso; eapply klt_irrefl; eauto].
Qed.

Fixpoint lb (k : key) (m : kv) : Prop :=   (* k is below every key of m *)
  match m with [] => True | (k', _) :: t => klt k k' /\ lb k t end.
Fixpoint sorted (m : kv) : Prop :=
  match m with [] => True | (k, _) :: t => lb k t /\ sorted t end.

Lemma lb_trans : forall m a b, klt a b -> lb b m -> lb a m.
Proof.
  induction m as [|[k v] t IH]; cbn; intros a b H1 H2; auto.
  destruct H2 as [H2 H3]. split; [eapply klt_trans; eauto | eapply IH; eauto].
Qed.

Lemma get_lb_none : forall m k, lb k m -> kv_get m k = None.
Proof.
  destruct m as [|[k' v] t]; cbn; intros k H; auto.
  destruct H as [H _]. apply key_cmp_lt in H. now rewrite H.
Qed.

Lemma lb_in : forall m k k' v, lb k m -> In (k', v) m -> klt k k'.
Proof.
  induction m as [|[k0 v0] t IH]; cbn; intros k k' v H HI; [contradiction|].
  destruct H as [H1 H2]. destruct HI as [HI|HI]; [inversion HI; subst; auto | eapply IH; eauto].
Qed.

Lemma get_in : forall m k v, sorted m -> (kv_get m k = Some v <-> In (k, v) m).
Proof.
  induction m as [|[k0 v0] t IH]; cbn; intros k v HS.
  - split; [discriminate|contradiction].
  - destruct HS as [HL HS]. destruct (key_cmp k k0) eqn:E.
    + apply key_cmp_eq in E. subst k0. split.
      * intros H; inversion H; auto.
      * intros [H|H]; [inversion H; auto|]. exfalso. eapply klt_irrefl, lb_in; eauto.
    + apply key_cmp_lt in E. split; [discriminate|].
      intros [H|H]; [inversion H; subst; exfalso; eapply klt_irrefl; eauto|].
      exfalso. eapply klt_irrefl, klt_trans; [exact E | eapply lb_in; eauto].
    + apply key_cmp_gt in E. rewrite IH by auto. split; auto.
      intros [H|H]; auto. inversion H; subst. exfalso; eapply klt_irrefl; eauto.
Qed.

Lemma lb_put : forall m a k v, lb a m -> klt a k -> lb a (kv_put m k v).
Proof.
  induction m as [|[k0 v0] t IH]; cbn; intros a k v H1 H2; auto.
  destruct H1 as [H1 H3]. destruct (key_cmp k k0) eqn:E; cbn; auto.
Qed.

Lemma sorted_put : forall m k v, sorted m -> sorted (kv_put m k v).
Proof.
  induction m as [|[k0 v0] t IH]; cbn; intros k v HS; auto.
  destruct HS as [HL HS]. destruct (key_cmp k k0) eqn:E; cbn.
  - apply key_cmp_eq in E. subst. auto.
  - apply key_cmp_lt in E. repeat split; auto. eapply lb_trans; eauto.
  - apply key_cmp_gt in E. split; auto. apply lb_put; auto.
Qed.

Lemma get_put : forall m k v k', sorted m ->
  kv_get (kv_put m k v) k' = if key_eqb k' k then Some v else kv_get m k'.
Proof.
  induction m as [|[k0 v0] t IH]; cbn; intros k v k' HS.
  - unfold key_eqb. destruct (key_cmp k' k); auto.
  - destruct HS as [HL HS]. unfold key_eqb. destruct (key_cmp k k0) eqn:E; cbn.
    + apply key_cmp_eq in E. subst k0. destruct (key_cmp k' k); auto.
    + apply key_cmp_lt in E. destruct (key_cmp k' k) eqn:E2; auto.
      apply key_cmp_lt in E2. assert (klt k' k0) by (eapply klt_trans; eauto).
      apply key_cmp_lt in H. now rewrite H.
    + apply key_cmp_gt in E. destruct (key_cmp k' k0) eqn:E3.
      * apply key_cmp_eq in E3. subst k0. apply key_cmp_lt in E. now rewrite E.
      * apply key_cmp_lt in E3. assert (klt k' k) by (eapply klt_trans; eauto).
        apply key_cmp_lt in H. now rewrite H.
      * rewrite IH by auto. reflexivity.
Qed.

Lemma lb_del : forall m a k, lb a m -> lb a (kv_del m k).
Proof.
  induction m as [|[k0 v0] t IH]; cbn; intros a k H; auto.
  destruct H as [H1 H2]. destruct (key_cmp k k0); cbn; auto.
Qed.

Lemma sorted_del : forall m k, sorted m -> sorted (kv_del m k).
Proof.
  induction m as [|[k0 v0] t IH]; cbn; intros k HS; auto.
  destruct HS as [HL HS]. destruct (key_cmp k k0); cbn; auto. split; auto. now apply lb_del.
Qed.

Lemma get_del : forall m k k', sorted m ->
  kv_get (kv_del m k) k' = if key_eqb k' k then None else kv_get m k'.
Proof.
  induction m as [|[k0 v0] t IH]; cbn; intros k k' HS.
  - now destruct (key_eqb k' k).
  - destruct HS as [HL HS]. unfold key_eqb. destruct (key_cmp k k0) eqn:E; cbn.
    + apply key_cmp_eq in E. subst k0. destruct (key_cmp k' k) eqn:E2; auto.
      * apply key_cmp_eq in E2. subst. now apply get_lb_none.
      * apply key_cmp_lt in E2. apply get_lb_none. eapply lb_trans; eauto.
    + apply key_cmp_lt in E. destruct (key_cmp k' k) eqn:E2; auto.
      apply key_cmp_eq in E2. subst. apply key_cmp_lt in E. now rewrite E.
    + apply key_cmp_gt in E. destruct (key_cmp k' k0) eqn:E3.
      * apply key_cmp_eq in E3. subst k0. apply key_cmp_lt in E. now rewrite E.
      * apply key_cmp_lt in E3. assert (klt k' k) by (eapply klt_trans; eauto).
        apply key_cmp_lt in H. now rewrite H.
      * rewrite IH by auto. reflexivity.
Qed.

Lemma lb_filter : forall (f : key * value -> bool) m a, lb a m -> lb a (filter f m).
Proof.
  induction m as [|[k0 v0] t IH]; cbn; intros a H; auto.
  destruct H as [H1 H2]. destruct (f (k0, v0)); cbn; auto.
Qed.
Lemma sorted_filter : forall (f : key * value -> bool) m, sorted m -> sorted (filter f m).
Proof.
  induction m as [|[k0 v0] t IH]; cbn; intros HS; auto.
  destruct HS as [HL HS]. destruct (f (k0, v0)); cbn; auto. split; auto. now apply lb_filter.
Qed.

Lemma get_filter : forall (p : key -> bool) m k, sorted m ->
  kv_get (filter (fun kv => p (fst kv)) m) k = if p k then kv_get m k else None.
Proof.
  intros p m k HS.
  destruct (kv_get (filter (fun kv => p (fst kv)) m) k) eqn:E.
  - apply get_in in E; [|now apply sorted_filter]. apply filter_In in E. destruct E as [E1 E2].
    cbn in E2. rewrite E2. symmetry. now apply get_in.
  - destruct (p k) eqn:P; auto. destruct (kv_get m k) eqn:E2; auto.
    apply get_in in E2; auto.
    assert (In (k, v) (filter (fun kv => p (fst kv)) m)) by (apply filter_In; split; auto).
    apply get_in in H; [|now apply sorted_filter]. congruence.
Qed.

Lemma sorted_del_range : forall m fk lk, sorted m -> sorted (kv_del_range m fk lk).
Proof. intros. now apply sorted_filter. Qed.
Lemma get_del_range : forall m fk lk k, sorted m ->
  kv_get (kv_del_range m fk lk) k = if in_rangeb fk lk false k then None else kv_get m k.
Proof.
  intros. unfold kv_del_range.
  rewrite (get_filter (fun k => negb (in_rangeb fk lk false k))) by auto.
  now destruct (in_rangeb fk lk false k).
Qed.

Definition wkey (w : wop) : key := match w with WPut k _ => k | WDel k => k end.
(* the effect of a batch on one key: None = untouched *)
Fixpoint wb_last (b : wb) (k : key) : option (option value) :=
  match b with
  | [] => None
  | w :: t =>
    match wb_last t k with
    | Some r => Some r
    | None => if key_eqb k (wkey w) then Some (match w with WPut _ v => Some v | WDel _ => None end) else None
    end
  end.

Lemma sorted_commit : forall b m, sorted m -> sorted (kv_commit m b).
Proof.
  induction b as [|w t IH]; intros m HS; [exact HS|].
  change (kv_commit m (w :: t)) with (kv_commit (kv_apply m w) t).
  apply IH. destruct w; cbn; [now apply sorted_put | now apply sorted_del].
Qed.

Lemma get_commit : forall b m k, sorted m ->
  kv_get (kv_commit m b) k = match wb_last b k with Some r => r | None => kv_get m k end.
Proof.
  induction b as [|w t IH]; intros m k HS; [reflexivity|].
  change (kv_commit m (w :: t)) with (kv_commit (kv_apply m w) t). cbn [wb_last].
  rewrite IH by (destruct w; cbn; [now apply sorted_put | now apply sorted_del]).
  destruct (wb_last t k); auto.
  destruct w; cbn [kv_apply wkey]; [rewrite get_put by auto | rewrite get_del by auto];
    now destruct (key_eqb k k0).
Qed.

Lemma wb_last_app : forall b1 b2 k,
  wb_last (b1 ++ b2) k = match wb_last b2 k with Some r => Some r | None => wb_last b1 k end.
Proof.
  induction b1 as [|w t IH]; cbn; intros b2 k.
  - now destruct (wb_last b2 k).
  - rewrite IH. destruct (wb_last b2 k); auto.
Qed.

Lemma wb_last_none : forall b k, (forall w, In w b -> wkey w <> k) -> wb_last b k = None.
Proof.
  induction b as [|w t IH]; cbn; intros k H; auto.
  rewrite IH by auto. unfold key_eqb. destruct (key_cmp k (wkey w)) eqn:E; auto.
  apply key_cmp_eq in E. exfalso. eapply H; eauto.
Qed.

Lemma key_eqb_eq : forall a b, key_eqb a b = true <-> a = b.
Proof.
  intros a b. unfold key_eqb. destruct (key_cmp a b) eqn:E; split; try discriminate; auto.
  - intros _. now apply key_cmp_eq.
  - intros ->. rewrite key_cmp_refl in E. discriminate.
  - intros ->. rewrite key_cmp_refl in E. discriminate.
Qed.
Lemma key_eqb_refl : forall a, key_eqb a a = true.
Proof. intros. now apply key_eqb_eq. Qed.
Lemma key_eqb_neq : forall a b, a <> b -> key_eqb a b = false.
Proof. intros a b H. destruct (key_eqb a b) eqn:E; auto. apply key_eqb_eq in E. contradiction. Qed.

Lemma range_lb_nil : forall m fk lk inc a, lb a m -> (inc = false -> kle lk a) -> (inc = true -> klt lk a) ->
  kv_range m fk lk inc = [].
Proof.
  induction m as [|[k0 v0] t IH]; cbn; intros fk lk inc a HL H1 H2; auto.
  destruct HL as [HL1 HL2]. unfold kv_range in *. cbn.
  assert (in_rangeb fk lk inc k0 = false) as ->.
  { unfold in_rangeb. apply andb_false_iff. right. destruct inc.
    - apply not_true_is_false. rewrite key_leb_spec. intros [H|H].
      + eapply klt_irrefl, klt_trans; [exact H|]. eapply klt_trans; [apply H2; auto | exact HL1].
      + subst. eapply klt_irrefl, klt_trans; [apply H2; auto | exact HL1].
    - apply not_true_is_false. rewrite key_ltb_spec. intros H. destruct (H1 eq_refl) as [H3|H3].
      + eapply klt_irrefl, klt_trans; [exact H|]. eapply klt_trans; eauto.
      + subst. eapply klt_irrefl, klt_trans; eauto. }
  eapply IH; eauto.
Qed.

Lemma range_split : forall m a b c, sorted m -> kle a b -> kle b c ->
  kv_range m a c false = kv_range m a b false ++ kv_range m b c false.
Proof.
  induction m as [|[k0 v0] t IH]; intros a b c HS Hab Hbc; auto.
  destruct HS as [HL HS]. unfold kv_range in *. cbn [filter fst].
  specialize (IH a b c HS Hab Hbc).
  destruct (klt_total k0 b) as [Hb|Hb].
  - (* k0 < b: not in [b,c) *)
    assert (in_rangeb b c false k0 = false) as E2.
    { unfold in_rangeb. apply andb_false_iff. left. apply not_true_is_false. rewrite key_leb_spec.
      intros [H|H]; [eapply klt_irrefl, klt_trans; eauto | subst; eapply klt_irrefl; eauto]. }
    rewrite E2.
    assert (in_rangeb a c false k0 = in_rangeb a b false k0) as E1.
    { unfold in_rangeb. f_equal.
      assert (key_ltb k0 b = true) as -> by now apply key_ltb_spec.
      apply key_ltb_spec. destruct Hbc as [H|H]; [eapply klt_trans; eauto | now subst]. }
    rewrite E1. destruct (in_rangeb a b false k0); cbn; now rewrite IH.
  - (* b <= k0: not in [a,b), and nothing of t is in [a,b) *)
    assert (kle b k0) as Hbk by (destruct Hb as [H|H]; [right; auto | left; auto]).
    assert (in_rangeb a b false k0 = false) as E1.
    { unfold in_rangeb. apply andb_false_iff. right. apply not_true_is_false. rewrite key_ltb_spec.
      intros H. destruct Hbk as [H1|H1]; [eapply klt_irrefl, klt_trans; eauto | subst; eapply klt_irrefl; eauto]. }
    rewrite E1.
    assert (filter (fun kv => in_rangeb a b false (fst kv)) t = []) as E3.
    { apply (range_lb_nil t a b false k0); [exact HL | intros _; exact Hbk | discriminate]. }
    rewrite E3 in *. cbn [app] in *.
    assert (in_rangeb a c false k0 = in_rangeb b c false k0) as E4.
    { unfold in_rangeb. f_equal.
      assert (key_leb b k0 = true) as -> by now apply key_leb_spec.
      apply key_leb_spec. eapply kle_trans; eauto. }
    rewrite E4. destruct (in_rangeb b c false k0); cbn; now rewrite IH.
Qed.

Lemma range_single : forall m a c k, sorted m ->
  (forall k', kle a k' -> klt k' c -> k' = k) -> kle a k -> klt k c ->
  kv_range m a c false = match kv_get m k with Some v => [(k, v)] | None => [] end.
Proof.
  induction m as [|[k0 v0] t IH]; intros a c k HS Honly Hak Hkc; auto.
  destruct HS as [HL HS].
  assert (Hne : forall k', k' <> k -> in_rangeb a c false k' = false).
  { intros k' Hn. destruct (in_rangeb a c false k') eqn:R; auto. unfold in_rangeb in R.
    apply andb_true_iff in R. destruct R as [R1 R2]. apply key_leb_spec in R1. apply key_ltb_spec in R2.
    exfalso. apply Hn. now apply Honly. }
  assert (Hgt : forall k', klt k k' -> in_rangeb a c false k' = false).
  { intros k' Hlt. apply Hne. intros ->. eapply klt_irrefl; eauto. }
  unfold kv_range in *. cbn [filter fst kv_get].
  destruct (key_cmp k k0) eqn:E.
  - apply key_cmp_eq in E. subst k0.
    assert (in_rangeb a c false k = true) as ->.
    { unfold in_rangeb. apply andb_true_iff. split; [now apply key_leb_spec | now apply key_ltb_spec]. }
    f_equal. apply filter_nil. intros [k' v'] HI. cbn. apply Hgt. eapply lb_in; eauto.
  - apply key_cmp_lt in E. rewrite Hgt by auto.
    apply filter_nil. intros [k' v'] HI. cbn. apply Hgt. eapply klt_trans; [exact E | eapply lb_in; eauto].
  - apply key_cmp_gt in E. rewrite Hne by (intros ->; eapply klt_irrefl; eauto). now apply IH.
Qed.

Lemma pre_klt : forall t s r i j, klt (mkKey t s r i) (mkKey t s r j) <-> i < j.
Proof. intros. unfold klt; cbn. lia. Qed.

Lemma pre_kle : forall t s r i j, kle (mkKey t s r i) (mkKey t s r j) <-> i <= j.
Proof.
  intros. unfold kle. rewrite pre_klt. split.
  - intros [H|H]; [lia | inversion H; lia].
  - intros H. destruct (N.eq_dec i j); [right; now subst | left; lia].
Qed.

Lemma pre_between : forall t s r i j k, kle (mkKey t s r i) k -> klt k (mkKey t s r j) ->
  exists x, k = mkKey t s r x /\ i <= x < j.
Proof.
  intros t s r i j [t' s' r' x] H1 H2. unfold kle, klt in *; cbn in *.
  assert (t' = t /\ s' = s /\ r' = r /\ i <= x < j) as (-> & -> & -> & H).
  { destruct H1 as [H1|H1]; [|inversion H1; subst; lia]. lia. }
  exists x. auto.
Qed.

Lemma in_range_prefix : forall t s r hi k,
  in_rangeb (mkKey t s r 0) (mkKey t s r hi) false k = true <-> exists x, k = mkKey t s r x /\ x < hi.
Proof.
  intros t s r hi k. unfold in_rangeb. rewrite andb_true_iff, key_leb_spec, key_ltb_spec. split.
  - intros [H1 H2]. destruct (pre_between _ _ _ _ _ _ H1 H2) as (x & -> & Hx). exists x. split; auto. lia.
  - intros (x & -> & Hx). split; [apply pre_kle; lia | apply pre_klt; lia].
Qed.

Lemma range_empty : forall m a, kv_range m a a false = [].
Proof.
  intros. unfold kv_range. apply filter_nil. intros [k v] _. cbn. unfold in_rangeb.
  destruct (key_leb a k) eqn:E1; auto. destruct (key_ltb k a) eqn:E2; auto.
  apply key_leb_spec in E1. apply key_ltb_spec in E2. exfalso.
  destruct E1 as [E1|E1]; [eapply klt_irrefl, klt_trans; eauto | subst; eapply klt_irrefl; eauto].
Qed.

Lemma range_inc : forall m a t s r i,
  kv_range m a (mkKey t s r i) true = kv_range m a (mkKey t s r (i + 1)) false.
Proof.
  intros. unfold kv_range. apply filter_ext. intros [k v]. cbn. unfold in_rangeb. f_equal.
  destruct (key_leb k (mkKey t s r i)) eqn:E1; destruct (key_ltb k (mkKey t s r (i + 1))) eqn:E2; auto; exfalso.
  - apply key_leb_spec in E1. apply not_true_iff_false in E2. apply E2. apply key_ltb_spec.
    destruct k as [t' s' r' x]. unfold kle, klt in *; cbn in *.
    destruct E1 as [E1|E1]; [lia | inversion E1; subst; lia].
  - apply key_ltb_spec in E2. apply not_true_iff_false in E1. apply E1. apply key_leb_spec.
    destruct k as [t' s' r' x]. unfold kle, klt in *; cbn in *.
    assert ((t' < t \/ (t' = t /\ (s' < s \/ (s' = s /\ (r' < r \/ (r' = r /\ x < i))))))
            \/ (t' = t /\ s' = s /\ r' = r /\ x = i)) as [H|(-> & -> & -> & ->)] by lia;
      [left; exact H | now right].
Qed.

Lemma range_step : forall m t s r lo hi, sorted m -> lo < hi ->
  kv_range m (mkKey t s r lo) (mkKey t s r hi) false =
  match kv_get m (mkKey t s r lo) with Some v => [(mkKey t s r lo, v)] | None => [] end
  ++ kv_range m (mkKey t s r (lo + 1)) (mkKey t s r hi) false.
Proof.
  intros m t s r lo hi HS H.
  rewrite (range_split m _ (mkKey t s r (lo + 1))) by (auto; apply pre_kle; lia).
  rewrite (range_single m _ _ (mkKey t s r lo)); auto; [|apply pre_kle; lia | apply pre_klt; lia].
  intros k' H1 H2. destruct (pre_between _ _ _ _ _ _ H1 H2) as (x & -> & Hx). f_equal. lia.
Qed.

Lemma range_contig : forall es m t s r lo, sorted m -> contig lo es ->
  (forall e, In e es -> kv_get m (mkKey t s r (e_index e)) = Some (VEntry e)) ->
  kv_range m (mkKey t s r lo) (mkKey t s r (lo + nlen es)) false
  = map (fun e => (mkKey t s r (e_index e), VEntry e)) es.
Proof.
  induction es as [|e es IH]; intros m t s r lo HS HC HG.
  - replace (lo + nlen []) with lo by (unfold nlen; cbn; lia). apply range_empty.
  - destruct HC as [HC1 HC2]. rewrite nlen_cons.
    rewrite range_step by (auto; lia).
    rewrite <- HC1 at 1. rewrite HG by (left; auto). cbn [map app]. rewrite HC1. f_equal.
    replace (lo + (nlen es + 1)) with (lo + 1 + nlen es) by lia.
    apply IH; auto. intros e' HI. apply HG. now right.
Qed.

Lemma range_none : forall m t s r i j, sorted m ->
  (forall x, i <= x < j -> kv_get m (mkKey t s r x) = None) ->
  kv_range m (mkKey t s r i) (mkKey t s r j) false = [].
Proof.
  intros m t s r i j HS HN. unfold kv_range. apply filter_nil. intros [k v] HI. cbn.
  destruct (in_rangeb (mkKey t s r i) (mkKey t s r j) false k) eqn:E; auto. exfalso.
  unfold in_rangeb in E. apply andb_true_iff in E. destruct E as [E1 E2].
  apply key_leb_spec in E1. apply key_ltb_spec in E2.
  destruct (pre_between _ _ _ _ _ _ E1 E2) as (x & -> & Hx).
  apply get_in in HI; auto. rewrite HN in HI by auto. discriminate.
Qed.

Fixpoint sparse (m : kv) (t s r lo : N) (cnt : nat) : kv :=
  match cnt with
  | O => []
  | S c => (match kv_get m (mkKey t s r lo) with Some v => [(mkKey t s r lo, v)] | None => [] end)
           ++ sparse m t s r (lo + 1) c
  end.

Lemma range_sparse : forall cnt m t s r lo, sorted m ->
  kv_range m (mkKey t s r lo) (mkKey t s r (lo + N.of_nat cnt)) false = sparse m t s r lo cnt.
Proof.
  induction cnt as [|c IH]; intros m t s r lo HS.
  - replace (lo + N.of_nat 0) with lo by lia. apply range_empty.
  - cbn [sparse]. rewrite range_step by (auto; lia).
    f_equal. replace (lo + N.of_nat (S c)) with (lo + 1 + N.of_nat c) by lia. now apply IH.
Qed.
