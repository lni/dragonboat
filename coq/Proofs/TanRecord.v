(* C10 — proofs about tan's record framing (Model/TanRecord.v): what the reader makes of the
   bytes the writer produced, complete or cut.  The reader's behaviour on one chunk is settled
   first (a well-formed data header followed by any bytes; fewer bytes than a header; the padding
   at a block end).  A record of any size is then read back, or rejected with a recoverable verdict
   when cut, by following the writer's recursion; the first chunk and the continuation chunks are
   instances of one statement.  For a log, replay returns the complete records and the verdict of
   whatever follows them; round trip and torn last record are corollaries. *)
From Coq Require Import List NArith Bool Lia.
From DB Require Import Base.Bytes Proofs.Bytes Gen.GenC10 Model.TanRecord.
Import ListNotations.
Open Scope N_scope.
(* Proofs.Bytes installs a clean-up pass that runs before every lia; no lia goal here needs it *)
Ltac Zify.zify_post_hook ::= idtac.

Lemma blk_val : blk = 32768. Proof. reflexivity. Qed.
Lemma hdr_val : hdr = 7. Proof. reflexivity. Qed.
Lemma rhdr_val : rhdr = 11. Proof. reflexivity. Qed.
Lemma ty_full_val : ty_full = 1. Proof. reflexivity. Qed.

Lemma add_blk_mod : forall x, (blk + x) mod blk = x mod blk.
Proof.
  intros. rewrite <- N.add_mod_idemp_l, N.mod_same by discriminate. reflexivity.
Qed.

Lemma nlen_takeN : forall {A} n (l : list A), n <= nlen l -> nlen (takeN n l) = n.
Proof. intros. unfold takeN, nlen in *. rewrite firstn_length. lia. Qed.
Lemma nlen_zeros : forall n, nlen (zeros n) = n.
Proof. intros. unfold nlen, zeros. rewrite repeat_length. lia. Qed.
Lemma length_dropN : forall {A} n (l : list A), length (dropN n l) = (length l - N.to_nat n)%nat.
Proof. intros. apply skipn_length. Qed.
Lemma dropN_fuel : forall {A} n (l : list A), (length (dropN n l) < S (S (length l)))%nat.
Proof. intros. rewrite length_dropN. lia. Qed.
Lemma takeN_dropN : forall {A} n (l : list A), takeN n l ++ dropN n l = l.
Proof. intros. apply firstn_skipn. Qed.
Lemma takeN_takeN : forall {A} a b (l : list A), a <= b -> takeN a (takeN b l) = takeN a l.
Proof.
  intros. unfold takeN. rewrite firstn_firstn. f_equal. lia.
Qed.
Lemma takeN_all : forall {A} n (l : list A), nlen l <= n -> takeN n l = l.
Proof. intros A n l H. unfold takeN, nlen in *. apply firstn_all2. lia. Qed.
Lemma takeN_app_le : forall {A} n (a b : list A), n <= nlen a -> takeN n (a ++ b) = takeN n a.
Proof.
  intros. unfold takeN, nlen in *. rewrite firstn_app.
  replace (N.to_nat n - length a)%nat with 0%nat by lia. apply app_nil_r.
Qed.
Lemma takeN_app_ge : forall {A} n (a b : list A), nlen a <= n -> takeN n (a ++ b) = a ++ takeN (n - nlen a) b.
Proof.
  intros A n a b H. unfold takeN, nlen in *. rewrite firstn_app. f_equal.
  - apply firstn_all2. lia.
  - f_equal. lia.
Qed.
Lemma takeN_app : forall {A} (a b : list A), takeN (nlen a) (a ++ b) = a.
Proof. intros. rewrite takeN_app_le, takeN_all; reflexivity. Qed.
Lemma dropN_app_ge : forall {A} n (a b : list A), nlen a <= n -> dropN n (a ++ b) = dropN (n - nlen a) b.
Proof.
  intros A n a b H. unfold dropN, nlen in *. rewrite skipn_app, skipn_all2 by lia. cbn [app].
  f_equal. lia.
Qed.
Lemma dropN_app : forall {A} (a b : list A), dropN (nlen a) (a ++ b) = b.
Proof. intros. rewrite dropN_app_ge, N.sub_diag; reflexivity. Qed.

Section Tan.
Variable ck : bytes -> N.
Variable lognum : N.
Hypothesis ck_u32 : forall b, ck b < 2 ^ 32.

Definition header (ty : N) (p : bytes) : bytes := le 4 (ck (ty :: p)) ++ le 2 (nlen p) ++ [ty].

Lemma chunk_header : forall ty p, chunk ck ty p = header ty p ++ p.
Proof. intros. unfold chunk, header. now rewrite <- !app_assoc. Qed.

Lemma chunk_len : forall ty p, nlen (chunk ck ty p) = hdr + nlen p.
Proof. intros. unfold chunk, nlen. rewrite !app_length, !le_length, hdr_val. cbn [length]. lia. Qed.

Definition is_last_ty (ty : N) : bool := (ty =? ty_full) || (ty =? ty_last).
Definition is_first_ty (ty : N) : bool := (ty =? ty_full) || (ty =? ty_first).

(* fewer bytes than a header, and not beyond the block end: the reader stops, with a verdict
   open() recovers from *)
Lemma next_chunk_short : forall fuel wf off suf,
  nlen suf < hdr -> off + nlen suf <= blk ->
  exists v, next_chunk ck lognum (S fuel) wf off suf = ChStop v /\ recoverable v = true.
Proof.
  intros fuel wf off suf Hh Hb. cbn [next_chunk].
  replace (hdr <=? N.min (blk - off) (nlen suf)) with false by (symmetry; apply N.leb_gt; lia).
  destruct (blk - off <=? nlen suf) eqn:E.
  - apply N.leb_le in E.
    replace (dropN (blk - off) suf) with (@nil N) by (symmetry; apply skipn_all2; unfold nlen in *; lia).
    destruct wf; eexists; split; reflexivity.
  - destruct suf, (off =? 0), wf; eexists; split; reflexivity.
Qed.

(* the block has no room for a header: the reader moves to the next block, whatever the
   bytes left in this one are *)
Lemma next_chunk_jump : forall fuel wf off pad rest,
  off + nlen pad = blk -> nlen pad < hdr -> rest <> [] ->
  next_chunk ck lognum (S fuel) wf off (pad ++ rest) = next_chunk ck lognum fuel wf 0 rest.
Proof.
  intros fuel wf off pad rest Hl Hp Hr. cbn [next_chunk]. rewrite nlen_app.
  replace (blk - off) with (nlen pad) by lia.
  replace (hdr <=? N.min (nlen pad) (nlen pad + nlen rest)) with false by (symmetry; apply N.leb_gt; lia).
  replace (nlen pad <=? nlen pad + nlen rest) with true by (symmetry; apply N.leb_le; lia).
  rewrite dropN_app. destruct rest; [congruence|reflexivity].
Qed.

(* the reader on the header of a data chunk with payload p, followed by any bytes: it wants
   the whole payload inside the block, and the checksum of what it finds there *)
Lemma next_chunk_data : forall ty fuel wf off p body,
  In ty [ty_full; ty_first; ty_middle; ty_last] -> nlen p < 65536 -> off + hdr <= blk ->
  next_chunk ck lognum (S fuel) wf off (header ty p ++ body) =
  if N.min (blk - off) (hdr + nlen body) <? hdr + nlen p then ChStop VInvalid
  else if negb (ck (ty :: p) =? ck (ty :: takeN (nlen p) body)) then ChStop VCrc
  else if wf && negb (is_first_ty ty)
       then next_chunk ck lognum fuel wf ((off + hdr + nlen p) mod blk) (dropN (nlen p) body)
       else ChOk (takeN (nlen p) body) (is_last_ty ty) ((off + hdr + nlen p) mod blk) (dropN (nlen p) body).
Proof.
  intros ty fuel wf off p body Hty Hp Ho. pose proof hdr_val.
  assert (HS : exists a b c d e f, header ty p = [a; b; c; d; e; f; ty] /\
                 le_dec [a; b; c; d] = ck (ty :: p) /\ le_dec [e; f] = nlen p).
  { unfold header.
    pose proof (le_dec_le 4 (ck (ty :: p)) (ck_u32 _)) as H4. pose proof (le_dec_le 2 (nlen p) Hp) as H2.
    pose proof (le_length 4 (ck (ty :: p))) as L4. pose proof (le_length 2 (nlen p)) as L2.
    destruct (le 4 (ck (ty :: p))) as [|a [|b [|c [|d [|]]]]]; try discriminate.
    destruct (le 2 (nlen p)) as [|e [|f [|]]]; try discriminate. exists a, b, c, d, e, f. auto. }
  destruct HS as (a & b & c & d & e & f & -> & HC & HL).
  set (h := [a; b; c; d; e; f; ty]). set (suf := h ++ body).
  assert (LH : nlen h = hdr) by reflexivity.
  assert (TK : forall n, takeN (hdr + n) suf = h ++ takeN n body).
  { intros n. unfold suf. rewrite takeN_app_ge, LH by (rewrite LH; apply N.le_add_r). now rewrite N.add_comm, N.add_sub. }
  assert (DK : forall n, dropN (hdr + n) suf = dropN n body).
  { intros n. unfold suf. rewrite dropN_app_ge, LH by (rewrite LH; apply N.le_add_r). now rewrite N.add_comm, N.add_sub. }
  cbn [next_chunk].
  replace (nlen suf) with (hdr + nlen body) by (unfold suf; now rewrite nlen_app, LH).
  replace (hdr <=? _) with true by (symmetry; apply N.leb_le; clear - Ho; lia).
  change (takeN 4 suf) with [a; b; c; d]. change (takeN 2 (dropN 4 suf)) with [e; f].
  change (nth 6 suf 0) with ty. rewrite HC, HL.
  replace (ty =? 0) with false by (destruct Hty as [<-|[<-|[<-|[<-|[]]]]]; reflexivity).
  rewrite andb_false_r.
  replace ((c10_tan_recyclable_full_chunk <=? ty) && (ty <=? c10_tan_recyclable_last_chunk))
    with false by (destruct Hty as [<-|[<-|[<-|[<-|[]]]]]; reflexivity).
  cbn [andb]. rewrite TK, DK. change (dropN hdr suf) with body.
  reflexivity.
Qed.

Lemma next_chunk_any : forall ty fuel wf off p rest,
  In ty [ty_full; ty_first; ty_middle; ty_last] ->
  (wf = true -> is_first_ty ty = true) ->
  off + hdr + nlen p <= blk ->
  next_chunk ck lognum (S fuel) wf off (chunk ck ty p ++ rest)
  = ChOk p (is_last_ty ty) ((off + hdr + nlen p) mod blk) rest.
Proof.
  intros ty fuel wf off p rest Hty Hwf Hfit. pose proof blk_val.
  rewrite chunk_header, <- app_assoc, next_chunk_data by (auto; lia).
  rewrite nlen_app, takeN_app, dropN_app, N.eqb_refl.
  replace (_ <? _) with false by (symmetry; apply N.ltb_ge; lia).
  destruct wf; [rewrite Hwf|]; reflexivity.
Qed.

Lemma torn_chunk_any : forall ty fuel wf off p c,
  In ty [ty_full; ty_first; ty_middle; ty_last] ->
  off + hdr + nlen p <= blk -> c < hdr + nlen p ->
  exists v, next_chunk ck lognum (S fuel) wf off (takeN c (chunk ck ty p)) = ChStop v /\
            recoverable v = true.
Proof.
  intros ty fuel wf off p c Hty Hfit Hcut. pose proof blk_val. pose proof hdr_val.
  pose proof (chunk_len ty p) as LC.
  destruct (N.lt_ge_cases c hdr) as [C|C].
  - apply next_chunk_short; rewrite nlen_takeN; lia.
  - (* the header is complete, the payload is not *)
    rewrite chunk_header in *. rewrite nlen_app in LC.
    rewrite takeN_app_ge, next_chunk_data by (auto; lia).
    replace (_ <? _) with true; [eexists; split; reflexivity|].
    symmetry. apply N.ltb_lt. rewrite nlen_takeN; lia.
Qed.

(* what read_record and read_rest do next: read a chunk - the first one of a record or not -
   append its payload to acc, go on until the last chunk *)
Definition read_from (first : bool) (acc : bytes) (fn fr : nat) (off : N) (suf : bytes) : rec_res :=
  match next_chunk ck lognum (S fn) first off suf with
  | ChStop v => RecStop v
  | ChOk x l off' suf' => read_rest ck lognum fr (acc ++ x) l off' suf'
  end.

Lemma read_record_from : forall off suf,
  read_record ck lognum off suf = read_from true [] (length suf) (S (length suf)) off suf.
Proof. reflexivity. Qed.

Lemma read_rest_from : forall fr acc off suf,
  read_rest ck lognum (S fr) acc false off suf = read_from false acc (length suf) fr off suf.
Proof. reflexivity. Qed.

Lemma read_rest_last : forall fuel acc off suf,
  read_rest ck lognum fuel acc true off suf = RecOk acc off suf.
Proof. intros. destruct fuel; reflexivity. Qed.

Lemma emit_nonempty : forall f first avail p, exists b t, emit ck (S f) first avail p = b :: t.
Proof. intros. cbn [emit]. unfold chunk. cbn [le app]. destruct (nlen p <=? avail); eauto. Qed.

(* the arithmetic of a chunk that is not the last one of its record: it fills the block, the
   next one starts a block, and emit's fuel still exceeds what is left *)
Lemma emit_step : forall off avail (p : bytes) f,
  off + hdr + avail = blk -> avail < nlen p -> (length (dropN avail p) < S f)%nat ->
  nlen (takeN avail p) = avail /\ off + hdr + nlen (takeN avail p) <= blk /\
  (length (dropN (blk - hdr) (dropN avail p)) < f)%nat.
Proof.
  intros off avail p f Ho E Hfe. pose proof blk_val. pose proof hdr_val.
  assert (LT : nlen (takeN avail p) = avail) by (apply nlen_takeN; lia).
  rewrite LT, !length_dropN in *. unfold nlen in E. repeat split; lia.
Qed.

(* a chunk that is not the last one of its record is read, and the reader stands at the start
   of the next block with its payload appended *)
Lemma read_from_nonlast : forall (first : bool) acc fn fr off avail p X,
  off + hdr + avail = blk -> avail < nlen p ->
  read_from first acc fn (S fr) off (chunk ck (if first then ty_first else ty_middle) (takeN avail p) ++ X)
  = read_from false (acc ++ takeN avail p) (length X) fr 0 X.
Proof.
  intros first acc fn fr off avail p X Ho E. unfold read_from at 1.
  assert (LT : nlen (takeN avail p) = avail) by (apply nlen_takeN, N.lt_le_incl, E).
  rewrite next_chunk_any; [|destruct first; cbn; auto|destruct first; auto|rewrite LT, Ho; apply N.le_refl].
  replace (is_last_ty _) with false by (destruct first; reflexivity).
  now rewrite LT, Ho, N.mod_same by discriminate.
Qed.

(* the chunks of a payload p, emitted at block offset off with room for avail payload bytes
   in the block, are read back as p.  The first chunk of a record (any offset) and its
   continuation (block start) are both instances. *)
Lemma emit_read : forall fe first off avail p acc fn fr rest,
  off + hdr + avail = blk ->
  (length (dropN avail p) < fe)%nat ->
  (length (emit ck fe first avail p) <= fr)%nat ->
  read_from first acc fn fr off (emit ck fe first avail p ++ rest)
  = RecOk (acc ++ p) ((off + nlen (emit ck fe first avail p)) mod blk) rest.
Proof.
  induction fe as [|f IH]; intros first off avail p acc fn fr rest Ho Hfe Hfr; [lia|].
  cbn [emit] in *. destruct (nlen p <=? avail) eqn:E.
  - apply N.leb_le in E. unfold read_from.
    rewrite next_chunk_any; [|destruct first; cbn; auto|destruct first; auto|clear - Ho E; lia].
    replace (is_last_ty _) with true by (destruct first; reflexivity).
    now rewrite read_rest_last, chunk_len, N.add_assoc.
  - apply N.leb_gt in E. destruct (emit_step off avail p f Ho E Hfe) as (LT & _ & Hf).
    pose proof (chunk_len (if first then ty_first else ty_middle) (takeN avail p)) as LC.
    rewrite app_length in Hfr.
    destruct fr as [|fr']; [clear - Hfr LC; pose proof hdr_val; unfold nlen in *; lia|].
    rewrite <- app_assoc, read_from_nonlast by assumption. rewrite IH; [|reflexivity|exact Hf|].
    + rewrite <- app_assoc, takeN_dropN, nlen_app, LC, LT, !N.add_assoc, Ho, add_blk_mod. reflexivity.
    + clear - Hfr LC. pose proof hdr_val. unfold nlen in LC. lia.
Qed.

Lemma emit_torn : forall fe first off avail p acc fn fr c,
  off + hdr + avail = blk ->
  (length (dropN avail p) < fe)%nat -> (N.to_nat c <= fr)%nat ->
  c < nlen (emit ck fe first avail p) ->
  exists v, read_from first acc fn fr off (takeN c (emit ck fe first avail p)) = RecStop v /\
            recoverable v = true.
Proof.
  induction fe as [|f IH]; intros first off avail p acc fn fr c Ho Hfe Hfr Hc; [lia|].
  cbn [emit] in *. destruct (nlen p <=? avail) eqn:E.
  - apply N.leb_le in E. rewrite chunk_len in Hc. unfold read_from.
    destruct (torn_chunk_any (if first then ty_full else ty_last) fn first off p c) as (v & -> & R);
      [destruct first; cbn; auto|clear - Ho E; lia|exact Hc|eauto].
  - apply N.leb_gt in E. destruct (emit_step off avail p f Ho E Hfe) as (LT & Hfit & Hf).
    pose proof (chunk_len (if first then ty_first else ty_middle) (takeN avail p)) as LC.
    rewrite LT in LC.
    destruct (N.lt_ge_cases c (hdr + avail)) as [C|C].
    + rewrite takeN_app_le by (rewrite LC; apply N.lt_le_incl, C). unfold read_from.
      destruct (torn_chunk_any (if first then ty_first else ty_middle) fn first off (takeN avail p) c)
        as (v & -> & R); [destruct first; cbn; auto|exact Hfit|now rewrite LT|eauto].
    + rewrite nlen_app, LC in Hc. pose proof hdr_val.
      destruct fr as [|fr']; [clear - Hfr C H; lia|].
      rewrite takeN_app_ge, LC, read_from_nonlast by assumption || now rewrite LC.
      apply IH; [reflexivity|exact Hf|clear - Hfr C H; lia|clear - Hc C; lia].
Qed.

(* where the writer puts a record: at the current offset, or behind zero padding at the start
   of the next block when no header fits any more *)
Lemma write_record_cases : forall pos p, let off := pos mod blk in
  (off + hdr <= blk /\
   write_record ck pos p = emit ck (S (S (length p))) true (blk - (off + hdr)) p) \/
  (exists q, off + q = blk /\ q < hdr /\
   write_record ck pos p = zeros q ++ emit ck (S (S (length p))) true (blk - (0 + hdr)) p).
Proof.
  intros pos p. cbv zeta. unfold write_record, pad_len.
  assert (Ho : pos mod blk < blk) by (apply N.mod_lt; discriminate).
  revert Ho. generalize (pos mod blk). intros off Ho. pose proof hdr_val.
  destruct (blk <? off + hdr) eqn:EP.
  - right. apply N.ltb_lt in EP. exists (blk - off). split; [lia|]. split; [lia|].
    replace (off + (blk - off)) with blk by lia. now rewrite N.mod_same by discriminate.
  - left. apply N.ltb_ge in EP. split; [exact EP|].
    now rewrite N.add_0_r, (N.mod_small off) by exact Ho.
Qed.

(* the reader skips the padding; only the fuel has to be counted *)
Lemma read_record_pad : forall off q X, off + q = blk -> q < hdr -> X <> [] ->
  read_record ck lognum off (zeros q ++ X)
  = read_from true [] (length (zeros q) + pred (length X)) (S (length (zeros q ++ X))) 0 X.
Proof.
  intros off q [|b t] Ho Hq HX; [congruence|].
  rewrite read_record_from, app_length. cbn [length pred]. rewrite Nat.add_succ_r.
  unfold read_from. rewrite next_chunk_jump; [reflexivity| | |discriminate]; now rewrite nlen_zeros.
Qed.

Lemma read_record_written : forall pos p rest,
  read_record ck lognum (pos mod blk) (write_record ck pos p ++ rest)
  = RecOk p ((pos + nlen (write_record ck pos p)) mod blk) rest.
Proof.
  intros pos p rest. rewrite <- N.add_mod_idemp_l by discriminate.
  destruct (write_record_cases pos p) as [[Ho ->]|(q & Ho & Hq & ->)];
    revert Ho; generalize (pos mod blk); intros off Ho.
  - rewrite read_record_from. apply emit_read.
    + clear - Ho. lia.
    + apply dropN_fuel.
    + rewrite app_length. apply Nat.le_succ_r. left. apply Nat.le_add_r.
  - destruct (emit_nonempty (S (length p)) true (blk - (0 + hdr)) p) as (b & t & EE).
    rewrite <- app_assoc, read_record_pad; [|exact Ho|exact Hq|now rewrite EE].
    rewrite nlen_app, nlen_zeros, N.add_assoc, Ho, add_blk_mod.
    apply (emit_read _ true 0).
    + reflexivity.
    + apply dropN_fuel.
    + rewrite !app_length. clear. lia.
Qed.

(* a record cut anywhere before its end (padding included) *)
Lemma read_record_torn_written : forall pos p c,
  c < nlen (write_record ck pos p) ->
  exists v, read_record ck lognum (pos mod blk) (takeN c (write_record ck pos p)) = RecStop v /\
            recoverable v = true.
Proof.
  intros pos p c.
  destruct (write_record_cases pos p) as [[Ho ->]|(q & Ho & Hq & ->)];
    revert Ho; generalize (pos mod blk); intros off Ho Hc.
  - rewrite read_record_from. apply emit_torn; [clear - Ho; lia| | |exact Hc].
    + apply dropN_fuel.
    + pose proof (nlen_takeN c _ (N.lt_le_incl _ _ Hc)) as LT. clear - LT. unfold nlen in LT. lia.
  - rewrite nlen_app, nlen_zeros in Hc.
    destruct (N.le_gt_cases c q) as [C|C].
    + (* the cut is inside the padding or at its end *)
      rewrite takeN_app_le, read_record_from by now rewrite nlen_zeros. unfold read_from.
      destruct (next_chunk_short (length (takeN c (zeros q))) true off (takeN c (zeros q)))
        as (v & -> & R); eauto; rewrite nlen_takeN; rewrite ?nlen_zeros; clear - C Ho Hq; lia.
    + rewrite takeN_app_ge, nlen_zeros by (rewrite nlen_zeros; apply N.lt_le_incl, C).
      assert (LT : nlen (takeN (c - q) (emit ck (S (S (length p))) true (blk - (0 + hdr)) p)) = c - q)
        by (apply nlen_takeN; clear - Hc C; lia).
      rewrite read_record_pad; [|exact Ho|exact Hq|].
      2:{ intros Z. rewrite Z in LT. change (nlen (@nil N)) with 0 in LT. clear - LT C. lia. }
      apply (emit_torn _ true 0); [reflexivity| | |clear - Hc C; lia].
      * apply dropN_fuel.
      * rewrite app_length. clear - LT. unfold nlen in LT. lia.
Qed.

Lemma read_record_nil : forall off, off < blk -> read_record ck lognum off [] = RecStop VEof.
Proof.
  intros off H. unfold read_record. cbn [length next_chunk]. change (nlen (@nil N)) with 0.
  rewrite N.min_0_r. replace (blk - off <=? 0) with false by (symmetry; apply N.leb_gt; lia).
  destruct (off =? 0); reflexivity.
Qed.

Lemma replay_from_written : forall rs k pos tail,
  replay_from ck lognum (length rs + k) (pos mod blk) (frame_from ck pos rs ++ tail)
  = let (rs', v) := replay_from ck lognum k ((pos + nlen (frame_from ck pos rs)) mod blk) tail in
    (rs ++ rs', v).
Proof.
  induction rs as [|r t IH]; intros k pos tail; cbn [frame_from length plus app].
  - change (nlen (@nil N)) with 0. rewrite N.add_0_r.
    destruct (replay_from ck lognum k (pos mod blk) tail); reflexivity.
  - cbv zeta. cbn [replay_from]. rewrite <- app_assoc, read_record_written, IH.
    rewrite nlen_app, N.add_assoc.
    destruct (replay_from ck lognum k _ tail). reflexivity.
Qed.

Lemma frame_from_len : forall rs pos, (length rs <= length (frame_from ck pos rs))%nat.
Proof.
  induction rs as [|r t IH]; intros pos; cbn [frame_from length]; [lia|].
  cbv zeta. rewrite app_length. specialize (IH (pos + nlen (write_record ck pos r))).
  enough (0 < length (write_record ck pos r))%nat by lia.
  unfold write_record. cbv zeta. rewrite app_length.
  destruct (emit_nonempty (S (length r)) true (blk - ((pos mod blk + pad_len (pos mod blk)) mod blk + hdr)) r)
    as (b & t' & ->). cbn [length]. lia.
Qed.

(* whatever follows the complete records: if the reader rejects its first record there (for
   any reason), replay returns exactly the complete records and that verdict *)
Theorem tan_replay_rejected_tail_proved : forall rs g v,
  read_record ck lognum (nlen (frame ck rs) mod blk) g = RecStop v ->
  replay ck lognum (frame ck rs ++ g) = (rs, v).
Proof.
  intros rs g v H. unfold replay, frame in *.
  pose proof (frame_from_len rs 0) as L.
  replace (S (length (frame_from ck 0 rs ++ g))) with (length rs + S (length (frame_from ck 0 rs ++ g) - length rs))%nat
    by (rewrite app_length; lia).
  pose proof (replay_from_written rs (S (length (frame_from ck 0 rs ++ g) - length rs)) 0 g) as RW.
  change (0 mod blk) with 0 in RW. rewrite RW, N.add_0_l. cbn [replay_from].
  rewrite H. now rewrite app_nil_r.
Qed.

Theorem tan_replay_roundtrip_proved : forall rs, replay ck lognum (frame ck rs) = (rs, VEof).
Proof.
  intros rs. rewrite <- (app_nil_r (frame ck rs)). apply tan_replay_rejected_tail_proved, read_record_nil.
  apply N.mod_lt. discriminate.
Qed.

Theorem tan_replay_torn_record_proved : forall rs r c,
  c < nlen (write_record ck (nlen (frame ck rs)) r) ->
  exists v, replay ck lognum (frame ck rs ++ takeN c (write_record ck (nlen (frame ck rs)) r)) = (rs, v) /\
            recoverable v = true.
Proof.
  intros rs r c Hc.
  destruct (read_record_torn_written (nlen (frame ck rs)) r c Hc) as (v & E & R).
  exists v. split; auto. now apply tan_replay_rejected_tail_proved.
Qed.

(* logs inside the first block: every record is one full chunk, there is no padding *)

Fixpoint fits_from (pos : N) (rs : list bytes) : Prop :=
  match rs with
  | [] => pos <= blk
  | r :: t => pos + hdr + nlen r <= blk /\ fits_from (pos + hdr + nlen r) t
  end.
Definition fits (rs : list bytes) : Prop := fits_from 0 rs.

Fixpoint end_pos (pos : N) (rs : list bytes) : N :=
  match rs with [] => pos | r :: t => end_pos (pos + hdr + nlen r) t end.

Lemma write_record_fits : forall pos p, pos + hdr + nlen p <= blk ->
  write_record ck pos p = chunk ck ty_full p.
Proof.
  intros pos p H. pose proof blk_val. pose proof hdr_val. unfold write_record, pad_len.
  rewrite (N.mod_small pos) by lia.
  replace (blk <? pos + hdr) with false by (symmetry; apply N.ltb_ge; lia).
  rewrite N.add_0_r, (N.mod_small pos) by lia. cbn [zeros N.to_nat repeat app emit].
  replace (nlen p <=? _) with true by (symmetry; apply N.leb_le; lia). reflexivity.
Qed.

Lemma fits_from_le : forall rs pos, fits_from pos rs -> end_pos pos rs <= blk /\ pos <= end_pos pos rs.
Proof.
  induction rs as [|r t IH]; intros pos H; cbn [fits_from end_pos] in *.
  - split; lia.
  - destruct H as [H1 H2]. destruct (IH _ H2). split; auto. lia.
Qed.

Lemma fits_from_app : forall a b pos,
  fits_from pos (a ++ b) -> fits_from pos a /\ fits_from (end_pos pos a) b.
Proof.
  induction a as [|x t IH]; intros b pos F; cbn [app fits_from end_pos] in *.
  - destruct (fits_from_le b pos F). split; [lia|exact F].
  - destruct F as [F1 F2]. destruct (IH _ _ F2). auto.
Qed.

Lemma frame_from_fits : forall rs pos, fits_from pos rs ->
  pos + nlen (frame_from ck pos rs) = end_pos pos rs.
Proof.
  induction rs as [|r t IH]; intros pos H; cbn [frame_from fits_from end_pos] in *; [apply N.add_0_r|].
  destruct H as [H1 H2]. rewrite nlen_app, write_record_fits, chunk_len, !N.add_assoc by exact H1.
  now apply IH.
Qed.

Theorem tan_replay_roundtrip_fits : forall rs, fits rs ->
  replay ck lognum (frame ck rs) = (rs, VEof).
Proof. intros rs _. apply tan_replay_roundtrip_proved. Qed.

Theorem tan_replay_ignores_torn_tail_fits : forall rs r cut,
  fits (rs ++ [r]) -> cut < hdr + nlen r ->
  exists v, replay ck lognum (frame ck rs ++ takeN cut (chunk ck ty_full r)) = (rs, v) /\
            recoverable v = true.
Proof.
  intros rs r cut H Hcut. destruct (fits_from_app _ _ _ H) as [F1 [F2 _]].
  rewrite <- (frame_from_fits rs 0 F1), N.add_0_l in F2. fold (frame ck rs) in F2.
  rewrite <- (write_record_fits _ _ F2). apply tan_replay_torn_record_proved.
  now rewrite write_record_fits, chunk_len.
Qed.

End Tan.
