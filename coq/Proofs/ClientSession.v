From DB Require Import Base.Bytes Gen.GenC05 Model.ClientSession.
From Coq Require Import Sorted.
From Coq Require Import ZifyBool.
(* as in Proofs/Session.v *)
Ltac Zify.zify_post_hook ::= idtac.
Open Scope N_scope.

(* the reserved series ids sit at the top of uint64; the proofs below use the
   constants only through these two facts *)
Lemma reserved_ids_order :
  series_id_for_register < series_id_for_unregister /\ series_id_for_unregister < c_two64.
Proof. split; reflexivity. Qed.

(* the state of a session in use: next series id = acknowledged + 1 *)
Definition c_ok (s : csession) : Prop :=
  c_client s <> 0 /\ c_series s = c_responded s + 1.

Lemma c_prepare_ok : forall cid s,
  cid <> 0 -> c_prepare_for_propose (c_new cid) = Some s -> c_ok s /\ c_series s = 1 /\ c_client s = cid.
Proof.
  intros cid s H. unfold c_prepare_for_propose, c_new, c_regular, not_session_managed_client_id, noop_series_id. cbn.
  destruct (cid =? 0) eqn:E; [lia|]. intros Q; injection Q as <-. repeat split; auto.
Qed.

Lemma c_completed_ok : forall s, c_ok s -> c_series s + 1 < c_two64 ->
  c_proposal_completed s = Some (mkC (c_client s) (c_series s + 1) (c_series s)).
Proof.
  intros s [C E] B. unfold c_proposal_completed, c_regular, not_session_managed_client_id, noop_series_id.
  rewrite <- E, !N.mod_small by lia.
  destruct (c_client s =? 0) eqn:E1; [lia|]. destruct (c_series s =? 0) eqn:E2; [lia|].
  cbn. now rewrite N.eqb_refl.
Qed.

Lemma c_run_spec : forall ops s,
  c_ok s -> c_series s + N.of_nat (length ops) < series_id_for_register ->
  exists out s', c_run s ops = Some (out, s') /\
    c_series s <= c_series s' <= c_series s + N.of_nat (length ops) /\
    Forall (fun t => fst (fst t) = c_client s /\ snd t + 1 = snd (fst t) /\
                     c_series s <= snd (fst t) <= c_series s') out /\
    Sorted (fun a b => snd (fst a) <= snd (fst b)) out.
Proof.
  pose proof reserved_ids_order as [R1 R2].
  induction ops as [|o r IH]; intros s OK B; cbn [length] in B.
  - exists [], s. cbn. repeat split; auto; lia.
  - destruct o; cbn [c_run].
    + destruct (IH s OK) as (out & s' & -> & LE & F & SO); [lia|].
      exists ((c_client s, c_series s, c_responded s) :: out), s'.
      split; [reflexivity|]. split; [cbn [length]; lia|]. split; constructor; auto.
      * destruct OK as [_ E]. cbn. lia.
      * destruct F as [|t ? (_ & _ & ?) _]; constructor. cbn. lia.
    + rewrite c_completed_ok by (auto; lia).
      destruct (IH (mkC (c_client s) (c_series s + 1) (c_series s))) as (out & s' & -> & LE & F & SO);
        [destruct OK; split; auto|cbn; lia|].
      cbn in LE, F. exists out, s'. split; [reflexivity|]. split; [cbn [length]; lia|]. split; [|exact SO].
      eapply Forall_impl; [|exact F]. cbn. intros t (A1 & A2 & A3). repeat split; auto; lia.
Qed.

Lemma client_discipline_proved : forall cid ops s0 out s',
  cid <> 0 -> N.of_nat (length ops) < series_id_for_register - 1 ->
  c_prepare_for_propose (c_new cid) = Some s0 ->
  c_run s0 ops <> None /\
  (c_run s0 ops = Some (out, s') ->
   Forall (fun t => fst (fst t) = cid /\ 1 <= snd (fst t) /\ snd t + 1 = snd (fst t) /\
                    snd (fst t) <> series_id_for_register /\ snd (fst t) <> series_id_for_unregister) out /\
   Sorted (fun a b => snd (fst a) <= snd (fst b)) out /\
   (forall a b, In a out -> In b out -> snd (fst a) = snd (fst b) -> a = b)).
Proof.
  intros cid ops s0 out s' C B P. destruct (c_prepare_ok cid s0 C P) as (OK & S1 & CL).
  pose proof reserved_ids_order as [R1 _].
  destruct (c_run_spec ops s0 OK) as (out0 & s1 & -> & LE & F & SO); [lia|].
  split; [discriminate|]. intros R; injection R as <- <-. rewrite S1, CL in *.
  split; [|split; [exact SO|]].
  - eapply Forall_impl; [|exact F]. cbn. intros t (A1 & A2 & A3). repeat split; auto; lia.
  - rewrite Forall_forall in F. intros [[a1 a2] a3] [[b1 b2] b3] Ha Hb E.
    destruct (F _ Ha) as (X1 & X2 & _), (F _ Hb) as (Y1 & Y2 & _). cbn in *. subst.
    f_equal. lia.
Qed.
