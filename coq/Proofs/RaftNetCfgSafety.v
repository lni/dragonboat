(* L2 stage 3, part c: the safety theorems of the model with membership change, the
   soundness of its step function, and a concrete membership function that meets the
   contract. *)
From DB Require Import Model.RaftNet Model.RaftNetCfg Proofs.RaftNetLists Proofs.RaftNetElection
  Proofs.RaftNetLog Proofs.RaftNetCommitDefs Proofs.RaftNetCommit Proofs.RaftNetSafety
  Proofs.RaftNetCfgLemmas Proofs.RaftNetCfgInv Proofs.RaftNetCfgStep.

(* the contract on (cfg_of, is_cc) under which the theorems of stage 3 hold *)
Definition cfg_contract (cfg_of : list entry -> list id) (is_cc : entry -> bool) : Prop :=
  (forall l e, is_cc e = false -> cfg_of (l ++ [e]) = cfg_of l) /\
  (forall l e, qnear (cfg_of l) (cfg_of (l ++ [e]))) /\
  (forall l, NoDup (cfg_of l)) /\
  (forall t, is_cc (noop t) = false).

Section CfgGuards.
  Variable cfg_of : list entry -> list id.
  Variable is_cc : entry -> bool.
  Hypothesis cfg_noncc : forall l e, is_cc e = false -> cfg_of (l ++ [e]) = cfg_of l.
  Hypothesis cfg_step_near : forall l e, qnear (cfg_of l) (cfg_of (l ++ [e])).
  Hypothesis cfg_nodup : forall l, NoDup (cfg_of l).
  Hypothesis noop_noncc : forall t, is_cc (noop t) = false.

  Notation ccs := (ccs is_cc).
  Notation reachable3 := (reachable3 cfg_of is_cc).
  Notation inv4_reachable := (inv4_reachable cfg_of is_cc cfg_noncc cfg_step_near cfg_nodup noop_noncc).

  (* the guards of the code hold in every reachable state *)
  Theorem applied_le_committed s i :
    reachable3 s -> applied s i <= commit (nodes (base3 s) i).
  Proof. intros Hr. apply (s_app _ _ s (inv4_reachable s Hr)). Qed.

  Theorem one_unapplied_cc_in_leader_log s i :
    reachable3 s -> role (nodes (base3 s) i) = Leader ->
    ccs (log (nodes (base3 s) i)) (applied s i) <= 1.
  Proof. intros Hr Hl. now destruct (s_lead _ _ s (inv4_reachable s Hr) i Hl). Qed.

End CfgGuards.

Section CfgSafety.
  Variable cfg_of : list entry -> list id.
  Variable is_cc : entry -> bool.
  Hypothesis HC : cfg_contract cfg_of is_cc.

  Notation cfg_noncc := (proj1 HC).
  Notation cfg_step_near := (proj1 (proj2 HC)).
  Notation cfg_nodup := (proj1 (proj2 (proj2 HC))).
  Notation noop_noncc := (proj2 (proj2 (proj2 HC))).

  Notation ccs := (ccs is_cc).
  Notation cfg := (cfg cfg_of).
  Notation step3 := (step3 cfg_of is_cc).
  Notation steps3 := (steps3 cfg_of is_cc).
  Notation reachable3 := (reachable3 cfg_of is_cc).
  Notation inv4 := (inv4 cfg_of is_cc).
  Notation inv4_reachable := (inv4_reachable cfg_of is_cc cfg_noncc cfg_step_near cfg_nodup noop_noncc).
  Notation inv4_step := (inv4_step cfg_of is_cc cfg_noncc cfg_step_near cfg_nodup noop_noncc).
  Notation LC3 := (LC3 cfg_of is_cc cfg_noncc cfg_step_near).
  Notation agl3 := (agl3 cfg_of is_cc cfg_noncc cfg_step_near).

  Theorem election_safety3 s i j :
    reachable3 s ->
    role (nodes (base3 s) i) = Leader -> role (nodes (base3 s) j) = Leader ->
    term (nodes (base3 s) i) = term (nodes (base3 s) j) -> i = j.
  Proof.
    intros Hr Hi Hj Ht. pose proof (s_1 _ _ s (inv4_reachable s Hr)) as H1.
    pose proof (i_leader _ H1 i Hi) as A. pose proof (i_leader _ H1 j Hj) as B.
    rewrite Ht in A. congruence.
  Qed.

  Theorem one_vote_per_term3 s t w c1 c2 vl1 vl2 :
    reachable3 s ->
    In (Vote t w c1 vl1) (msgs (base3 s)) -> In (Vote t w c2 vl2) (msgs (base3 s)) -> c1 = c2.
  Proof. intros Hr. apply (i_one_vote _ (s_1 _ _ s (inv4_reachable s Hr))). Qed.

  (* a leader owns a quorum of votes of the configuration it had when it campaigned *)
  Theorem leader_has_vote_quorum3 s i :
    reachable3 s -> role (nodes (base3 s) i) = Leader ->
    exists Q, is_quorum (lcfg s (term (nodes (base3 s) i))) Q /\
              forall w, In w Q -> voted_msg (base3 s) (term (nodes (base3 s) i)) w i.
  Proof.
    intros Hr Hi. pose proof (inv4_reachable s Hr) as Hinv.
    pose proof (i_leader _ (s_1 _ _ s Hinv) i Hi) as Hl.
    destruct (s_elected _ _ s Hinv _ _ Hl) as (Q & HQ & HQw).
    exists Q. split; [exact HQ|]. intros w Hw. now destruct (HQw w Hw).
  Qed.

  Theorem log_matching3 s i j k :
    reachable3 s ->
    1 <= k -> k <= length (log (nodes (base3 s) i)) -> k <= length (log (nodes (base3 s) j)) ->
    term_at (log (nodes (base3 s) i)) k = term_at (log (nodes (base3 s) j)) k ->
    firstn k (log (nodes (base3 s) i)) = firstn k (log (nodes (base3 s) j)).
  Proof.
    intros Hr. pose proof (s_2 _ _ s (inv4_reachable s Hr)) as H2.
    apply (log_ok_matching (base3 s)); apply (i_log_ok _ H2).
  Qed.

  Theorem state_machine_safety3 s a b k :
    reachable3 s -> k <= commit (nodes (base3 s) a) -> k <= commit (nodes (base3 s) b) ->
    firstn k (log (nodes (base3 s) a)) = firstn k (log (nodes (base3 s) b)).
  Proof.
    intros Hr Ha Hb. pose proof (inv4_reachable s Hr) as Hinv.
    destruct (i_commit_bounds _ (s_3a _ _ s Hinv) a) as (Hca & _).
    destruct (i_commit_bounds _ (s_3a _ _ s Hinv) b) as (Hcb & _).
    eapply (cprefix3_agree2 cfg_of is_cc cfg_noncc cfg_step_near s Hinv _ _ _ _ _ _ k
                            (s_hc _ _ s Hinv a) (s_hc _ _ s Hinv b)); lia.
  Qed.

  (* what was committed in term t (by a quorum of the configuration the leader of t had
     applied) is in the log of every leader of a later term, whatever its configuration *)
  Theorem leader_completeness3 s t k a i :
    reachable3 s -> In (t, k, a) (cevents s) ->
    role (nodes (base3 s) i) = Leader -> t < term (nodes (base3 s) i) ->
    firstn k (log (nodes (base3 s) i)) = firstn k (llog (base3 s) t).
  Proof.
    intros Hr Hin Hrole Hlt. pose proof (inv4_reachable s Hr) as Hinv.
    pose proof (s_2 _ _ s Hinv) as H2.
    rewrite <- (i_leader_log _ H2 i Hrole).
    pose proof (i_leader _ (s_1 _ _ s Hinv) i Hrole) as Hl.
    apply (llog0_agree cfg_of is_cc s Hinv).
    - pose proof (s_ev _ _ s Hinv _ Hin) as (_ & _ & Hk & _). exact Hk.
    - eapply (LC3 s Hinv _ _ Hl); eauto.
  Qed.

  Theorem no_campaign_with_unapplied_entries s i :
    reachable3 s -> role (nodes (base3 s) i) = Candidate ->
    applied s i = commit (nodes (base3 s) i).
  Proof. intros Hr Hc. now destruct (s_cand _ _ s (inv4_reachable s Hr) i Hc). Qed.

  (* preLeaderPromotionHandleConfigChange never panics: no log has two config changes
     above its commit index *)
  Theorem one_cc_above_commit s i :
    reachable3 s -> ccs (log (nodes (base3 s) i)) (commit (nodes (base3 s) i)) <= 1.
  Proof. intros Hr. apply (s_b _ _ s (inv4_reachable s Hr)). Qed.

  Lemma hcommit_steps3 s ls s' i :
    inv4 s -> steps3 s ls s' ->
    hcommit (nodes (base3 s) i) <= hcommit (nodes (base3 s') i) /\
    agree (hcommit (nodes (base3 s) i)) (log (nodes (base3 s') i)) (log (nodes (base3 s) i)).
  Proof.
    intros Hi Hs. induction Hs; [split; [lia | apply agree_refl]|].
    assert (Hab : hcommit (nodes (base3 s) i) <= hcommit (nodes (base3 s1) i) /\
                  agree (hcommit (nodes (base3 s) i)) (log (nodes (base3 s1) i)) (log (nodes (base3 s) i))).
    { pose proof (fun V' l b' => hcommit_stable V' (base3 s) l b' i (s_2 _ _ s Hi) (s_3a _ _ s Hi)
                                                (agl3 s Hi)) as Hst.
      destruct H; cbn [base3]; eauto. split; [lia | apply agree_refl]. }
    destruct Hab as (Ha & Hb).
    destruct (IHHs (inv4_step s l s1 Hi H)) as (Hc & Hd).
    split; [lia|]. eapply agree_trans; [eapply agree_le; [exact Hd | exact Ha] | exact Hb].
  Qed.

  Theorem committed_never_replaced3 s ls s' i k :
    reachable3 s -> steps3 s ls s' -> k <= commit (nodes (base3 s) i) ->
    firstn k (log (nodes (base3 s') i)) = firstn k (log (nodes (base3 s) i)).
  Proof.
    intros Hr Hs Hk. pose proof (inv4_reachable s Hr) as Hinv.
    destruct (hcommit_steps3 s ls s' i Hinv Hs) as (_ & Hag).
    destruct (i_commit_bounds _ (s_3a _ _ s Hinv) i) as (Hc & _).
    eapply agree_le; [exact Hag | lia].
  Qed.

  Theorem append_never_conflicts_with_committed3 s j t ldr prev pt ents lc :
    reachable3 s -> In (AE t ldr prev pt ents lc) (msgs (base3 s)) ->
    t = term (nodes (base3 s) j) -> term_at (log (nodes (base3 s) j)) prev = pt ->
    try_append (log (nodes (base3 s) j)) (commit (nodes (base3 s) j)) prev ents <> None.
  Proof.
    intros Hr Hae -> <-. pose proof (inv4_reachable s Hr) as Hinv.
    eapply try_append_defined; eauto using s_2, s_3a, agl3.
  Qed.

  Theorem heartbeat_commit_in_range3 s j t ldr c :
    reachable3 s -> In (HB t ldr j c) (msgs (base3 s)) -> t = term (nodes (base3 s) j) ->
    c <= length (log (nodes (base3 s) j)).
  Proof.
    intros Hr Hhb ->. pose proof (inv4_reachable s Hr) as Hinv.
    destruct (s_hb _ _ s Hinv _ _ _ _ Hhb) as [->|(Hack & _)];
      [lia | now apply (acked_cur _ j c (s_3a _ _ s Hinv))].
  Qed.

  Lemma step3_mono s l s' :
    inv4 s -> step3 s l s' -> gext (base3 s) (base3 s') /\ incl (cevents s) (cevents s').
  Proof.
    intros Hinv Hstep. destruct Hstep; cbn [base3 cevents].
    - split; [eapply (base_gext cfg_of is_cc cfg_noncc cfg_step_near cfg_nodup); eauto
             | apply cevents'_incl].
    - split; [apply gext_refl | apply incl_refl].
    - split; [|apply incl_refl].
      eapply step_gext; eauto using s_1, s_2. intros j Hj. discriminate.
  Qed.

  Lemma steps3_mono s ls s' :
    inv4 s -> steps3 s ls s' -> gext (base3 s) (base3 s') /\ incl (cevents s) (cevents s').
  Proof.
    intros Hinv Hs. induction Hs; [split; [apply gext_refl | apply incl_refl]|].
    destruct (step3_mono s l s1 Hinv H) as (G1 & I1).
    destruct (IHHs (inv4_step s l s1 Hinv H)) as (G2 & I2).
    split; [eapply gext_trans; eauto | eapply incl_tran; eauto].
  Qed.

  Lemma steps3_app s ls m ls' p : steps3 s ls m -> steps3 m ls' p -> steps3 s (ls ++ ls') p.
  Proof. intros H1 H2. induction H1; simpl; [assumption|]. econstructor; eauto. Qed.

  Lemma steps3_reachable s ls s' : reachable3 s -> steps3 s ls s' -> reachable3 s'.
  Proof. intros (l0 & H0) Hs. exists (l0 ++ ls). eapply steps3_app; eauto. Qed.

  (* once a leader advanced its commit index to k, its first k entries are in the log of
     every leader of every later term in every later state, across membership changes *)
  Theorem leader_completeness3_trace s i k s1 ls s2 j :
    reachable3 s -> step3 s (L3Base (LAdvanceCommit i k)) s1 -> steps3 s1 ls s2 ->
    role (nodes (base3 s2) j) = Leader ->
    term (nodes (base3 s) i) < term (nodes (base3 s2) j) ->
    firstn k (log (nodes (base3 s2) j)) = firstn k (log (nodes (base3 s) i)).
  Proof.
    intros Hr Hstep Hs Hrole Hlt. pose proof (inv4_reachable s Hr) as Hinv.
    assert (Hss : steps3 s (L3Base (LAdvanceCommit i k) :: ls) s2) by (econstructor; eauto).
    destruct (steps3_mono s _ s2 Hinv Hss) as (Hg & _).
    pose proof (inv4_step s _ s1 Hinv Hstep) as Hinv1.
    destruct (steps3_mono s1 _ s2 Hinv1 Hs) as (_ & Hincl).
    inversion Hstep; subst.
    match goal with Hb : step _ (base3 s) (LAdvanceCommit i k) b' |- _ =>
      simpl in Hb;
      destruct (advance_event_ok cfg_of is_cc cfg_nodup s i k b' Hinv Hb) as (_ & Hll & _ & Hk) end.
    assert (Hin : In (term (nodes (base3 s) i), k, applied s i) (cevents s2)).
    { apply Hincl. cbn [cevents cevents']. now left. }
    rewrite (leader_completeness3 s2 _ k _ j (steps3_reachable s _ s2 Hr Hss) Hin Hrole Hlt).
    rewrite <- Hll. apply (agree_gext_l _ _ k _ _ Hg); [rewrite Hll; lia | apply agree_refl].
  Qed.

  Lemma guard3_b_spec s l : guard3_b is_cc s l = true -> guard3 is_cc s l.
  Proof.
    destruct l; simpl; auto; intros H; try discriminate.
    - now apply Nat.eqb_eq in H.
    - now apply Nat.leb_le in H.
    - intros Hcc. rewrite Hcc in H. simpl in H. now apply negb_true_iff in H.
    - now apply Nat.leb_le in H.
  Qed.

  Theorem step_fn3_sound s l s' : step_fn3 cfg_of is_cc s l = Some s' -> step3 s l s'.
  Proof.
    destruct l; cbn [step_fn3]; intros H.
    - destruct (guard3_b is_cc s l) eqn:Hg; [|discriminate].
      destruct (step_fn (cfg s (actor l)) (base3 s) l) as [b'|] eqn:Hs; [|discriminate].
      injection H as <-. apply S3Base; [now apply guard3_b_spec | now apply step_fn_sound].
    - destruct (Nat.ltb_spec (applied s i) (commit (nodes (base3 s) i))); [|discriminate].
      injection H as <-. now apply S3Apply.
    - match type of H with (if ?c then _ else _) = _ => destruct c eqn:Hc; [|discriminate] end.
      destruct (step_fn (cfg s i) (base3 s) (LRestart i c m)) as [b'|] eqn:Hs; [|discriminate].
      injection H as <-. split_andb. apply S3Crash; auto. now apply step_fn_sound.
  Qed.

  Theorem run3_sound ls : forall s s', run3 cfg_of is_cc s ls = Some s' -> steps3 s ls s'.
  Proof.
    induction ls as [|l ls IH]; simpl; intros s s' H.
    - injection H as <-. constructor.
    - destruct (step_fn3 cfg_of is_cc s l) as [s1|] eqn:E; [|discriminate].
      econstructor; [apply step_fn3_sound; exact E | apply IH; exact H].
  Qed.

  Corollary run3_reachable ls s : run3 cfg_of is_cc (init3) ls = Some s -> reachable3 s.
  Proof. intros H. exists ls. now apply run3_sound. Qed.

End CfgSafety.

(* a concrete membership function that meets the contract: payload 100+v adds voter v,
   payload 200+v removes voter v (ignored when it would not change the membership) *)

Definition cc_payload (e : entry) : bool := 100 <=? epay e.

Definition cfg_add (x : id) (C : list id) : list id :=
  if in_dec Nat.eq_dec x C then C else x :: C.

Definition cfg_remove (x : id) (C : list id) : list id :=
  filter (fun y => negb (y =? x)) C.

Definition cfg_apply (C : list id) (e : entry) : list id :=
  let p := epay e in
  if p <? 100 then C
  else if p <? 200 then cfg_add (p - 100) C
  else if p <? 300 then cfg_remove (p - 200) C
  else C.

Definition cfg_fold (C0 : list id) (l : list entry) : list id := fold_left cfg_apply l C0.

Lemma cfg_remove_notin x C : ~ In x C -> cfg_remove x C = C.
Proof.
  intros H. induction C as [|b C IH]; [reflexivity|]. simpl.
  destruct (Nat.eqb_spec b x) as [->|]; [destruct H; now left|].
  simpl. f_equal. apply IH. intros Hx. apply H. now right.
Qed.

Lemma cfg_remove_length x C :
  NoDup C -> In x C -> length C = S (length (cfg_remove x C)).
Proof.
  induction C as [|a C IH]; intros ND Hin; [contradiction|].
  inversion ND; subst. simpl. destruct (Nat.eqb_spec a x) as [->|Hne]; simpl.
  - fold (cfg_remove x C). now rewrite cfg_remove_notin.
  - f_equal. apply IH; [assumption|]. destruct Hin as [E|Hin]; [congruence | exact Hin].
Qed.

Lemma cfg_apply_nodup C e : NoDup C -> NoDup (cfg_apply C e).
Proof.
  intros ND. unfold cfg_apply.
  destruct (epay e <? 100); [exact ND|].
  destruct (epay e <? 200).
  - unfold cfg_add. destruct (in_dec Nat.eq_dec (epay e - 100) C); [exact ND | now constructor].
  - destruct (epay e <? 300); [|exact ND]. now apply NoDup_filter.
Qed.

Lemma cfg_apply_near C e : NoDup C -> qnear C (cfg_apply C e).
Proof.
  intros ND. unfold cfg_apply.
  destruct (epay e <? 100); [apply qnear_refl|].
  destruct (epay e <? 200).
  - unfold cfg_add. destruct (in_dec Nat.eq_dec (epay e - 100) C) as [Hin|Hnin];
      [apply qnear_refl | now apply quorum_intersect_adjacent].
  - destruct (epay e <? 300); [|apply qnear_refl].
    destruct (in_dec Nat.eq_dec (epay e - 200) C) as [Hin|Hnin].
    + apply qnear_sym. apply qnear_grow; [exact ND | | now apply cfg_remove_length].
      intros y Hy. apply filter_In in Hy. tauto.
    + rewrite cfg_remove_notin by exact Hnin. apply qnear_refl.
Qed.

Lemma cfg_fold_nodup C0 l : NoDup C0 -> NoDup (cfg_fold C0 l).
Proof.
  unfold cfg_fold. revert C0. induction l as [|e l IH]; intros C0 ND; [exact ND|].
  simpl. apply IH. now apply cfg_apply_nodup.
Qed.

(* the contract holds for the concrete membership function *)
Theorem cfg_fold_contract C0 : NoDup C0 -> cfg_contract (cfg_fold C0) cc_payload.
Proof.
  intros ND. repeat split.
  - intros l e H. unfold cfg_fold. rewrite fold_left_app. simpl. unfold cfg_apply.
    unfold cc_payload in H. apply Nat.leb_gt in H.
    destruct (Nat.ltb_spec (epay e) 100); [reflexivity | lia].
  - intros l e. unfold cfg_fold. rewrite fold_left_app. simpl.
    apply cfg_apply_near. now apply cfg_fold_nodup.
  - intros l. now apply cfg_fold_nodup.
Qed.
