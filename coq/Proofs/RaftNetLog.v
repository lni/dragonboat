(* L2, part 2: logs.  Inductive invariant [inv2] (given inv1) and log matching. *)
From DB Require Import Model.RaftNet Model.RaftNetCfg Proofs.RaftNetLists Proofs.RaftNetElection.

Lemma In_firstn {A} (x : A) k l : In x (firstn k l) -> In x l.
Proof.
  intros H. rewrite <- (firstn_skipn k l). apply in_or_app. now left.
Qed.

Lemma firstn_app_seg {A} (P S : list A) k :
  P ++ firstn k S = firstn (length P + length (firstn k S)) (P ++ S).
Proof.
  rewrite firstn_app.
  replace (length P + length (firstn k S) - length P) with (length (firstn k S)) by lia.
  rewrite (firstn_all2 P) by lia. f_equal.
  rewrite firstn_length.
  destruct (Nat.le_gt_cases k (length S)).
  - now replace (Nat.min k (length S)) with k by lia.
  - replace (Nat.min k (length S)) with (length S) by lia.
    rewrite firstn_all. now rewrite firstn_all2 by lia.
Qed.

Lemma firstn_segment {A} (L : list A) prev k :
  prev <= length L ->
  firstn prev L ++ firstn k (skipn prev L)
  = firstn (prev + length (firstn k (skipn prev L))) L.
Proof.
  intros Hp.
  pose proof (firstn_app_seg (firstn prev L) (skipn prev L) k) as H.
  rewrite firstn_skipn in H. rewrite (firstn_length prev L) in H.
  replace (Nat.min prev (length L)) with prev in H by lia. exact H.
Qed.

Definition sorted (l : list entry) : Prop :=
  forall j1 j2, 1 <= j1 <= j2 -> j2 <= length l -> term_at l j1 <= term_at l j2.

Lemma sorted_snoc a e :
  sorted a -> (forall x, In x a -> eterm x <= eterm e) -> sorted (a ++ [e]).
Proof.
  intros Hs Hle j1 j2 Hj Hl. rewrite app_length in Hl. simpl in Hl.
  destruct (Nat.eq_dec j2 (length a + 1)) as [->|].
  - replace (length a + 1) with (S (length a)) by lia. rewrite term_at_app_r.
    destruct (Nat.eq_dec j1 (S (length a))) as [->|].
    + now rewrite term_at_app_r.
    + rewrite term_at_app_l by lia.
      destruct (term_at_In a j1) as (x & Hx & ->); [lia|]. now apply Hle.
  - rewrite !term_at_app_l by lia. apply Hs; lia.
Qed.

Lemma sorted_firstn l m : sorted l -> sorted (firstn m l).
Proof.
  intros Hs j1 j2 Hj Hl. rewrite firstn_length in Hl.
  rewrite !term_at_firstn by lia. apply Hs; lia.
Qed.

Section Log.
  Variable V : list id.
  Hypothesis V_nodup : NoDup V.

  (* every entry of term U sits on a prefix of the log of U's leader *)
  Definition log_ok (g : nat -> list entry) (l : list entry) : Prop :=
    forall j, 1 <= j <= length l -> agree j l (g (term_at l j)).

  Definition I_lead_none n := forall t, lead n t = None -> llog n t = [] /\ llog0 n t = [].
  Definition I_llog0 n := forall t, exists ext, llog n t = llog0 n t ++ ext.
  Definition I_llog_terms n := forall t e, In e (llog n t) -> 1 <= eterm e <= t.
  Definition I_llog_sorted n := forall t, sorted (llog n t).
  Definition I_llog_ok n := forall t, log_ok (llog n) (llog n t).
  Definition I_leader_log n := forall i,
    role (nodes n i) = Leader -> llog n (term (nodes n i)) = log (nodes n i).
  Definition I_log_ok n := forall i, log_ok (llog n) (log (nodes n i)).
  Definition I_log_terms n := forall i e,
    In e (log (nodes n i)) -> 1 <= eterm e <= term (nodes n i).
  Definition I_ae n := forall t ldr prev pt ents lc,
    In (AE t ldr prev pt ents lc) (msgs n) ->
    lead n t <> None /\
    prev + length ents <= length (llog n t) /\
    firstn prev (llog n t) ++ ents = firstn (prev + length ents) (llog n t) /\
    pt = term_at (llog n t) prev.
  Definition I_vote_log_ok n := forall t w c vl,
    In (Vote t w c vl) (msgs n) -> log_ok (llog n) vl.

  Record inv2 (n : net) : Prop := {
    i_lead_none : I_lead_none n;
    i_llog0 : I_llog0 n;
    i_llog_terms : I_llog_terms n;
    i_llog_sorted : I_llog_sorted n;
    i_llog_ok : I_llog_ok n;
    i_leader_log : I_leader_log n;
    i_log_ok : I_log_ok n;
    i_log_terms : I_log_terms n;
    i_ae : I_ae n;
    i_vote_log_ok : I_vote_log_ok n
  }.

  Definition gext (n n' : net) : Prop :=
    incl (msgs n) (msgs n') /\
    (forall t c, lead n t = Some c -> lead n' t = Some c) /\
    (forall t, exists e, llog n' t = llog n t ++ e) /\
    (forall t, lead n t <> None -> llog0 n' t = llog0 n t).

  Lemma ext_refl (g : nat -> list entry) t : exists e, g t = g t ++ e.
  Proof. exists []. now rewrite app_nil_r. Qed.

  (* the ghost fields of term t after a step: unchanged, or t is the term of the acting
     candidate (which becomes its leader) or leader i, and the leader log is i's log with
     its new last entry *)
  Lemma step_llog n l n' t :
    inv1 n -> inv2 n -> fresh n l -> step V n l n' ->
    (lead n' t = lead n t /\ llog0 n' t = llog0 n t /\ llog n' t = llog n t) \/
    exists i e, term (nodes n i) = t /\ role (nodes n i) <> Follower /\ eterm e = t /\
      lead n' t = Some i /\ llog n' t = log (nodes n i) ++ [e] /\
      ((lead n t = None /\ llog0 n' t = llog n' t) \/
       (lead n t = Some i /\ llog n t = log (nodes n i) /\ llog0 n' t = llog0 n t)).
  Proof.
    intros H1 H2 Hf Hstep.
    destruct (step_ghost V n l n' Hstep)
      as [(-> & -> & ->)|[(i & -> & Hr & _ & -> & -> & -> & ->)|(i & p & _ & Hr & -> & -> & -> & ->)]];
      [now left | |]; (destruct (Nat.eq_dec t (term (nodes n i))) as [->|Hne];
        [right; rewrite !updg_eq | left; now rewrite !(updg_neq _ _ _ _ Hne)]).
    - exists i, (noop (term (nodes n i))).
      split; [reflexivity|]. split; [congruence|]. do 3 (split; [reflexivity|]).
      left. split; [exact (Hf i eq_refl) | reflexivity].
    - exists i, (mkE (term (nodes n i)) p).
      split; [reflexivity|]. split; [congruence|]. split; [reflexivity|].
      split; [exact (i_leader n H1 i Hr)|]. split; [reflexivity|]. right.
      split; [exact (i_leader n H1 i Hr) | split; [exact (i_leader_log n H2 i Hr) | reflexivity]].
  Qed.

  Lemma step_gext n l n' : inv1 n -> inv2 n -> fresh n l -> step V n l n' -> gext n n'.
  Proof.
    intros H1 H2 Hf Hstep. split; [exact (step_msgs_incl V n l n' Hstep)|].
    split; [|split]; intros t;
      destruct (step_llog n l n' t H1 H2 Hf Hstep)
        as [(E1 & E2 & E3)|(i & e & _ & _ & _ & E1 & E3 & [(Hl & E2)|(Hl & El & E2)])].
    1-3: intros c Hc; rewrite E1; congruence.
    - rewrite E3. apply ext_refl.
    - rewrite E3. destruct (i_lead_none n H2 t Hl) as (-> & _). now eexists.
    - rewrite E3, El. now eexists.
    - now intros _.
    - now intros [].
    - now intros _.
  Qed.

  Lemma log_ok_gext n n' l : gext n n' -> log_ok (llog n) l -> log_ok (llog n') l.
  Proof.
    intros (_ & _ & He & _) Hok j Hj.
    destruct (He (term_at l j)) as (e & ->).
    apply agree_ext_r; [now apply Hok|].
    eapply agree_len; [apply Hok; exact Hj | lia].
  Qed.

  Lemma log_ok_firstn n l m : log_ok (llog n) l -> log_ok (llog n) (firstn m l).
  Proof.
    intros Hok j Hj. rewrite firstn_length in Hj.
    rewrite term_at_firstn by lia.
    eapply agree_trans; [apply agree_firstn; lia|]. apply Hok. lia.
  Qed.

  Lemma log_ok_lmatch n a b : log_ok (llog n) a -> log_ok (llog n) b -> lmatch a b.
  Proof.
    intros Ha Hb j H1 H2 H3 Ht.
    eapply agree_trans; [apply Ha; lia|]. rewrite Ht. apply agree_sym. apply Hb. lia.
  Qed.

  Lemma log_ok_snoc g a e :
    log_ok g a -> g (eterm e) = a ++ [e] -> log_ok g (a ++ [e]).
  Proof.
    intros Ha Hl j Hj. rewrite app_length in Hj. simpl in Hj.
    destruct (Nat.eq_dec j (length a + 1)) as [->|].
    - replace (length a + 1) with (S (length a)) by lia.
      rewrite term_at_app_r. rewrite Hl. apply agree_refl.
    - rewrite term_at_app_l by lia. apply agree_ext_l; [apply Ha; lia | lia].
  Qed.

  Lemma log_ok_sorted n l : I_llog_sorted n -> log_ok (llog n) l -> sorted l.
  Proof.
    intros Hs Hok j1 j2 Hj Hl.
    pose proof (Hok j2 ltac:(lia)) as Hag.
    rewrite (agree_term_at j2 j1 _ _ Hag) by lia.
    rewrite (agree_term_at j2 j2 _ _ Hag) at 2 by lia.
    apply Hs; [lia|]. eapply agree_len; eauto.
  Qed.

  Lemma log_ok_matching n a b k :
    log_ok (llog n) a -> log_ok (llog n) b -> 1 <= k -> k <= length a -> k <= length b ->
    term_at a k = term_at b k -> agree k a b.
  Proof. intros Ha Hb. apply (log_ok_lmatch n a b Ha Hb). Qed.

  Lemma ae_view n t ldr prev pt ents lc l :
    inv2 n -> In (AE t ldr prev pt ents lc) (msgs n) ->
    log_ok (llog n) l -> term_at l prev = pt ->
    prev <= length l /\
    firstn prev l ++ ents = firstn (prev + length ents) (llog n t) /\
    (forall e, In e ents -> 1 <= eterm e) /\
    lmatch l (firstn prev l ++ ents).
  Proof.
    intros H2 Hin Hok Hpt.
    destruct (i_ae n H2 _ _ _ _ _ _ Hin) as (Hlead & Hlen & Hseg & Hpt').
    assert (Hents : forall e, In e ents -> 1 <= eterm e).
    { intros e He. apply (i_llog_terms n H2 t).
      apply (In_firstn e (prev + length ents)). rewrite <- Hseg. apply in_or_app. now right. }
    assert (Hview : prev <= length l /\
                    firstn prev l ++ ents = firstn (prev + length ents) (llog n t)).
    { destruct (Nat.eq_dec prev 0) as [->|Hp0]; [split; [lia | exact Hseg]|].
      assert (Hr : 1 <= prev <= length (llog n t)) by lia.
      destruct (term_at_In _ _ Hr) as (e & He & Hte).
      pose proof (i_llog_terms n H2 t e He) as Hge.
      assert (Hrl : 1 <= prev <= length l) by (apply term_at_in_range; lia).
      assert (Hag : agree prev l (llog n t)).
      { eapply agree_trans; [apply Hok; exact Hrl|].
        rewrite Hpt, Hpt'. apply agree_sym. apply (i_llog_ok n H2 t). exact Hr. }
      split; [lia|]. unfold agree in Hag. rewrite Hag. exact Hseg. }
    destruct Hview as (Hprev & Hview). repeat split; try assumption.
    rewrite Hview. eapply log_ok_lmatch; [exact Hok|]. apply log_ok_firstn, (i_llog_ok n H2).
  Qed.

  (* handling an AE whose prev matches leaves the log alone when it already holds the
     sender's view, and replaces it by that view otherwise *)
  Lemma handle_ae_log n t ldr prev pt ents lc l cmt l' :
    inv2 n -> In (AE t ldr prev pt ents lc) (msgs n) ->
    log_ok (llog n) l -> term_at l prev = pt ->
    try_append l cmt prev ents = Some l' ->
    (l' = l /\ agree (prev + length ents) l (llog n t)) \/
    (l' = firstn (prev + length ents) (llog n t) /\ ~ agree (prev + length ents) l (llog n t)).
  Proof.
    intros H2 Hin Hok Hpt Hta.
    destruct (ae_view n t ldr prev pt ents lc l H2 Hin Hok Hpt) as (Hprev & Hview & Hpos & LM).
    destruct (try_append_spec l cmt prev ents l' Hprev Hpos LM Hta)
      as [[-> Hag]|(ci & Hci & Hc & -> & Hag & Hne)]; rewrite Hview in *.
    - left. split; [reflexivity|].
      eapply agree_trans; [exact Hag|]. apply agree_firstn. lia.
    - right. split; [reflexivity|]. intros Hag2. apply Hne.
      rewrite (agree_term_at _ ci _ _ Hag2) by lia. symmetry. apply term_at_firstn. lia.
  Qed.

  Lemma handle_ae_agree n t ldr prev pt ents lc l cmt l' :
    inv2 n -> In (AE t ldr prev pt ents lc) (msgs n) ->
    log_ok (llog n) l -> term_at l prev = pt ->
    try_append l cmt prev ents = Some l' ->
    agree (prev + length ents) l' (llog n t).
  Proof.
    intros H2 Hin Hok Hpt Hta.
    destruct (handle_ae_log n t ldr prev pt ents lc l cmt l' H2 Hin Hok Hpt Hta)
      as [(-> & Hag)|(-> & _)]; [exact Hag | apply agree_firstn; lia].
  Qed.

  Lemma handle_ae_keeps n t ldr prev pt ents lc l cmt l' k :
    inv2 n -> In (AE t ldr prev pt ents lc) (msgs n) ->
    log_ok (llog n) l -> term_at l prev = pt ->
    try_append l cmt prev ents = Some l' ->
    agree k l (llog n t) -> agree k l' (llog n t).
  Proof.
    intros H2 Hin Hok Hpt Hta Hag.
    destruct (handle_ae_log n t ldr prev pt ents lc l cmt l' H2 Hin Hok Hpt Hta)
      as [(-> & _)|(-> & Hn)]; [exact Hag|].
    destruct (Nat.le_gt_cases k (prev + length ents)); [now apply agree_firstn|].
    exfalso. apply Hn. eapply agree_le; [exact Hag | lia].
  Qed.

  Lemma I_lead_none_step n l n' : inv1 n -> inv2 n -> fresh n l -> step V n l n' -> I_lead_none n'.
  Proof.
    intros H1 H2 Hf Hstep t.
    destruct (step_llog n l n' t H1 H2 Hf Hstep) as [(-> & -> & ->)|(i & e & _ & _ & _ & -> & _)];
      [apply (i_lead_none n H2 t) | discriminate].
  Qed.

  Lemma I_llog0_step n l n' : inv1 n -> inv2 n -> fresh n l -> step V n l n' -> I_llog0 n'.
  Proof.
    intros H1 H2 Hf Hstep t.
    destruct (step_llog n l n' t H1 H2 Hf Hstep)
      as [(_ & -> & ->)|(i & e & _ & _ & _ & _ & -> & [(_ & ->)|(_ & El & ->)])];
      [apply (i_llog0 n H2 t) | exists []; now rewrite app_nil_r |].
    destruct (i_llog0 n H2 t) as (ext & Hext). rewrite <- El, Hext, <- app_assoc. now eexists.
  Qed.

  Lemma snoc_terms n i e x :
    inv1 n -> inv2 n -> role (nodes n i) <> Follower -> eterm e = term (nodes n i) ->
    In x (log (nodes n i) ++ [e]) -> 1 <= eterm x <= term (nodes n i).
  Proof.
    intros H1 H2 Hr He Hx. apply in_app_or in Hx. destruct Hx as [Hx|[<-|[]]].
    - now apply (i_log_terms n H2 i).
    - rewrite He. split; [now apply (i_role_term n H1 i) | lia].
  Qed.

  Lemma I_llog_terms_step n l n' : inv1 n -> inv2 n -> fresh n l -> step V n l n' -> I_llog_terms n'.
  Proof.
    intros H1 H2 Hf Hstep t x.
    destruct (step_llog n l n' t H1 H2 Hf Hstep) as [(_ & _ & ->)|(i & e & <- & Hr & He & _ & -> & _)];
      [apply (i_llog_terms n H2 t) | now apply snoc_terms].
  Qed.

  Lemma I_llog_sorted_step n l n' : inv1 n -> inv2 n -> fresh n l -> step V n l n' -> I_llog_sorted n'.
  Proof.
    intros H1 H2 Hf Hstep t.
    destruct (step_llog n l n' t H1 H2 Hf Hstep) as [(_ & _ & ->)|(i & e & <- & Hr & He & _ & -> & _)];
      [apply (i_llog_sorted n H2 t)|].
    apply sorted_snoc.
    - eapply log_ok_sorted; [apply H2 | apply (i_log_ok n H2)].
    - intros x Hx. rewrite He. now apply (i_log_terms n H2 i).
  Qed.

  Lemma I_llog_ok_step n l n' : inv1 n -> inv2 n -> fresh n l -> step V n l n' -> I_llog_ok n'.
  Proof.
    intros H1 H2 Hf Hstep t.
    pose proof (step_gext n l n' H1 H2 Hf Hstep) as Hg.
    destruct (step_llog n l n' t H1 H2 Hf Hstep) as [(_ & _ & E)|(i & e & <- & Hr & He & _ & E & _)];
      rewrite E; [exact (log_ok_gext n n' _ Hg (i_llog_ok n H2 t))|].
    apply log_ok_snoc; [exact (log_ok_gext n n' _ Hg (i_log_ok n H2 i)) | now rewrite He].
  Qed.

  Lemma I_leader_log_step n l n' : inv1 n -> inv2 n -> fresh n l -> step V n l n' -> I_leader_log n'.
  Proof.
    intros H1 H2 Hf Hstep j.
    pose proof (i_leader_log n H2 j) as Hold.
    inv_step Hstep; simp_upd; intros Hr; auto; try discriminate.
    - now rewrite updg_eq.
    - simp_updg; auto. exfalso.
      pose proof (i_leader n H1 j Hr) as Hl. rewrite Eg in Hl.
      rewrite (Hf i eq_refl) in Hl. discriminate.
    - now rewrite updg_eq.
    - simp_updg; auto. exfalso.
      pose proof (i_leader n H1 j Hr) as Hl. rewrite Eg in Hl.
      rewrite (i_leader n H1 i) in Hl by assumption. congruence.
  Qed.

  Lemma I_log_ok_step n l n' : inv1 n -> inv2 n -> fresh n l -> step V n l n' -> I_log_ok n'.
  Proof.
    intros H1 H2 Hf Hstep j.
    pose proof (step_gext n l n' H1 H2 Hf Hstep) as Hg.
    pose proof (log_ok_gext n n' _ Hg (i_log_ok n H2 j)) as Hold.
    pose proof (fun t => log_ok_gext n n' _ Hg (i_llog_ok n H2 t)) as Hll.
    acting j l Hstep; [|exact Hold].
    inv_step Hstep; cbn [actor] in *; rewrite ?upd_eq; cbn [log]; auto.
    - apply log_ok_snoc; [exact Hold|]. simpl. now rewrite updg_eq.
    - apply log_ok_snoc; [exact Hold|]. simpl. now rewrite updg_eq.
    - match goal with Hin : In (AE _ _ _ _ _ _) _, Hta : try_append _ _ _ _ = _ |- _ =>
        destruct (handle_ae_log n _ _ _ _ _ _ _ _ _ H2 Hin (i_log_ok n H2 j) eq_refl Hta)
          as [(-> & _)|(-> & _)] end; auto.
      apply log_ok_firstn. apply Hll.
    - apply log_ok_firstn. exact Hold.
  Qed.

  Lemma I_log_terms_step n l n' : inv1 n -> inv2 n -> fresh n l -> step V n l n' -> I_log_terms n'.
  Proof.
    intros H1 H2 Hf Hstep j e.
    pose proof (i_log_terms n H2 j e) as Hold.
    acting j l Hstep; [|exact Hold].
    inv_step Hstep; cbn [actor] in *; rewrite ?upd_eq; cbn [log term]; auto; intros He.
    - specialize (Hold He). lia.
    - specialize (Hold He). lia.
    - eapply (snoc_terms n i); [exact H1 | exact H2 | congruence | | exact He]; reflexivity.
    - eapply (snoc_terms n i); [exact H1 | exact H2 | congruence | | exact He]; reflexivity.
    - match goal with Hin : In (AE _ _ _ _ _ _) _, Hta : try_append _ _ _ _ = _ |- _ =>
        destruct (handle_ae_log n _ _ _ _ _ _ _ _ _ H2 Hin (i_log_ok n H2 j) eq_refl Hta)
          as [(-> & _)|(-> & _)] end; auto.
      apply In_firstn in He. now apply (i_llog_terms n H2).
    - apply In_firstn in He. auto.
  Qed.

  Lemma I_ae_stable n n' t prev pt (ents : list entry) :
    gext n n' ->
    (lead n t <> None /\
     prev + length ents <= length (llog n t) /\
     firstn prev (llog n t) ++ ents = firstn (prev + length ents) (llog n t) /\
     pt = term_at (llog n t) prev) ->
    (lead n' t <> None /\
     prev + length ents <= length (llog n' t) /\
     firstn prev (llog n' t) ++ ents = firstn (prev + length ents) (llog n' t) /\
     pt = term_at (llog n' t) prev).
  Proof.
    intros (_ & Hl & He & _) (Hlead & Hlen & Hseg & Hpt).
    destruct (He t) as (e & ->). split; [|split; [|split]].
    - destruct (lead n t) eqn:E; [|congruence]. rewrite (Hl _ _ E). discriminate.
    - rewrite app_length. lia.
    - rewrite !firstn_app.
      replace (prev - length (llog n t)) with 0 by lia.
      replace (prev + length ents - length (llog n t)) with 0 by lia.
      simpl. rewrite !app_nil_r. exact Hseg.
    - rewrite term_at_app_l by lia. exact Hpt.
  Qed.

  Lemma new_ae n l n' t ldr prev pt ents lc :
    step V n l n' -> In (AE t ldr prev pt ents lc) (msgs n') ->
    In (AE t ldr prev pt ents lc) (msgs n) \/
    exists len, l = LSendAE ldr prev len lc /\ role (nodes n ldr) = Leader /\
      t = term (nodes n ldr) /\ prev <= length (log (nodes n ldr)) /\ lc <= commit (nodes n ldr) /\
      pt = term_at (log (nodes n ldr)) prev /\ ents = firstn len (skipn prev (log (nodes n ldr))).
  Proof. intros Hstep Hin. inv_step Hstep; msg_cases Hin; auto. right. eexists. repeat split; auto. Qed.

  Lemma new_hb n l n' t ldr to c :
    step V n l n' -> In (HB t ldr to c) (msgs n') ->
    In (HB t ldr to c) (msgs n) \/
    (l = LSendHB ldr to c /\ role (nodes n ldr) = Leader /\ t = term (nodes n ldr) /\
     c <= commit (nodes n ldr) /\ (c = 0 \/ existsb (is_ack t c to) (msgs n) = true)).
  Proof. intros Hstep Hin. inv_step Hstep; msg_cases Hin; auto. right. repeat split; auto. Qed.

  Lemma I_ae_step n l n' : inv1 n -> inv2 n -> fresh n l -> step V n l n' -> I_ae n'.
  Proof.
    intros H1 H2 Hf Hstep t ldr prev pt ents lc Hin.
    apply (I_ae_stable n n' _ _ _ _ (step_gext n l n' H1 H2 Hf Hstep)).
    destruct (new_ae n l n' _ _ _ _ _ _ Hstep Hin) as [Hold|(len & _ & Hl & -> & Hp & _ & -> & ->)];
      [now apply (i_ae n H2 t ldr prev pt ents lc)|].
    rewrite (i_leader_log n H2 ldr Hl), (i_leader n H1 ldr Hl).
    split; [discriminate|]. split; [rewrite firstn_length, skipn_length; lia|].
    split; [now apply firstn_segment | reflexivity].
  Qed.

  Lemma I_vote_log_ok_step n l n' : inv1 n -> inv2 n -> fresh n l -> step V n l n' -> I_vote_log_ok n'.
  Proof.
    intros H1 H2 Hf Hstep t w c vl Hin.
    apply (log_ok_gext n n' _ (step_gext n l n' H1 H2 Hf Hstep)).
    destruct (new_vote V n l n' t w c vl Hstep Hin) as [Hold|(-> & _)];
      [exact (i_vote_log_ok n H2 t w c vl Hold) | apply (i_log_ok n H2)].
  Qed.

  Lemma inv2_step n l n' : inv1 n -> inv2 n -> fresh n l -> step V n l n' -> inv2 n'.
  Proof.
    intros H1 H2 Hf Hstep. constructor.
    - eapply I_lead_none_step; eauto.
    - eapply I_llog0_step; eauto.
    - eapply I_llog_terms_step; eauto.
    - eapply I_llog_sorted_step; eauto.
    - eapply I_llog_ok_step; eauto.
    - eapply I_leader_log_step; eauto.
    - eapply I_log_ok_step; eauto.
    - eapply I_log_terms_step; eauto.
    - eapply I_ae_step; eauto.
    - eapply I_vote_log_ok_step; eauto.
  Qed.

  Lemma inv2_init : inv2 (init).
  Proof.
    constructor; red; simpl; intros; try contradiction; try discriminate; auto.
    - now exists [].
    - intros j1 j2 Hj Hl. simpl in Hl. lia.
    - intros j Hj. simpl in Hj. lia.
    - intros j Hj. simpl in Hj. lia.
  Qed.

  Lemma inv12_steps n ls n' :
    inv1q V n -> inv2 n -> steps V n ls n' -> inv1q V n' /\ inv2 n'.
  Proof.
    intros H1 H2 Hs. induction Hs; [now split|]. apply IHHs.
    - eapply inv1q_step; eauto.
    - destruct H1 as (H1 & Hq). eapply inv2_step; eauto. eapply fresh_fixed; eauto.
  Qed.

  Lemma inv2_reachable n : reachable V n -> inv2 n.
  Proof.
    intros (ls & Hs). eapply inv12_steps; [apply inv1q_init | apply inv2_init | exact Hs].
  Qed.

  (* the logs that exist in a state: node logs, the sender's view implied by an AE
     message, logs recorded in votes, and the leaders' logs *)
  Inductive known_log (n : net) : list entry -> Prop :=
  | KNode i : known_log n (log (nodes n i))
  | KAE t ldr prev pt ents lc :
      In (AE t ldr prev pt ents lc) (msgs n) ->
      known_log n (firstn prev (llog n t) ++ ents)
  | KVote t w c vl : In (Vote t w c vl) (msgs n) -> known_log n vl
  | KLeader t : known_log n (llog n t).

  Lemma known_log_ok n l : inv2 n -> known_log n l -> log_ok (llog n) l.
  Proof.
    intros H2 [i|t ldr prev pt ents lc Hin|t w c vl Hin|t].
    - apply (i_log_ok n H2).
    - destruct (i_ae n H2 _ _ _ _ _ _ Hin) as (_ & _ & -> & _).
      apply log_ok_firstn, (i_llog_ok n H2).
    - eapply (i_vote_log_ok n H2); eauto.
    - apply (i_llog_ok n H2).
  Qed.

  Theorem log_matching n a b k :
    reachable V n -> known_log n a -> known_log n b ->
    1 <= k -> k <= length a -> k <= length b ->
    term_at a k = term_at b k -> firstn k a = firstn k b.
  Proof.
    intros Hr Ha Hb. pose proof (inv2_reachable n Hr) as H2.
    apply (log_ok_matching n); now apply known_log_ok.
  Qed.

  (* the AE's prevTerm is the term of its implied log at prev, so a receiver that
     matches at prev has the sender's whole prefix *)
  Theorem ae_prev_match n t ldr prev pt ents lc i :
    reachable V n -> In (AE t ldr prev pt ents lc) (msgs n) ->
    term_at (log (nodes n i)) prev = pt ->
    firstn prev (log (nodes n i)) = firstn prev (llog n t) /\ prev <= length (log (nodes n i)).
  Proof.
    intros Hr Hin Hpt. pose proof (inv2_reachable n Hr) as H2.
    destruct (ae_view n _ _ _ _ _ _ _ H2 Hin (i_log_ok n H2 i) Hpt) as (Hp & Hv & _ & _).
    split; [|exact Hp].
    destruct (i_ae n H2 _ _ _ _ _ _ Hin) as (_ & Hlen & Hseg & _).
    rewrite <- Hseg in Hv. apply app_inv_tail in Hv. exact Hv.
  Qed.

  Theorem log_terms_sorted n l : reachable V n -> known_log n l -> sorted l.
  Proof.
    intros Hr Hk. pose proof (inv2_reachable n Hr) as H2.
    eapply log_ok_sorted; [apply H2 | now apply known_log_ok].
  Qed.

End Log.
