(* L2: what one step does to the log and the commit indexes of a node; preservation of
   inv3a and inv3b; the whole invariant [inv] of stages 1 and 2. *)
From DB Require Import Model.RaftNet Model.RaftNetCfg Proofs.RaftNetLists Proofs.RaftNetElection Proofs.RaftNetLog
  Proofs.RaftNetCommitDefs.

Section Commit.
  Variable V : list id.
  Hypothesis V_nodup : NoDup V.

  Notation inv3b := (inv3b V).
  Notation step := (step V).

  (* an acknowledged prefix survives an AE of the node's term, or the AE's leader is to blame *)
  Lemma ae_overwrite n w T ldr prev pt ents lc l' t k :
    inv2 n -> inv3a n ->
    In (AE T ldr prev pt ents lc) (msgs n) -> term (nodes n w) = T ->
    term_at (log (nodes n w)) prev = pt ->
    try_append (log (nodes n w)) (commit (nodes n w)) prev ents = Some l' ->
    acked n t w k ->
    agree k l' (llog n t) \/ blamed n t k T.
  Proof.
    intros H2 H3 Hin HT Hpt Hta Hack.
    pose proof (acked_len n t w k (i_ack_le n H3) Hack) as Hk.
    pose proof (acked_term n t w k (i_ack_le n H3) Hack) as Hle. rewrite HT in Hle.
    destruct (i_ae n H2 _ _ _ _ _ _ Hin) as (Hlead & _).
    destruct (i_ack_node n H3 t w k Hack) as [Hag|Hb]; [|right; now rewrite <- HT].
    destruct (Nat.eq_dec t T) as [->|Hne].
    - left. now apply (handle_ae_keeps n T ldr prev pt ents lc _ _ l' k H2 Hin (i_log_ok n H2 w) Hpt Hta).
    - destruct (agree_dec k (llog0 n T) (llog n t)) as [Hy|Hn].
      + left.
        assert (HagT : agree k (llog n T) (llog n t)).
        { destruct (i_llog0 n H2 T) as (ext & ->). apply agree_ext_l; [exact Hy|].
          apply agree_sym in Hy. eapply agree_len; eauto. }
        eapply agree_trans; [|exact HagT].
        apply (handle_ae_keeps n T ldr prev pt ents lc _ _ l' k H2 Hin (i_log_ok n H2 w) Hpt Hta).
        eapply agree_trans; [exact Hag|]. now apply agree_sym.
      + right. exists T. split; [lia|]. split; assumption.
  Qed.

  Lemma new_ack_sound n l n' t w ldr m :
    inv2 n -> inv3a n -> agl n -> step n l n' ->
    In (Ack t w ldr m) (msgs n') ->
    In (Ack t w ldr m) (msgs n) \/
    (term (nodes n w) = t /\ term (nodes n' w) = t /\ m <= length (llog n' t) /\
     agree m (log (nodes n' w)) (llog n' t)).
  Proof.
    intros H2 H3 Hagl Hstep Hin.
    inv_step Hstep; msg_cases Hin; auto; right; rewrite ?upd_eq; cbn [term log].
    - match goal with Hae : In (AE _ _ _ _ _ _) _ |- _ =>
        destruct (i_ae n H2 _ _ _ _ _ _ Hae) as (Hlead & _) end.
      destruct (Hagl w _ eq_refl Hlead) as (Hag & Hlen).
      destruct (i_commit_bounds n H3 w) as (Hc & _).
      repeat split; auto; [lia|]. eapply agree_le; eauto.
    - match goal with Hae : In (AE _ _ _ _ _ _) _, Hta : try_append _ _ _ _ = _ |- _ =>
        destruct (i_ae n H2 _ _ _ _ _ _ Hae) as (Hlead & Hlen & _);
        pose proof (handle_ae_agree n _ _ _ _ _ _ _ _ _ H2 Hae (i_log_ok n H2 w) eq_refl Hta)
          as Hag end.
      repeat split; auto.
    - match goal with Hr : role (nodes n ?k) = Leader |- _ => rewrite (i_leader_log n H2 k Hr) end.
      repeat split; auto.
  Qed.

  Lemma acks_le_spec ms i m t ldr k :
    acks_le ms i m = true -> In (Ack t i ldr k) ms -> k <= m.
  Proof.
    unfold acks_le. intros H Hin. rewrite forallb_forall in H. specialize (H _ Hin).
    simpl in H. rewrite Nat.eqb_refl in H. simpl in H. now apply Nat.leb_le.
  Qed.

  (* what one step does to the log and the commit indexes of node w: nothing or an append
     (becoming leader, a proposal); a Replicate handled; the leader's commit index advanced;
     a heartbeat handled; a restart *)
  Lemma step_node_log n l n' w :
    step n l n' ->
    let x := nodes n w in let x' := nodes n' w in
    (exists e, log x' = log x ++ e /\ commit x' = commit x /\ hcommit x' = hcommit x /\
       (e = [] \/ (l = LBecomeLeader w /\ role x = Candidate /\ e = [noop (term x)]) \/
        exists p, l = LPropose w p /\ role x = Leader /\ e = [mkE (term x) p])) \/
    (exists ldr prev ents lc,
       In (AE (term x) ldr prev (term_at (log x) prev) ents lc) (msgs n) /\ term x' = term x /\
       commit x <= prev /\ try_append (log x) (commit x) prev ents = Some (log x') /\
       commit x' = Nat.max (commit x) (Nat.min lc (prev + length ents)) /\
       hcommit x' = Nat.max (hcommit x) (commit x')) \/
    (exists k, l = LAdvanceCommit w k /\ role x = Leader /\ commit x < k /\
       term_at (log x) k = term x /\ quorum V <= ack_count V (msgs n) (term x) k /\
       log x' = log x /\ commit x' = k /\ hcommit x' = Nat.max (hcommit x) k) \/
    (exists ldr c, In (HB (term x) ldr w c) (msgs n) /\ c <= length (log x) /\
       log x' = log x /\ commit x' = Nat.max (commit x) c /\
       hcommit x' = Nat.max (hcommit x) (commit x')) \/
    (exists c m, l = LRestart w c m /\ c <= commit x /\ hcommit x <= m /\
       acks_le (msgs n) w m = true /\
       log x' = firstn m (log x) /\ commit x' = c /\ hcommit x' = hcommit x).
  Proof.
    intros Hstep x x'. subst x.
    destruct (Nat.eq_dec w (actor l)) as [->|Hne].
    2:{ subst x'. rewrite (step_other V n l n' w Hstep Hne). left. exists []. rewrite app_nil_r. auto. }
    (* the node after the step is kept abstract while the rules are told apart: the
       statement is large *)
    assert (E : x' = nodes n' (actor l)) by reflexivity. clearbody x'. revert E.
    destruct Hstep; cbn [actor nodes]; rewrite ?upd_eq; intros E;
      repeat match goal with y := _ |- _ => subst y end; subst; cbn [term role log commit hcommit];
      try (left; exists []; rewrite app_nil_r; repeat split; now left).
    - left. eexists. repeat split. right. left. auto.
    - left. eexists. repeat split. right. right. exists p. auto.
    - right. left. do 4 eexists. repeat split; eauto.
    - do 2 right. left. eexists. repeat split; eauto.
    - do 3 right. left. do 2 eexists. repeat split; eauto.
    - do 4 right. do 2 eexists. repeat split; eauto.
  Qed.

  Lemma step_log_cases n l n' w :
    step n l n' ->
    (exists e, log (nodes n' w) = log (nodes n w) ++ e) \/
    (exists ldr prev ents lc,
       In (AE (term (nodes n w)) ldr prev (term_at (log (nodes n w)) prev) ents lc) (msgs n) /\
       term (nodes n' w) = term (nodes n w) /\
       try_append (log (nodes n w)) (commit (nodes n w)) prev ents = Some (log (nodes n' w))) \/
    (exists m, log (nodes n' w) = firstn m (log (nodes n w)) /\ hcommit (nodes n w) <= m /\
               acks_le (msgs n) w m = true).
  Proof.
    intros Hstep.
    destruct (step_node_log n l n' w Hstep)
      as [(e & -> & _)|[(ldr & prev & ents & lc & Hae & HT & _ & Hta & _)
         |[(k & _ & _ & _ & _ & _ & -> & _)|[(ldr & c & _ & _ & -> & _)
         |(c & m & _ & _ & Hm & Hacks & -> & _)]]]];
      [eauto | right; left; exists ldr, prev, ents, lc; auto
      | left; exists []; now rewrite app_nil_r .. | right; right; eauto].
  Qed.

  Lemma step_commit_mono n l n' i :
    step n l n' ->
    commit (nodes n i) <= commit (nodes n' i) \/
    exists c m, l = LRestart i c m /\ commit (nodes n' i) = c.
  Proof.
    intros Hstep.
    destruct (step_node_log n l n' i Hstep)
      as [(e & _ & -> & _)|[(ldr & prev & ents & lc & _ & _ & _ & _ & -> & _)
         |[(k & _ & _ & Hk & _ & _ & _ & -> & _)|[(ldr & c & _ & _ & _ & -> & _)
         |(c & m & -> & _ & _ & _ & _ & -> & _)]]]]; [left; lia .. | right; eauto].
  Qed.

  Lemma elect_core n i w vl t k :
    inv2 n -> inv3a n ->
    role (nodes n i) = Candidate -> last_term (log (nodes n i)) < term (nodes n i) ->
    In (Vote (term (nodes n i)) w i vl) (msgs n) ->
    t < term (nodes n i) -> 1 <= k -> acked n t w k -> term_at (llog n t) k = t ->
    (agree k (log (nodes n i)) (llog n t) /\ k <= length (log (nodes n i))) \/
    blamed n t k (term (nodes n i)).
  Proof.
    intros H2 H3a Hrole HUT Hvote Hlt Hk Hack Hterm.
    set (L := log (nodes n i)) in *. set (T0 := term (nodes n i)) in *.
    pose proof (acked_len n t w k (i_ack_le n H3a) Hack) as Hklen.
    destruct (i_vote_pair n H3a T0 w i vl t k Hvote Hack Hlt) as [Hag|Hb]; [|now right].
    assert (Hkvl : k <= length vl).
    { apply agree_sym in Hag. eapply agree_len; eauto. }
    assert (Htvl : term_at vl k = t).
    { rewrite (agree_term_at k k _ _ Hag); auto. }
    assert (Ht1 : 1 <= t).
    { destruct (term_at_In (llog n t) k) as (e & He & Hte); [lia|].
      pose proof (i_llog_terms n H2 t e He). lia. }
    destruct (i_vote_utd n H3a _ _ _ _ Hvote) as (li & lt & Hrv & Hutd).
    destruct (i_rv n H3a _ _ _ _ Hrv) as (_ & Hrv2).
    destruct (Hrv2 eq_refl Hrole) as (-> & ->). fold L in Hutd.
    pose proof (i_vote_log_ok n H2 _ _ _ _ Hvote) as Hvok.
    pose proof (log_ok_sorted n vl (i_llog_sorted n H2) Hvok) as Hvs.
    assert (Hlv : t <= last_term vl).
    { unfold last_term. rewrite <- Htvl. apply Hvs; lia. }
    set (U := last_term L) in *.
    assert (HU : last_term vl < U \/ (U = last_term vl /\ length vl <= length L)).
    { unfold up_to_date in Hutd. apply orb_true_iff in Hutd. destruct Hutd as [H|H].
      - left. now apply Nat.ltb_lt in H.
      - right. apply andb_prop in H. destruct H as [Ha Hb].
        apply Nat.eqb_eq in Ha. apply Nat.leb_le in Hb. split; assumption. }
    assert (HUge : t <= U) by (destruct HU; lia).
    assert (HLr : 1 <= length L <= length L).
    { apply term_at_in_range. fold (last_term L). fold U. lia. }
    pose proof (i_log_ok n H2 i (length L) HLr) as HagL. fold L in HagL.
    fold (last_term L) in HagL. fold U in HagL.
    destruct HU as [HltU|(HeqU & Hlen)].
    - assert (HlU : lead n U <> None).
      { intros E. destruct (i_lead_none n H2 U E) as (El & _).
        rewrite El in HagL. apply agree_len in HagL; simpl in *; lia. }
      destruct (agree_dec k (llog0 n U) (llog n t)) as [Hy|Hn].
      + left.
        assert (HagU : agree k (llog n U) (llog n t)).
        { destruct (i_llog0 n H2 U) as (ext & ->). apply agree_ext_l; [exact Hy|].
          apply agree_sym in Hy. eapply agree_len; eauto. }
        assert (HkU : k <= length (llog n U)).
        { apply agree_sym in HagU. eapply agree_len; eauto. }
        assert (HkL : k <= length L).
        { destruct (Nat.le_gt_cases k (length L)) as [|Hgt]; [assumption|]. exfalso.
          assert (E1 : term_at (llog n U) (length L) = U).
          { rewrite <- (agree_term_at (length L) (length L) _ _ HagL); auto. }
          assert (E2 : term_at (llog n U) k = t).
          { rewrite (agree_term_at k k _ _ HagU); auto. }
          pose proof (i_llog_sorted n H2 U (length L) k ltac:(lia) HkU). lia. }
        split; [|exact HkL].
        eapply agree_trans; [|exact HagU]. eapply agree_le; [exact HagL | exact HkL].
      + right. exists U. split; [lia|]. split; assumption.
    - left.
      assert (Hvr : 1 <= length vl <= length vl) by lia.
      pose proof (Hvok (length vl) Hvr) as Hagv. fold (last_term vl) in Hagv.
      rewrite <- HeqU in Hagv.
      assert (HLv : agree (length vl) L vl).
      { eapply agree_trans; [eapply agree_le; [exact HagL | exact Hlen]|]. now apply agree_sym. }
      split; [|lia].
      eapply agree_trans; [eapply agree_le; [exact HLv | exact Hkvl]|]. exact Hag.
  Qed.

  Lemma no_leader_last_term n i :
    inv2 n -> 1 <= term (nodes n i) -> lead n (term (nodes n i)) = None ->
    last_term (log (nodes n i)) < term (nodes n i).
  Proof.
    intros H2 H1 Hnone. set (L := log (nodes n i)). set (T0 := term (nodes n i)) in *.
    destruct (Nat.eq_dec (last_term L) 0) as [E|E]; [lia|].
    assert (HLr : 1 <= length L <= length L) by (apply term_at_in_range; exact E).
    pose proof (i_log_ok n H2 i (length L) HLr) as HagL. fold L in HagL.
    fold (last_term L) in HagL.
    destruct (term_at_In L (length L) HLr) as (e & He & Hte).
    pose proof (i_log_terms n H2 i e He) as Hle. fold T0 in Hle.
    unfold last_term in *. rewrite Hte in *.
    destruct (Nat.eq_dec (eterm e) T0) as [E0|]; [|lia]. exfalso.
    rewrite E0 in HagL. destruct (i_lead_none n H2 T0 Hnone) as (El & _).
    rewrite El in HagL. apply agree_len in HagL; simpl in *; lia.
  Qed.

  Lemma I_ack_le_step n l n' :
    inv1 n -> inv2 n -> inv3a n -> agl n -> fresh n l -> step n l n' -> I_ack_le n'.
  Proof.
    intros H1 H2 H3a Hagl Hf Hstep t w ldr m Hin.
    pose proof (step_gext V n l n' H1 H2 Hf Hstep) as Hg.
    destruct (new_ack_sound n l n' t w ldr m H2 H3a Hagl Hstep Hin) as [Hold|(_ & Ht & Hm & _)].
    - destruct (i_ack_le n H3a _ _ _ _ Hold) as (Ha & Hb).
      pose proof (step_term_mono V n l n' w Hstep). pose proof (llog_len_gext n n' t Hg). lia.
    - lia.
  Qed.

  Lemma I_ack_node_step n l n' :
    inv1 n -> inv2 n -> inv3a n -> agl n -> fresh n l -> step n l n' -> I_ack_node n'.
  Proof.
    intros H1 H2 H3a Hagl Hf Hstep t w k (ldr & m & Hkm & Hin).
    pose proof (step_gext V n l n' H1 H2 Hf Hstep) as Hg.
    destruct (new_ack_sound n l n' t w ldr m H2 H3a Hagl Hstep Hin) as [Hold|(_ & _ & _ & Hag)].
    2:{ left. eapply agree_le; eauto. }
    assert (Hack : acked n t w k) by (exists ldr, m; auto).
    pose proof (acked_len n t w k (i_ack_le n H3a) Hack) as Hklen.
    pose proof (step_term_mono V n l n' w Hstep) as Hmono.
    assert (Hblame : forall T, blamed n t k T -> T <= term (nodes n' w) ->
                               blamed n' t k (term (nodes n' w))).
    { intros T Hb HT. eapply blamed_mono; [eapply blamed_gext; eauto | exact HT]. }
    destruct (step_log_cases n l n' w Hstep)
      as [(e & He)|[(ldr' & prev & ents & lc & Hae & HT' & Hta)|(m0 & Hm0 & _ & Hacks)]].
    - destruct (i_ack_node n H3a t w k Hack) as [Hag|Hb]; [left | right; eauto].
      rewrite He. apply (agree_gext_r n n' k _ t Hg Hklen).
      apply agree_ext_l; [exact Hag|]. apply agree_sym in Hag. eapply agree_len; eauto.
    - destruct (ae_overwrite n w _ ldr' prev _ ents lc _ t k H2 H3a Hae eq_refl eq_refl Hta Hack)
        as [Hag|Hb].
      + left. now apply (agree_gext_r n n' k _ t Hg Hklen).
      + right. apply (Hblame _ Hb). lia.
    - destruct (i_ack_node n H3a t w k Hack) as [Hag|Hb]; [left | right; eauto].
      rewrite Hm0. apply (agree_gext_r n n' k _ t Hg Hklen).
      eapply agree_trans; [|exact Hag]. apply agree_firstn.
      pose proof (acks_le_spec _ _ _ _ _ _ Hacks Hold). lia.
  Qed.

  Lemma handle_ae_hcommit n w ldr prev ents lc l' :
    inv2 n -> agl n ->
    In (AE (term (nodes n w)) ldr prev (term_at (log (nodes n w)) prev) ents lc) (msgs n) ->
    try_append (log (nodes n w)) (commit (nodes n w)) prev ents = Some l' ->
    let T := term (nodes n w) in
    agree (hcommit (nodes n w)) l' (log (nodes n w)) /\
    hcommit (nodes n w) <= length l' /\
    agree (prev + length ents) l' (llog n T) /\
    prev + length ents <= length l' /\ prev + length ents <= length (llog n T).
  Proof.
    intros H2 Hagl Hae Hta T.
    destruct (i_ae n H2 _ _ _ _ _ _ Hae) as (Hlead & Hlen & _).
    destruct (Hagl w T eq_refl Hlead) as (Hag & Hhl).
    pose proof (handle_ae_keeps n T ldr prev _ ents lc _ _ l' _ H2 Hae (i_log_ok n H2 w) eq_refl
                                Hta Hag) as Hk.
    pose proof (handle_ae_agree n _ _ _ _ _ _ _ _ _ H2 Hae (i_log_ok n H2 w) eq_refl Hta) as Hm.
    fold T in Hm.
    repeat split; try assumption.
    - eapply agree_trans; [exact Hk|]. now apply agree_sym.
    - apply agree_sym in Hk. eapply agree_len; eauto.
    - apply agree_sym in Hm. eapply agree_len; eauto.
  Qed.

  (* tryAppend never finds a conflict at or below the commit index: up to there the log
     agrees with the log of the sender, whose view the message carries *)
  Lemma try_append_defined n j ldr prev ents lc :
    inv2 n -> inv3a n -> agl n ->
    In (AE (term (nodes n j)) ldr prev (term_at (log (nodes n j)) prev) ents lc) (msgs n) ->
    try_append (log (nodes n j)) (commit (nodes n j)) prev ents <> None.
  Proof.
    intros H2 H3a Hagl Hae. unfold try_append.
    destruct (first_conflict (log (nodes n j)) (S prev) ents) as [ci|] eqn:Hfc; [|discriminate].
    destruct (Nat.ltb_spec (commit (nodes n j)) ci) as [|Hge]; [discriminate|]. exfalso.
    destruct (ae_view n _ _ _ _ _ _ _ H2 Hae (i_log_ok n H2 j) eq_refl) as (Hprev & Hview & Hpos & LM).
    destruct (first_conflict_some (log (nodes n j)) prev ents ci Hprev Hpos LM Hfc) as (Hci & _ & Hne & _).
    destruct (i_ae n H2 _ _ _ _ _ _ Hae) as (Hlead & Hlen & _).
    destruct (Hagl j _ eq_refl Hlead) as (Hag & _).
    destruct (i_commit_bounds n H3a j) as (Hc & _).
    apply Hne. rewrite Hview.
    rewrite (agree_term_at _ ci _ _ Hag) by lia.
    symmetry. apply term_at_firstn. lia.
  Qed.

  Lemma hcommit_stable n l n' i :
    inv2 n -> inv3a n -> agl n -> step n l n' ->
    hcommit (nodes n i) <= hcommit (nodes n' i) /\
    agree (hcommit (nodes n i)) (log (nodes n' i)) (log (nodes n i)).
  Proof.
    intros H2 H3a Hagl Hstep. destruct (i_commit_bounds n H3a i) as (_ & Hb).
    destruct (step_node_log n l n' i Hstep)
      as [(e & -> & _ & -> & _)|[(ldr & prev & ents & lc & Hae & _ & _ & Hta & _ & ->)
         |[(k & _ & _ & _ & _ & _ & -> & _ & ->)|[(ldr & c & _ & _ & -> & _ & ->)
         |(c & m & _ & _ & Hm & _ & -> & _ & ->)]]]];
      (split; [lia|]); auto using agree_refl, agree_app_l, agree_firstn.
    now destruct (handle_ae_hcommit n i ldr prev ents lc _ H2 Hagl Hae Hta).
  Qed.

  Lemma I_commit_bounds_step n l n' :
    inv1 n -> inv2 n -> inv3a n -> agl n -> step n l n' -> I_commit_bounds n'.
  Proof.
    intros H1 H2 H3a Hagl Hstep w.
    pose proof (i_commit_bounds n H3a w) as Hold.
    destruct (step_node_log n l n' w Hstep)
      as [(e & -> & -> & -> & _)|[(ldr & prev & ents & lc & Hae & _ & _ & Hta & -> & ->)
         |[(k & _ & Hr & _ & Ht & _ & -> & -> & ->)|[(ldr & c & _ & Hc & -> & -> & ->)
         |(c & m & _ & Hc & Hm & _ & -> & -> & ->)]]]].
    - rewrite app_length. lia.
    - destruct (handle_ae_hcommit n _ _ _ _ _ _ H2 Hagl Hae Hta) as (_ & Ha & _ & Hb & _). lia.
    - assert (1 <= term (nodes n w)) by (apply (i_role_term n H1); congruence).
      assert (1 <= k <= length (log (nodes n w))) by (apply term_at_in_range; lia). lia.
    - lia.
    - rewrite firstn_length. lia.
  Qed.

  Lemma I_vote_pair_step n l n' :
    inv1 n -> inv2 n -> inv3a n -> agl n -> fresh n l -> step n l n' -> I_vote_pair n'.
  Proof.
    intros H1 H2 H3a Hagl Hf Hstep T w c vl t k Hvote Hack Hlt.
    pose proof (step_gext V n l n' H1 H2 Hf Hstep) as Hg.
    assert (Hn : acked n t w k /\ (agree k vl (llog n t) \/ blamed n t k T)).
    { destruct (new_vote V n l n' T w c vl Hstep Hvote) as [Hvold|(-> & HT & _ & _ & Hacks & _)].
      - destruct Hack as (ldr & m & Hkm & Hin).
        destruct (new_ack_sound n l n' t w ldr m H2 H3a Hagl Hstep Hin) as [Hold|(Ht & _)].
        + assert (Hack : acked n t w k) by (exists ldr, m; auto).
          split; [exact Hack|]. eapply (i_vote_pair n H3a); eauto.
        + pose proof (i_vote_le n H1 _ _ _ _ Hvold). lia.
      - assert (Hack' : acked n t w k).
        { destruct Hack as (ldr & m & Hk & Ha). exists ldr, m. auto. }
        split; [exact Hack'|].
        destruct (i_ack_node n H3a t w k Hack') as [Hag|Hb]; [now left|].
        right. eapply blamed_mono; eauto. pose proof (step_term_mono V n l n' w Hstep). lia. }
    destruct Hn as (Hack' & Hn).
    pose proof (acked_len n t w k (i_ack_le n H3a) Hack') as Hklen.
    destruct Hn as [Hag|Hb].
    - left. now apply (agree_gext_r n n' k _ t Hg Hklen).
    - right. now apply (blamed_gext n n' t k T Hg Hklen).
  Qed.

  Lemma I_vote_utd_step n l n' : inv3a n -> step n l n' -> I_vote_utd n'.
  Proof.
    intros H3a Hstep T w c vl Hvote.
    destruct (new_vote V n l n' T w c vl Hstep Hvote) as [Hvold|(_ & _ & _ & _ & _ & Hrv)].
    - destruct (i_vote_utd n H3a _ _ _ _ Hvold) as (li & lt & Hrv & Hu).
      exists li, lt. split; [|exact Hu]. eapply step_msgs_incl; eauto.
    - exact Hrv.
  Qed.

  Lemma I_rv_step n l n' : inv3a n -> step n l n' -> I_rv n'.
  Proof.
    intros H3a Hstep T c li lt Hin. pose proof (step_term_mono V n l n' c Hstep) as Hmono.
    destruct (new_rv V n l n' T c li lt Hstep Hin) as [Hold|(-> & -> & -> & ->)].
    - destruct (i_rv n H3a T c li lt Hold) as (Hle & Hc). split; [lia|]. intros Ht Hr.
      destruct (candidate_cases V n l n' c Hstep Hr) as ([(_ & E)|(Hr0 & E)] & -> & _); [lia|].
      apply Hc; [lia | exact Hr0].
    - inv_step Hstep. rewrite upd_eq. cbn [term log]. auto.
  Qed.

  Lemma inv3a_step n l n' :
    inv1 n -> inv2 n -> inv3a n -> agl n -> fresh n l -> step n l n' -> inv3a n'.
  Proof.
    intros H1 H2 H3a Hagl Hf Hstep. constructor.
    - eapply I_commit_bounds_step; eauto.
    - eapply I_ack_le_step; eauto.
    - eapply I_ack_node_step; eauto.
    - eapply I_vote_pair_step; eauto.
    - eapply I_vote_utd_step; eauto.
    - eapply I_rv_step; eauto.
  Qed.

  Lemma inv3a_init : inv3a (init).
  Proof.
    constructor; red; simpl; intros; try contradiction; try discriminate; auto.
    destruct H as (ldr & m & _ & []).
  Qed.

  (* The three invariants about committed prefixes (of a node's log up to hcommit, of the
     leader log up to the commit index of a Replicate or a Heartbeat) are preserved for
     any notion [CP tmax c l] of "the first c entries of l were committed in a term <= tmax"
     that is closed under smaller c, later tmax and agreeing lists, survives the step
     ([CP] before, [CP'] after) and gains what AdvanceCommit commits.  Stage 1 takes
     cprefix, stage 3 cprefix3. *)
  Section Prefix.
    Variables (n n' : net) (l : label).
    Variables CP CP' : nat -> nat -> list entry -> Prop.
    Hypothesis CP_le : forall tmax c c' l0, CP' tmax c l0 -> c' <= c -> CP' tmax c' l0.
    Hypothesis CP_tmax : forall tmax tmax' c l0, CP' tmax c l0 -> tmax <= tmax' -> CP' tmax' c l0.
    Hypothesis CP_agree : forall tmax c l0 l1, CP' tmax c l0 -> agree c l1 l0 -> CP' tmax c l1.
    Hypothesis CP_0 : forall tmax l0, CP' tmax 0 l0.
    Hypothesis CP_keep : forall tmax c l0, CP tmax c l0 -> CP' tmax c l0.
    Hypothesis CP_llog : forall t c, CP t c (llog n t) -> CP' t c (llog n' t).
    Hypothesis CP_adv : forall i k, l = LAdvanceCommit i k ->
      CP' (term (nodes n i)) k (log (nodes n i)).
    Hypotheses (H2 : inv2 n) (H3a : inv3a n) (Hagl : agl n) (Hstep : step n l n').
    Hypothesis Hhc : forall w, CP (term (nodes n w)) (hcommit (nodes n w)) (log (nodes n w)).
    Hypothesis Haec : forall t ldr prev pt ents lc,
      In (AE t ldr prev pt ents lc) (msgs n) -> CP t lc (llog n t).
    Hypothesis Hhb : forall t ldr to c,
      In (HB t ldr to c) (msgs n) -> c = 0 \/ (acked n t to c /\ CP t c (llog n t)).

    Lemma CP_max tmax a b l0 : CP' tmax a l0 -> CP' tmax b l0 -> CP' tmax (Nat.max a b) l0.
    Proof. intros Ha Hb. destruct (Nat.max_spec a b) as [[_ ->]|[_ ->]]; assumption. Qed.

    (* what a leader may put into a message as commit index *)
    Lemma CP_leader i c :
      role (nodes n i) = Leader -> c <= commit (nodes n i) ->
      CP' (term (nodes n i)) c (llog n' (term (nodes n i))).
    Proof.
      intros Hl Hc. eapply CP_le; [apply CP_llog; rewrite (i_leader_log n H2 i Hl); apply Hhc|].
      pose proof (i_commit_bounds n H3a i). lia.
    Qed.

    Lemma prefix_step :
      (forall w, CP' (term (nodes n' w)) (hcommit (nodes n' w)) (log (nodes n' w))) /\
      (forall t ldr prev pt ents lc, In (AE t ldr prev pt ents lc) (msgs n') -> CP' t lc (llog n' t)) /\
      (forall t ldr to c, In (HB t ldr to c) (msgs n') ->
         c = 0 \/ (acked n' t to c /\ CP' t c (llog n' t))).
    Proof.
      split; [|split].
      - intros w. pose proof (step_term_mono V n l n' w Hstep) as Hmono.
        pose proof (CP_tmax _ _ _ _ (CP_keep _ _ _ (Hhc w)) Hmono) as Hold.
        pose proof (i_commit_bounds n H3a w) as Hb.
        destruct (step_node_log n l n' w Hstep)
          as [(e & -> & _ & -> & _)|[(ldr & prev & ents & lc & Hae & HT & _ & Hta & -> & ->)
             |[(k & El & Hr & _ & Ht & Hq & -> & _ & ->)|[(ldr & c & Hin & _ & -> & -> & ->)
             |(c & m & _ & _ & Hm & _ & -> & _ & ->)]]]].
        + eapply CP_agree; eauto. apply agree_app_l. lia.
        + destruct (handle_ae_hcommit n _ _ _ _ _ _ H2 Hagl Hae Hta) as (Hk & _ & Hm & _ & Hml).
          assert (Hh : CP' (term (nodes n' w)) (hcommit (nodes n w)) (log (nodes n' w)))
            by (eapply CP_agree; eauto).
          apply CP_max; [exact Hh|]. apply CP_max; [eapply CP_le; [exact Hh | lia]|].
          rewrite HT. eapply CP_agree; [eapply CP_le; [exact (CP_keep _ _ _ (Haec _ _ _ _ _ _ Hae)) | lia]|].
          eapply agree_le; [exact Hm | lia].
        + apply CP_max; [exact Hold|]. eapply CP_tmax; [exact (CP_adv w k El) | exact Hmono].
        + apply CP_max; [exact Hold|]. apply CP_max; [eapply CP_le; [exact Hold | lia]|].
          destruct (Hhb _ _ _ _ Hin) as [->|(Hack & Hc)]; [apply CP_0|].
          eapply CP_tmax; [|exact Hmono].
          eapply CP_agree; [exact (CP_keep _ _ _ Hc) | exact (proj1 (acked_cur n w c H3a Hack))].
        + eapply CP_agree; eauto. apply agree_firstn. lia.
      - intros t ldr prev pt ents lc Hin.
        destruct (new_ae V n l n' _ _ _ _ _ _ Hstep Hin) as [Hold|(len & _ & Hl & -> & _ & Hlc & _)];
          [exact (CP_llog _ _ (Haec _ _ _ _ _ _ Hold)) | now apply CP_leader].
      - intros t ldr to c Hin.
        destruct (new_hb V n l n' _ _ _ _ Hstep Hin) as [Hold|(_ & Hl & -> & Hc & [->|Hex])].
        + destruct (Hhb _ _ _ _ Hold) as [->|(Ha & Hcp)]; [now left | right].
          split; [eapply acked_mono; [exact (step_msgs_incl V n l n' Hstep) | exact Ha] | now apply CP_llog].
        + now left.
        + right. split; [|now apply CP_leader].
          eapply acked_mono; [exact (step_msgs_incl V n l n' Hstep) | now apply existsb_acked].
    Qed.
  End Prefix.

  (* [C T] is the voter set that elected the leader of term T: a quorum of it voted for
     that leader, and whatever a member of the quorum had acknowledged in an earlier term
     was in the new leader's log, unless some leader in between is to blame *)
  Definition elected_by (C : nat -> list id) (n : net) : Prop := forall T c,
    lead n T = Some c ->
    exists Q, is_quorum (C T) Q /\ forall w, In w Q ->
      voted_msg n T w c /\
      forall t k, t < T -> 1 <= k -> acked n t w k -> term_at (llog n t) k = t ->
                  agree k (llog0 n T) (llog n t) \/ blamed n t k (T - 1).

  Lemma elected_step C C' n l n' :
    inv1 n -> inv2 n -> inv3a n -> agl n -> fresh n l -> step n l n' ->
    (forall T, lead n T <> None -> C' T = C T) ->
    (forall i, l = LBecomeLeader i -> C' (term (nodes n i)) = V) ->
    elected_by C n -> elected_by C' n'.
  Proof.
    intros H1 H2 H3a Hagl Hf Hstep HC HCnew Hel T c Hl'.
    pose proof (step_gext V n l n' H1 H2 Hf Hstep) as Hg.
    pose proof (fun t w ldr m => new_ack_sound n l n' t w ldr m H2 H3a Hagl Hstep) as Hnew.
    destruct (lead n T) as [c0|] eqn:Hl.
    - pose proof (step_lead_mono V n l n' T c0 Hf Hstep Hl) as Hl2.
      assert (c0 = c) by congruence. subst c0. rewrite HC by congruence.
      destruct (Hel T c Hl) as (Q & HQ & HQw).
      exists Q. split; [exact HQ|]. intros w Hw. destruct (HQw w Hw) as (Hv & Hp).
      split; [eapply voted_msg_mono; [apply Hg | exact Hv]|].
      intros t k Hlt Hk (ldr & m & Hkm & Hin) Hterm.
      destruct (Hnew t w ldr m Hin) as [Hold|(Ht & _)].
      2:{ destruct Hv as (vl & Hv). pose proof (i_vote_le n H1 _ _ _ _ Hv). lia. }
      assert (Hack : acked n t w k) by (exists ldr, m; auto).
      pose proof (acked_len n t w k (i_ack_le n H3a) Hack) as Hklen.
      rewrite (term_at_gext n n' t k Hg Hklen) in Hterm.
      assert (Hl0 : llog0 n' T = llog0 n T).
      { destruct Hg as (_ & _ & _ & Hg4). apply Hg4. congruence. }
      rewrite Hl0.
      destruct (Hp t k Hlt Hk Hack Hterm) as [Hag|Hb].
      + left. now apply (agree_gext_r n n' k _ t Hg Hklen).
      + right. now apply (blamed_gext n n' t k _ Hg Hklen).
    - destruct (step_ghost V n l n' Hstep)
        as [(E & _)|[(i & -> & Hr & Hq & E & E0 & El & Elog)|(i & p & _ & _ & E & _)]];
        rewrite E in Hl'; try congruence.
      destruct (Nat.eq_dec T (term (nodes n i))) as [->|HneT];
        [|rewrite updg_neq in Hl' by assumption; congruence].
      rewrite updg_eq in Hl'. injection Hl' as <-. rewrite (HCnew i eq_refl).
      destruct (count_vote_quorum V V_nodup n _ _ Hq) as (Q & HQ & HQw).
      exists Q. split; [exact HQ|]. intros w Hw. destruct (HQw w Hw) as (vl & Hv).
      split; [exists vl; apply Hg, Hv|].
      intros t k Hlt Hk (ldr & m & Hkm & Hin) Hterm.
      assert (Hne : t <> term (nodes n i)) by lia.
      rewrite El, (updg_neq _ _ _ _ Hne) in Hterm.
      destruct (Hnew t w ldr m Hin) as [Hold|(Ht & _)].
      2:{ pose proof (i_vote_le n H1 _ _ _ _ Hv). lia. }
      assert (Hack : acked n t w k) by (exists ldr, m; auto).
      assert (HUT : last_term (log (nodes n i)) < term (nodes n i)).
      { apply no_leader_last_term; auto. apply (i_role_term n H1). congruence. }
      destruct (elect_core n i w vl t k H2 H3a Hr HUT Hv Hlt Hk Hack Hterm) as [(Hag & HkL)|Hb].
      + left. rewrite E0, El, updg_eq, (updg_neq _ _ _ _ Hne), Elog. now apply agree_ext_l.
      + right. destruct Hb as (U & HU & HlU & Hna).
        assert (HneU : U <> term (nodes n i)) by (intros ->; contradiction).
        exists U. split; [lia|].
        rewrite E, E0, El, !(updg_neq _ _ _ _ HneU), (updg_neq _ _ _ _ Hne). split; assumption.
  Qed.

  Lemma inv3b_step n l n' :
    inv1 n -> inv2 n -> inv3a n -> inv3b n -> fresh n l -> step n l n' -> inv3b n'.
  Proof.
    intros H1 H2 H3a H3b Hf Hstep.
    pose proof (agl_fixed V n H2 H3a H3b) as Hagl.
    pose proof (step_gext V n l n' H1 H2 Hf Hstep) as Hg.
    assert (Hadv : forall i k, l = LAdvanceCommit i k ->
                     cprefix V n' (term (nodes n i)) k (log (nodes n i))).
    { intros i k ->. pose proof Hstep as Hs. inv_step Hs.
      assert (1 <= term (nodes n i)) by (apply (i_role_term n H1); congruence).
      assert (1 <= k <= length (log (nodes n i))) by (apply term_at_in_range; lia).
      pose proof (i_leader_log n H2 i ltac:(assumption)) as Hll.
      apply (cprefix_gext V n _ _ _ _ Hg). right. exists (term (nodes n i)), k.
      split; [lia|]. split; [lia|]. rewrite <- Hll. split; [|apply agree_refl].
      split; [now rewrite Hll|]. split; [now rewrite Hll | now apply count_ack_quorum]. }
    destruct (prefix_step n n' l (cprefix V n) (cprefix V n') (cprefix_le V n') (cprefix_tmax V n')
                (cprefix_agree V n') (fun _ _ => or_introl eq_refl)
                (fun tmax c l0 => cprefix_gext V n n' tmax c l0 Hg)
                (fun t c => cprefix_gext_llog V n n' t c Hg) Hadv H2 H3a Hagl Hstep (i_hcommit V n H3b)
                (i_ae_commit V n H3b) (i_hb V n H3b)) as (A & B & C).
    constructor; auto.
    - exact (elected_step _ _ n l n' H1 H2 H3a (agl_fixed V n H2 H3a H3b) Hf Hstep
                          (fun _ _ => eq_refl) (fun _ _ => eq_refl) (i_elected V n H3b)).
  Qed.

  Lemma inv3b_init : inv3b (init).
  Proof.
    constructor; red; simpl; intros; try contradiction; try discriminate; auto.
    now left.
  Qed.

  Record inv (n : net) : Prop := {
    inv_1 : inv1 n;
    inv_q : I_lead_quorum V n;
    inv_2 : inv2 n;
    inv_3a : inv3a n;
    inv_3b : inv3b n
  }.

  Lemma inv_init : inv init.
  Proof.
    constructor; [apply inv1_init | intros t c H; discriminate | apply inv2_init
                 | apply inv3a_init | apply inv3b_init].
  Qed.

  Lemma inv_fresh n l n' : inv n -> step n l n' -> fresh n l.
  Proof. intros [H1 Hq H2 H3a H3b] Hstep. eapply fresh_fixed; eauto. Qed.

  Lemma inv_agl n : inv n -> agl n.
  Proof. intros [H1 Hq H2 H3a H3b]. now apply (agl_fixed V). Qed.

  Lemma inv_step n l n' : inv n -> step n l n' -> inv n'.
  Proof.
    intros Hi Hstep. pose proof (inv_fresh n l n' Hi Hstep) as Hf.
    pose proof (inv_agl n Hi) as Hagl. destruct Hi as [H1 Hq H2 H3a H3b]. constructor.
    - eapply inv1_step; eauto.
    - eapply I_lead_quorum_step; eauto.
    - eapply inv2_step; eauto.
    - eapply inv3a_step; eauto.
    - eapply inv3b_step; eauto.
  Qed.

  Lemma inv_steps n ls n' : inv n -> steps V n ls n' -> inv n'.
  Proof. intros Hi Hs. induction Hs; [assumption|]. apply IHHs. eapply inv_step; eauto. Qed.

  Lemma inv_reachable n : reachable V n -> inv n.
  Proof. intros (ls & Hs). eapply inv_steps; [apply inv_init | exact Hs]. Qed.

End Commit.
